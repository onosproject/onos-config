(* Byte strings: Go `string` values are modelled as lists of byte codes (N).
   Stdlib only (keeps coqc start-up short). *)
From Coq Require Import List NArith Bool Lia Ascii String.
Import ListNotations.
Export String.StringSyntax.
Open Scope N_scope.

Definition str := list N.

(* readable literals in examples: B "abc" *)
Fixpoint B (s : string) : str :=
  match s with
  | EmptyString => []
  | String c s' => N_of_ascii c :: B s'
  end.
Arguments B s%string.

Fixpoint eqb_str (a b : str) : bool :=
  match a, b with
  | [], [] => true
  | x :: a', y :: b' => (x =? y) && eqb_str a' b'
  | _, _ => false
  end.

Lemma eqb_str_eq a b : eqb_str a b = true <-> a = b.
Proof.
  revert b; induction a as [|x a IH]; intros [|y b]; cbn; split; try congruence; try reflexivity.
  - rewrite andb_true_iff, N.eqb_eq, IH. intros [-> ->]; reflexivity.
  - intros [= -> ->]. rewrite N.eqb_refl. cbn. apply IH. reflexivity.
Qed.

Lemma eqb_str_refl a : eqb_str a a = true.
Proof. apply eqb_str_eq; reflexivity. Qed.

Lemma eqb_str_neq a b : eqb_str a b = false <-> a <> b.
Proof.
  split; intros H.
  - intros E. apply eqb_str_eq in E. congruence.
  - destruct (eqb_str a b) eqn:E; [apply eqb_str_eq in E; contradiction | reflexivity].
Qed.

Lemma eqb_str_sym a b : eqb_str a b = eqb_str b a.
Proof.
  destruct (eqb_str a b) eqn:E.
  - apply eqb_str_eq in E; subst; symmetry; apply eqb_str_refl.
  - symmetry. apply eqb_str_neq. apply eqb_str_neq in E. congruence.
Qed.

Definition str_eq_dec (a b : str) : {a = b} + {a <> b}.
Proof. decide equality. apply N.eq_dec. Defined.

(* strings.HasPrefix *)
Fixpoint prefixb (p s : str) : bool :=
  match p, s with
  | [], _ => true
  | x :: p', y :: s' => (x =? y) && prefixb p' s'
  | _ :: _, [] => false
  end.

Lemma prefixb_spec p s : prefixb p s = true <-> exists r, s = p ++ r.
Proof.
  revert s; induction p as [|x p IH]; intros s; cbn.
  - split; [intros _; exists s; reflexivity | reflexivity].
  - destruct s as [|y s]; [split; [discriminate | intros [r Hr]; discriminate]|].
    rewrite andb_true_iff, N.eqb_eq, IH. split.
    + intros [-> [r ->]]. exists r; reflexivity.
    + intros [r [= -> ->]]. split; [reflexivity | exists r; reflexivity].
Qed.

Lemma prefixb_refl s : prefixb s s = true.
Proof. apply prefixb_spec; exists []; rewrite app_nil_r; reflexivity. Qed.

Lemma prefixb_app p s : prefixb p (p ++ s) = true.
Proof. apply prefixb_spec; exists s; reflexivity. Qed.

Lemma prefixb_nil_r p : prefixb p [] = true -> p = [].
Proof. destruct p; [reflexivity | discriminate]. Qed.

(* strings.HasSuffix *)
Definition suffixb (suf s : str) : bool := prefixb (rev suf) (rev s).

Lemma suffixb_spec suf s : suffixb suf s = true <-> exists r, s = r ++ suf.
Proof.
  unfold suffixb. rewrite prefixb_spec. split; intros [r Hr].
  - exists (rev r). rewrite <- (rev_involutive s), Hr, rev_app_distr, rev_involutive. reflexivity.
  - exists (rev r). subst s. rewrite rev_app_distr. reflexivity.
Qed.

(* strings.Contains *)
Fixpoint contains (hay needle : str) : bool :=
  prefixb needle hay ||
  match hay with
  | [] => false
  | _ :: hay' => contains hay' needle
  end.

Lemma contains_spec hay needle :
  contains hay needle = true <-> exists a b, hay = a ++ needle ++ b.
Proof.
  induction hay as [|c hay IH]; cbn.
  - rewrite orb_false_r. split.
    + intros H; apply prefixb_nil_r in H; subst. exists [], []; reflexivity.
    + intros [a [b H]]. destruct a; [|discriminate]. destruct needle; [reflexivity|discriminate].
  - rewrite orb_true_iff, IH, prefixb_spec. split.
    + intros [[r ->] | [a [b ->]]]; [exists [], r; reflexivity | exists (c :: a), b; reflexivity].
    + intros [a [b H]]. destruct a as [|x a]; [left; exists b; exact H|].
      right. injection H as -> ->. exists a, b; reflexivity.
Qed.

(* strings.Index for a one-byte separator: position of the first occurrence *)
Fixpoint index_byte (c : N) (s : str) : option nat :=
  match s with
  | [] => None
  | x :: s' => if x =? c then Some O else option_map S (index_byte c s')
  end.

(* strings.LastIndex for a one-byte separator *)
Fixpoint last_index_byte (c : N) (s : str) : option nat :=
  match s with
  | [] => None
  | x :: s' =>
    match last_index_byte c s' with
    | Some i => Some (S i)
    | None => if x =? c then Some O else None
    end
  end.

(* strings.Split(s, sep) for a one-byte separator: always at least one element *)
Fixpoint split_on (sep : N) (s : str) : list str :=
  match s with
  | [] => [[]]
  | c :: s' =>
    if c =? sep then [] :: split_on sep s'
    else match split_on sep s' with
         | [] => [[c]]
         | w :: ws => (c :: w) :: ws
         end
  end.

Lemma split_on_nonempty sep s : split_on sep s <> [].
Proof.
  destruct s as [|c s]; cbn; [discriminate|].
  destruct (c =? sep); [discriminate|]. destruct (split_on sep s); discriminate.
Qed.

(* strings.Join *)
Fixpoint join (sep : str) (l : list str) : str :=
  match l with
  | [] => []
  | [x] => x
  | x :: l' => x ++ sep ++ join sep l'
  end.

Lemma join_split sep s : join [sep] (split_on sep s) = s.
Proof.
  induction s as [|c s IH]; cbn; [reflexivity|].
  destruct (c =? sep) eqn:E.
  - apply N.eqb_eq in E; subst c.
    pose proof (split_on_nonempty sep s) as NE.
    destruct (split_on sep s) as [|w ws]; [contradiction|].
    cbn [join]. cbn. f_equal. exact IH.
  - pose proof (split_on_nonempty sep s) as NE.
    destruct (split_on sep s) as [|w ws]; [contradiction|].
    destruct ws as [|w2 ws]; cbn in *; f_equal; exact IH.
Qed.

Lemma split_on_no_sep sep s : Forall (fun w => ~ In sep w) (split_on sep s).
Proof.
  induction s as [|c s IH]; cbn.
  - constructor; [intros []|constructor].
  - destruct (c =? sep) eqn:E.
    + constructor; [intros []|exact IH].
    + apply N.eqb_neq in E.
      destruct (split_on sep s) as [|w ws]; [constructor; [|constructor]|].
      * intros [H|[]]. congruence.
      * inversion IH as [|? ? Hw Hws]; subst. constructor; [|exact Hws].
        intros [H|H]; [congruence | exact (Hw H)].
Qed.

(* bytewise lexicographic order (Go's string <) *)
Fixpoint ltb_str (a b : str) : bool :=
  match a, b with
  | [], [] => false
  | [], _ :: _ => true
  | _ :: _, [] => false
  | x :: a', y :: b' => (x <? y) || ((x =? y) && ltb_str a' b')
  end.

Definition leb_str (a b : str) : bool := negb (ltb_str b a).

Lemma ltb_str_irrefl a : ltb_str a a = false.
Proof. induction a as [|x a IH]; cbn; [reflexivity|]. rewrite N.ltb_irrefl, N.eqb_refl, IH. reflexivity. Qed.

Lemma ltb_str_trans a b c : ltb_str a b = true -> ltb_str b c = true -> ltb_str a c = true.
Proof.
  revert b c; induction a as [|x a IH]; intros [|y b] [|z c]; cbn; try congruence; try reflexivity.
  rewrite !orb_true_iff, !andb_true_iff, !N.ltb_lt, !N.eqb_eq.
  intros [H1|[H1 H1']] [H2|[H2 H2']].
  - left; lia.
  - left; lia.
  - left; lia.
  - right; split; [lia | eapply IH; eauto].
Qed.

Lemma ltb_str_total a b : ltb_str a b = false -> ltb_str b a = false -> a = b.
Proof.
  revert b; induction a as [|x a IH]; intros [|y b]; cbn; try congruence.
  rewrite !orb_false_iff, !andb_false_iff, !N.ltb_ge, !N.eqb_neq.
  intros [H1 H1'] [H2 H2'].
  assert (x = y) by lia. subst y.
  f_equal. apply IH.
  - destruct H1' as [H|H]; [congruence | exact H].
  - destruct H2' as [H|H]; [congruence | exact H].
Qed.

Lemma leb_str_total a b : leb_str a b = true \/ leb_str b a = true.
Proof.
  unfold leb_str. destruct (ltb_str b a) eqn:E1; destruct (ltb_str a b) eqn:E2; cbn; auto.
  assert (H := ltb_str_trans _ _ _ E1 E2). rewrite ltb_str_irrefl in H. discriminate.
Qed.

(* well-known byte codes *)
Definition c_slash : N := 47.
Definition c_bslash : N := 92.
Definition c_lbr : N := 91.
Definition c_rbr : N := 93.
Definition c_eq : N := 61.
Definition c_semi : N := 59.
Definition c_comma : N := 44.
Definition c_star : N := 42.
Definition c_dot : N := 46.
Definition c_colon : N := 58.

(* generic insertion sort used for Go's sort.Slice on small inputs (result is the
   unique sorted permutation when keys are distinct) *)
Section Sort.
  Context {A : Type} (leb : A -> A -> bool).
  Fixpoint insert_sorted (x : A) (l : list A) : list A :=
    match l with
    | [] => [x]
    | y :: l' => if leb x y then x :: l else y :: insert_sorted x l'
    end.
  Fixpoint isort (l : list A) : list A :=
    match l with
    | [] => []
    | x :: l' => insert_sorted x (isort l')
    end.
End Sort.

From Coq Require Import Permutation Sorted.

Lemma insert_sorted_perm {A} leb (x : A) l : Permutation (x :: l) (insert_sorted leb x l).
Proof.
  induction l as [|y l IH]; cbn; [reflexivity|].
  destruct (leb x y); [reflexivity|].
  rewrite perm_swap. constructor. exact IH.
Qed.

Lemma isort_perm {A} leb (l : list A) : Permutation l (isort leb l).
Proof.
  induction l as [|x l IH]; cbn; [constructor|].
  rewrite <- insert_sorted_perm. constructor. exact IH.
Qed.

Lemma isort_in {A} leb (l : list A) x : In x (isort leb l) <-> In x l.
Proof. split; apply Permutation_in; [apply Permutation_sym|]; apply isort_perm. Qed.

Lemma isort_length {A} leb (l : list A) : List.length (isort leb l) = List.length l.
Proof. symmetry. apply Permutation_length, isort_perm. Qed.
