(* (C15) Proofs about Model/Store.v: compare-and-set, growing versions, indexes never reused, refinement of the
   per-record CAS register, refused writes. *)
From Coq Require Import List NArith Bool Lia.
From OC Require Import Base.Bytes Model.Atomix Model.Store Spec.Cas.
Import ListNotations.
Open Scope N_scope.

Lemma get_set_log a b lg l : get_log a (set_log b lg l) = if eqb_str b a then lg else get_log a l.
Proof.
  induction l as [|[n x] r IH]; simpl.
  - destruct (eqb_str b a); reflexivity.
  - destruct (eqb_str n b) eqn:Hnb; simpl.
    + apply eqb_str_eq in Hnb; subst n. destruct (eqb_str b a); reflexivity.
    + destruct (eqb_str n a) eqn:Hna; [|exact IH].
      apply eqb_str_eq in Hna; subst n. rewrite eqb_str_sym, Hnb. reflexivity.
Qed.

Lemma find_entry_some k l e : find_entry k l = Some e -> In e l /\ e_key e = k.
Proof.
  induction l as [|x r IH]; simpl; [discriminate|].
  destruct (eqb_str (e_key x) k) eqn:Hk; intro H.
  - inversion H; subst. split; [left; reflexivity | apply eqb_str_eq; exact Hk].
  - destruct (IH H) as [Hin Hkey]. split; [right; exact Hin | exact Hkey].
Qed.

Lemma find_entry_app k l e :
  find_entry k (l ++ [e]) = match find_entry k l with Some x => Some x | None => if eqb_str (e_key e) k then Some e else None end.
Proof.
  induction l as [|x r IH]; simpl; [reflexivity|].
  destruct (eqb_str (e_key x) k); [reflexivity | exact IH].
Qed.

Lemma find_entry_replace k e' l :
  find_entry k (replace_entry e' l) =
  if eqb_str (e_key e') k then match find_entry k l with Some _ => Some e' | None => None end else find_entry k l.
Proof.
  induction l as [|x r IH]; simpl.
  - destruct (eqb_str (e_key e') k); reflexivity.
  - destruct (eqb_str (e_key x) (e_key e')) eqn:Hx; simpl.
    + apply eqb_str_eq in Hx. rewrite Hx. destruct (eqb_str (e_key e') k); reflexivity.
    + destruct (eqb_str (e_key x) k) eqn:Hxk; [|exact IH].
      apply eqb_str_eq in Hxk. subst k. rewrite eqb_str_sym, Hx. reflexivity.
Qed.

Lemma in_replace e e' l : In e (replace_entry e' l) -> e = e' \/ In e l.
Proof.
  induction l as [|x r IH]; simpl; [tauto|].
  destruct (eqb_str (e_key x) (e_key e')); simpl; intros [H|H]; auto.
  destruct (IH H); auto.
Qed.

Lemma value_eqb_stamp a b : v_stamp a <> v_stamp b -> value_eqb a b = false.
Proof.
  intro H. unfold value_eqb. destruct (N.eqb_spec (v_stamp a) (v_stamp b)); [contradiction|].
  rewrite andb_false_r. reflexivity.
Qed.

Definition lcur (L : alog) (ky : str) : N := match find_entry ky (l_entries L) with Some e => e_version e | None => 0 end.
Definition lidx (L : alog) (ky : str) : N := match find_entry ky (l_entries L) with Some e => e_index e | None => 0 end.
Definition lpay (L : alog) (ky : str) : option reg :=
  match find_entry ky (l_entries L) with Some e => Some {| r_version := e_version e; r_content := v_payload (e_val e) |} | None => None end.

Definition lwf (L : alog) (clock now : N) : Prop :=
  forall e, In e (l_entries L) -> 0 < e_version e /\ e_version e <= clock /\ e_index e <= l_last L /\ v_stamp (e_val e) <= now.

Lemma lwf_weaken L c n c' n' : lwf L c n -> c <= c' -> n <= n' -> lwf L c' n'.
Proof. intros H Hc Hn e Hin. destruct (H e Hin) as (A & B & C & D). repeat split; try assumption; lia. Qed.

Lemma lwf_find L c n ky e : lwf L c n -> find_entry ky (l_entries L) = Some e ->
  0 < e_version e /\ e_version e <= c /\ e_index e <= l_last L /\ v_stamp (e_val e) <= n.
Proof. intros H E. apply H. apply (find_entry_some _ _ _ E). Qed.

(* L' is L with the entry of one key set to e *)
Definition rewritten (L L' : alog) (e : entry) : Prop :=
  forall k, find_entry k (l_entries L') = if eqb_str (e_key e) k then Some e else find_entry k (l_entries L).

Lemma append_spec indexed L ky v nv clock now c L' r :
  lwf L clock now -> clock < nv -> v_stamp v <= now ->
  al_append indexed L ky v nv = (c, L', r) ->
  let e := {| e_key := ky; e_index := (if indexed then l_last L + 1 else 0); e_version := nv; e_val := v |} in
  (c = CExists /\ L' = L /\ lcur L ky <> 0) \/
  (c = COk /\ r = Some e /\ lcur L ky = 0 /\ lwf L' nv now /\ rewritten L L' e).
Proof.
  intros Hwf Hnv Hst. unfold al_append, lcur.
  destruct (find_entry ky (l_entries L)) as [old|] eqn:E; intro H; injection H as <- <- <-.
  - left. destruct (lwf_find _ _ _ _ _ Hwf E) as (A & _). repeat split. lia.
  - right. split; [reflexivity|]. split; [reflexivity|]. split; [reflexivity|]. split.
    + intros e Hin. simpl in Hin. apply in_app_or in Hin. destruct Hin as [Hin|[<-|[]]]; simpl.
      * destruct (Hwf e Hin) as (A & B & C & D). repeat split; try assumption; try lia. destruct indexed; lia.
      * repeat split; try lia; destruct indexed; lia.
    + intros k. simpl. rewrite find_entry_app. simpl. destruct (eqb_str ky k) eqn:Ek.
      * apply eqb_str_eq in Ek. subst k. rewrite E. reflexivity.
      * destruct (find_entry k (l_entries L)); reflexivity.
Qed.

Lemma update_spec indexed L ky v ifv nv clock now c L' r ch :
  lwf L clock now -> clock < nv -> now < v_stamp v -> ifv <> 0 ->
  al_update indexed L ky v ifv nv = (c, L', r, ch) ->
  let e := {| e_key := ky; e_index := lidx L ky; e_version := nv; e_val := v |} in
  (c = CNotFound /\ L' = L /\ ch = false /\ lcur L ky = 0) \/
  (c = CConflict /\ L' = L /\ ch = false /\ lcur L ky <> 0 /\ lcur L ky <> ifv) \/
  (c = COk /\ ch = true /\ r = Some e /\ lcur L ky = ifv /\ lwf L' nv (v_stamp v) /\ rewritten L L' e).
Proof.
  intros Hwf Hnv Hst Hifv. unfold al_update, lcur, lidx.
  destruct (find_entry ky (l_entries L)) as [old|] eqn:E.
  2:{ intro H; injection H as <- <- <- <-. left. repeat split. }
  destruct (lwf_find _ _ _ _ _ Hwf E) as (A & B & C & D).
  destruct (N.eqb_spec ifv 0) as [|_]; [contradiction|]. simpl.
  destruct (N.eqb_spec (e_version old) ifv) as [Hv|Hv]; simpl.
  2:{ intro H; injection H as <- <- <- <-. right; left. repeat split; [lia | exact Hv]. }
  rewrite (value_eqb_stamp (e_val old) v) by lia. rewrite andb_false_r.
  intro H; injection H as <- <- <- <-. right; right.
  split; [reflexivity|]. split; [reflexivity|]. split; [reflexivity|]. split; [exact Hv|]. split.
  - intros e Hin. simpl in Hin. apply in_replace in Hin. destruct Hin as [->|Hin].
    + simpl. repeat split; lia.
    + exact (lwf_weaken L _ _ nv (v_stamp v) Hwf ltac:(lia) ltac:(lia) e Hin).
  - intros k. simpl. rewrite find_entry_replace. simpl. destruct (eqb_str ky k) eqn:Ek; [|reflexivity].
    apply eqb_str_eq in Ek. subst k. rewrite E. reflexivity.
Qed.

Definition wf (st : sstate) : Prop := forall lg, lwf (get_log lg (s_logs st)) (s_clock st) (s_now st).

Lemma wf_init : wf init.
Proof. intros lg e H. simpl in H. contradiction. Qed.

Lemma wf_mono st st' : wf st -> s_logs st' = s_logs st -> s_clock st <= s_clock st' -> s_now st <= s_now st' -> wf st'.
Proof. intros H Hl Hc Hn lg. rewrite Hl. exact (lwf_weaken _ _ _ _ _ (H lg) Hc Hn). Qed.

Definition pay (st : sstate) (lg ky : str) : option reg := lpay (get_log lg (s_logs st)) ky.

Lemma cur_pay st lg ky : cur st lg ky = match pay st lg ky with Some r => r_version r | None => 0 end.
Proof. unfold cur, pay, lpay. destruct (find_entry _ _); reflexivity. Qed.

(* versions and indexes stay below the counters; version 0 means that there is no record *)
Lemma wf_bounds st lg ky : wf st ->
  cur st lg ky <= s_clock st /\ idx_of st lg ky <= l_last (get_log lg (s_logs st)) /\
  (cur st lg ky = 0 -> idx_of st lg ky = 0 /\ pay st lg ky = None).
Proof.
  intros H. unfold cur, idx_of, pay, lpay.
  destruct (find_entry ky (l_entries (get_log lg (s_logs st)))) eqn:E.
  - destruct (lwf_find _ _ _ _ _ (H lg) E) as (A & B & C & _). repeat split; try assumption; lia.
  - repeat split; lia.
Qed.

Definition same_elsewhere (st st' : sstate) (lg0 ky0 : str) : Prop :=
  forall lg ky, (lg <> lg0 \/ ky <> ky0) ->
    cur st' lg ky = cur st lg ky /\ idx_of st' lg ky = idx_of st lg ky /\ pay st' lg ky = pay st lg ky.

Lemma here_or_elsewhere (lg lg0 ky ky0 : str) : (lg = lg0 /\ ky = ky0) \/ (lg <> lg0 \/ ky <> ky0).
Proof. destruct (str_eq_dec lg lg0); [destruct (str_eq_dec ky ky0)|]; auto. Qed.

Definition refused (k : kind) (o : obj) (st st' : sstate) : Prop :=
  s_logs st' = s_logs st /\ s_clock st' = s_clock st /\ (has_values k = false \/ o_vals o = None -> s_pvs st' = s_pvs st /\ s_apvs st' = s_apvs st).

Lemma write_vals_refused k op o st : refused k o st (write_vals k op o st) /\ s_now (write_vals k op o st) = s_now st.
Proof.
  split; [split; [|split]|].
  1, 2, 4: unfold write_vals; destruct (has_values k); [destruct (o_vals o); [destruct op|]|]; reflexivity.
  unfold write_vals. intros [H|H]; rewrite H; [|destruct (has_values k)]; split; reflexivity.
Qed.

(* what precedes the entry write moves the clock of time.Now() and, at most, path values *)
Lemma before_entry k op o st (st1 := write_vals k op o (tick st)) :
  wf st -> wf st1 /\ refused k o st st1 /\ s_now st1 = s_now st + 1.
Proof.
  intro Hwf. destruct (write_vals_refused k op o (tick st)) as [Href Hn]. fold st1 in Href, Hn.
  split; [|split; assumption]. destruct Href as (Hl & Hc & _).
  apply (wf_mono st); [exact Hwf | exact Hl | rewrite Hc; reflexivity | rewrite Hn; simpl; lia].
Qed.

(* the entry write: the log lg of st1 (the logs of st) becomes L', at clock nv *)
Lemma put_log_spec st st1 lg L' e nv :
  wf st -> s_logs st1 = s_logs st -> s_clock st <= nv -> s_now st <= s_now st1 ->
  lwf L' nv (s_now st1) -> rewritten (get_log lg (s_logs st)) L' e ->
  let st' := put_log st1 lg L' nv in
  wf st' /\ cur st' lg (e_key e) = e_version e /\ idx_of st' lg (e_key e) = e_index e /\
  pay st' lg (e_key e) = Some {| r_version := e_version e; r_content := v_payload (e_val e) |} /\
  same_elsewhere st st' lg (e_key e).
Proof.
  intros Hwf Hl Hc Hn HL' Hrw st'.
  assert (Hget : forall lg2, get_log lg2 (s_logs st') = if eqb_str lg lg2 then L' else get_log lg2 (s_logs st)).
  { intro lg2. simpl. rewrite get_set_log, Hl. reflexivity. }
  split.
  { intro lg2. rewrite Hget. destruct (eqb_str lg lg2); [exact HL' | exact (lwf_weaken _ _ _ _ _ (Hwf lg2) Hc Hn)]. }
  unfold same_elsewhere, cur, idx_of, pay, lpay.
  rewrite Hget, eqb_str_refl, Hrw, eqb_str_refl.
  split; [reflexivity|]. split; [reflexivity|]. split; [reflexivity|].
  intros lg2 ky Hne. rewrite Hget. destruct (eqb_str lg lg2) eqn:E1; [|repeat split].
  apply eqb_str_eq in E1. subst lg2. rewrite Hrw. destruct (eqb_str (e_key e) ky) eqn:E2; [|repeat split].
  apply eqb_str_eq in E2. subst ky. destruct Hne; contradiction.
Qed.

Lemma valid_update_version k op o : op <> OCreate -> valid k op o = true -> o_version o <> 0.
Proof.
  intros Hop H. unfold valid in H. destruct op; [contradiction| |];
  apply andb_prop in H; destruct H as [_ H]; apply negb_true_iff in H; apply N.eqb_neq in H; exact H.
Qed.

(* what one store call does: it is refused, for the reason the code names, or accepted *)
Definition step_spec (k : kind) (op : opk) (o : obj) (st st' : sstate) (c : code) (o' : obj) : Prop :=
  wf st' /\
  ( (c <> COk /\ refused k o st st' /\ o_version o' = o_version o /\
     ( (valid k op o = false /\ c = CInvalid /\ o' = o)
       \/
       (valid k op o = true /\
        (op = OCreate -> c = CExists /\ cur st (o_log o) (o_key o) <> 0) /\
        (op <> OCreate -> (c = CNotFound /\ cur st (o_log o) (o_key o) = 0) \/
                          (c = CConflict /\ cur st (o_log o) (o_key o) <> 0 /\ cur st (o_log o) (o_key o) <> o_version o)))))
    \/
    (c = COk /\ valid k op o = true /\ s_clock st' = s_clock st + 1 /\
     cur st' (o_log o) (o_key o) = s_clock st + 1 /\ o_version o' = s_clock st + 1 /\
     pay st' (o_log o) (o_key o) = Some {| r_version := s_clock st + 1; r_content := o_payload o |} /\
     same_elsewhere st st' (o_log o) (o_key o) /\
     (op = OCreate -> cur st (o_log o) (o_key o) = 0 /\
                      (indexed k = true -> o_index o' = idx_of st' (o_log o) (o_key o) /\
                                           forall ky, idx_of st (o_log o) ky < o_index o')) /\
     (op <> OCreate -> cur st (o_log o) (o_key o) = o_version o /\ o_version o <> 0 /\
                       idx_of st' (o_log o) (o_key o) = idx_of st (o_log o) (o_key o))) ).

(* Update and UpdateStatus differ in the revision only *)
Lemma update_cases k op o st st' c o' b rev :
  wf st -> valid k op o = true -> op <> OCreate ->
  (let st1 := write_vals k op o (tick st) in
   match al_update (indexed k) (get_log (o_log o) (s_logs st1)) (o_key o)
           {| v_payload := o_payload o; v_revision := rev; v_stamp := s_now (tick st) |} (o_version o) (s_clock st1 + 1) with
   | (COk, lg', Some e, changed) =>
     ((if changed then put_log st1 (o_log o) lg' (s_clock st1 + 1) else st1), COk,
      with_meta o (e_version e) rev (if indexed k then e_index e else o_index o), changed)
   | (c0, _, _, _) => (st1, c0, with_meta o (o_version o) rev (o_index o), false)
   end) = (st', c, o', b) ->
  step_spec k op o st st' c o'.
Proof.
  intros Hwf Hvalid Hop. cbv zeta.
  destruct (before_entry k op o st Hwf) as (Hwf1 & Href & Hn).
  set (st1 := write_vals k op o (tick st)) in *. pose proof Href as (Hl & Hc & _).
  rewrite Hl, Hc.
  destruct (al_update _ _ _ _ _ _) as [[[c0 L'] r] ch] eqn:Hupd.
  apply (update_spec _ _ _ _ _ _ (s_clock st) (s_now st)) in Hupd;
    [| apply Hwf | lia | simpl; lia | exact (valid_update_version k op o Hop Hvalid)].
  destruct Hupd as [(-> & -> & -> & Hcur) | [(-> & -> & -> & Hcur & Hcur2) | (-> & -> & -> & Hcur & HL' & Hrw)]];
    intro H; injection H as <- <- <- <-.
  - split; [exact Hwf1|]. left. split; [discriminate|]. split; [exact Href|]. split; [reflexivity|].
    right. split; [exact Hvalid|]. split; [intro; contradiction|]. intros _. left. split; [reflexivity | exact Hcur].
  - split; [exact Hwf1|]. left. split; [discriminate|]. split; [exact Href|]. split; [reflexivity|].
    right. split; [exact Hvalid|]. split; [intro; contradiction|]. intros _. right. split; [reflexivity|]. split; assumption.
  - simpl in HL'. rewrite <- Hn in HL'.
    destruct (put_log_spec st st1 (o_log o) L' _ (s_clock st + 1) Hwf Hl ltac:(lia) ltac:(lia) HL' Hrw) as (Hw & Hc' & Hi' & Hp' & He').
    split; [exact Hw|]. right. split; [reflexivity|]. split; [exact Hvalid|]. split; [reflexivity|].
    split; [exact Hc'|]. split; [reflexivity|]. split; [exact Hp'|]. split; [exact He'|].
    split; [intro; contradiction|]. intros _. split; [exact Hcur|]. split; [exact (valid_update_version k op o Hop Hvalid) | exact Hi'].
Qed.

Lemma step_cases k op o st st' c o' b : wf st -> step k op o st = (st', c, o', b) -> step_spec k op o st st' c o'.
Proof.
  intros Hwf Hstep. unfold step in Hstep.
  destruct (valid k op o) eqn:Hvalid; simpl negb in Hstep; cbv iota in Hstep.
  2:{ injection Hstep as <- <- <- <-. split; [apply (wf_mono st); [assumption | reflexivity | reflexivity | simpl; lia]|].
      left. split; [discriminate|]. split; [|split; [reflexivity | left; split; [exact Hvalid | split; reflexivity]]].
      split; [reflexivity|]. split; [reflexivity|]. intros _. split; reflexivity. }
  destruct op.
  - cbv zeta in Hstep.
    destruct (before_entry k OCreate o st Hwf) as (Hwf1 & Href & Hn).
    set (st1 := write_vals k OCreate o (tick st)) in *. pose proof Href as (Hl & Hc & _).
    destruct (al_append _ _ _ _ _) as [[c0 L'] r] eqn:Happ.
    apply (append_spec _ _ _ _ _ (s_clock st1) (s_now st1)) in Happ; [| apply Hwf1 | lia | simpl; lia].
    rewrite Hl, Hc in Happ.
    destruct Happ as [(-> & -> & Hcur) | (-> & -> & Hcur & HL' & Hrw)]; injection Hstep as <- <- <- <-.
    + split; [exact Hwf1|]. left. split; [discriminate|]. split; [exact Href|]. split; [reflexivity|].
      right. split; [exact Hvalid|]. split; [intros _; split; [reflexivity | exact Hcur] | intro H; contradiction].
    + rewrite Hc.
      destruct (put_log_spec st st1 (o_log o) L' _ (s_clock st + 1) Hwf Hl ltac:(lia) ltac:(lia) HL' Hrw) as (Hw & Hc' & Hi' & Hp' & He').
      split; [exact Hw|]. right. split; [reflexivity|]. split; [exact Hvalid|]. split; [reflexivity|].
      split; [exact Hc'|]. split; [reflexivity|]. split; [exact Hp'|]. split; [exact He'|].
      split; [|intro H; contradiction]. intros _. split; [exact Hcur|].
      intro Hidx. simpl in Hi' |- *. rewrite Hidx in Hi' |- *. split; [symmetry; exact Hi'|].
      intro ky. destruct (wf_bounds st (o_log o) ky Hwf) as (_ & Hle & _). lia.
  - exact (update_cases k OUpdate o st st' c o' b _ Hwf Hvalid ltac:(discriminate) Hstep).
  - exact (update_cases k OStatus o st st' c o' b _ Hwf Hvalid ltac:(discriminate) Hstep).
Qed.

Lemma create_or_not op : op = OCreate \/ op <> OCreate.
Proof. destruct op; [left; reflexivity | right; discriminate..]. Qed.

Lemma not_create (A : Type) op (x y : A) : op <> OCreate -> match op with OCreate => x | _ => y end = y.
Proof. destruct op; [contradiction | reflexivity..]. Qed.

Definition reachable (k : kind) (st : sstate) : Prop := exists cs, fst (run k init cs) = st.

Lemma step_mono k op o st st' c o' b : wf st -> step k op o st = (st', c, o', b) ->
  s_clock st <= s_clock st' /\ (forall lg ky, cur st lg ky <= cur st' lg ky) /\
  (forall lg ky, idx_of st lg ky <> 0 -> idx_of st' lg ky = idx_of st lg ky).
Proof.
  intros Hwf Hs.
  destruct (step_cases _ _ _ _ _ _ _ _ Hwf Hs) as [_ [(_ & (Hl & Hc & _) & _) | (_ & _ & Hc & Hcur & _ & _ & Helse & Hcre & Hupd)]].
  - unfold cur, idx_of. rewrite Hl, Hc. split; [lia|]. split; intros; [lia | reflexivity].
  - split; [lia|]. split; intros lg ky.
    + destruct (here_or_elsewhere lg (o_log o) ky (o_key o)) as [[-> ->]|Hne].
      * rewrite Hcur. destruct (wf_bounds st (o_log o) (o_key o) Hwf) as (Hle & _). lia.
      * destruct (Helse lg ky Hne) as (-> & _). lia.
    + intro Hnz. destruct (here_or_elsewhere lg (o_log o) ky (o_key o)) as [[-> ->]|Hne]; [|apply (Helse lg ky Hne)].
      destruct op; [|apply Hupd; discriminate..].
      exfalso. apply Hnz. apply (wf_bounds st (o_log o) (o_key o) Hwf). apply Hcre. reflexivity.
Qed.

Lemma run_wf k cs : forall st st' r, wf st -> run k st cs = (st', r) ->
  wf st' /\ s_clock st <= s_clock st' /\ (forall lg ky, cur st lg ky <= cur st' lg ky) /\
  (forall lg ky, idx_of st lg ky <> 0 -> idx_of st' lg ky = idx_of st lg ky).
Proof.
  induction cs as [|c cs IH]; intros st st' r Hwf Hrun; simpl in Hrun.
  - injection Hrun as <- <-. split; [assumption|]. split; [lia|]. split; [intros; lia|]. intros; reflexivity.
  - destruct (step k (c_op c) (c_obj c) st) as [[[st1 cd] o1] b1] eqn:Hs.
    destruct (run k st1 cs) as [stf res] eqn:Hr. injection Hrun as <- <-.
    destruct (step_mono _ _ _ _ _ _ _ _ Hwf Hs) as (H1 & H2 & H3).
    destruct (IH _ _ _ (proj1 (step_cases _ _ _ _ _ _ _ _ Hwf Hs)) Hr) as (Hwff & Hclk & Hmono & Hidx).
    split; [exact Hwff|]. split; [lia|]. split; [intros lg ky; specialize (H2 lg ky); specialize (Hmono lg ky); lia|].
    intros lg ky Hnz. rewrite <- (H3 lg ky Hnz). apply Hidx. rewrite (H3 lg ky Hnz). exact Hnz.
Qed.

Lemma reachable_wf k st : reachable k st -> wf st.
Proof.
  intros [cs <-]. destruct (run k init cs) as [st' r] eqn:E. simpl.
  exact (proj1 (run_wf k cs _ _ _ wf_init E)).
Qed.

Definition is_update (c : call) : Prop := c_op c <> OCreate.
Definition same_record (a b : call) : Prop := o_log (c_obj a) = o_log (c_obj b) /\ o_key (c_obj a) = o_key (c_obj b).

(* C15_cas: in ANY history, of two updates (Update or UpdateStatus, by whichever clients) of one record that
   carry the same read version, at most one succeeds *)
Theorem cas_exclusive : forall k cs1 a cs2 b st1 r1 st2 ca oa ba st3 r2 st4 cb ob bb,
  is_update a -> is_update b -> same_record a b ->
  o_version (c_obj a) = o_version (c_obj b) ->
  run k init cs1 = (st1, r1) ->
  step k (c_op a) (c_obj a) st1 = (st2, ca, oa, ba) ->
  run k st2 cs2 = (st3, r2) ->
  step k (c_op b) (c_obj b) st3 = (st4, cb, ob, bb) ->
  ~ (ca = COk /\ cb = COk).
Proof.
  intros k cs1 a cs2 b st1 r1 st2 ca oa ba st3 r2 st4 cb ob bb Ha Hb [Hlog Hkey] Hver Hr1 Hsa Hr2 Hsb [-> ->].
  destruct (run_wf k cs1 _ _ _ wf_init Hr1) as (Hwf1 & _).
  destruct (step_cases _ _ _ _ _ _ _ _ Hwf1 Hsa) as [Hwf2 [(Hc & _) | (_ & _ & _ & Hcur2 & _ & _ & _ & _ & Hupa)]]; [contradiction|].
  destruct (run_wf k cs2 _ _ _ Hwf2 Hr2) as (Hwf3 & _ & Hmono & _).
  destruct (step_cases _ _ _ _ _ _ _ _ Hwf3 Hsb) as [_ [(Hc & _) | (_ & _ & _ & _ & _ & _ & _ & _ & Hupb)]]; [contradiction|].
  destruct (Hupa Ha) as (Hcura & _). destruct (Hupb Hb) as (Hcurb & _).
  destruct (wf_bounds st1 (o_log (c_obj a)) (o_key (c_obj a)) Hwf1) as (Hle & _).
  specialize (Hmono (o_log (c_obj a)) (o_key (c_obj a))).
  rewrite Hlog, Hkey in *. lia.
Qed.

(* C15_versions_grow: along any history the version of every record only grows, and (accepted_write_fresh_version) an
   accepted write gives its record a version above every version handed out before *)
Theorem versions_grow : forall k cs1 cs2 st1 r1 st2 r2,
  run k init cs1 = (st1, r1) -> run k st1 cs2 = (st2, r2) ->
  forall lg ky, cur st1 lg ky <= cur st2 lg ky.
Proof.
  intros k cs1 cs2 st1 r1 st2 r2 H1 H2 lg ky.
  destruct (run_wf k cs1 _ _ _ wf_init H1) as (Hwf1 & _).
  destruct (run_wf k cs2 _ _ _ Hwf1 H2) as (_ & _ & Hm & _). apply Hm.
Qed.

Theorem accepted_write_fresh_version : forall k st op o st' o' b,
  reachable k st -> step k op o st = (st', COk, o', b) ->
  cur st' (o_log o) (o_key o) = o_version o' /\
  (forall lg ky, cur st lg ky < o_version o').
Proof.
  intros k st op o st' o' b Hr Hs. pose proof (reachable_wf _ _ Hr) as Hwf.
  destruct (step_cases _ _ _ _ _ _ _ _ Hwf Hs) as [_ [(Hc & _) | (_ & _ & _ & Hcur & Hver & _)]]; [contradiction|].
  split; [rewrite Hcur, Hver; reflexivity|].
  intros lg ky. destruct (wf_bounds st lg ky Hwf) as (Hle & _). lia.
Qed.

(* C15_index_never_reused: a record keeps its log index for life, and an accepted Create receives an index
   above every index of its log *)
Theorem index_never_reused : forall k st op o st' c o' b,
  reachable k st -> step k op o st = (st', c, o', b) ->
  (forall lg ky, idx_of st lg ky <> 0 -> idx_of st' lg ky = idx_of st lg ky) /\
  (indexed k = true -> op = OCreate -> c = COk ->
     o_index o' = idx_of st' (o_log o) (o_key o) /\ forall ky, idx_of st (o_log o) ky < o_index o').
Proof.
  intros k st op o st' c o' b Hr Hs. pose proof (reachable_wf _ _ Hr) as Hwf.
  split; [apply (step_mono _ _ _ _ _ _ _ _ Hwf Hs)|].
  intros Hi -> ->.
  destruct (step_cases _ _ _ _ _ _ _ _ Hwf Hs) as [_ [(Hc & _) | (_ & _ & _ & _ & _ & _ & _ & Hcre & _)]]; [contradiction|].
  apply (Hcre eq_refl). exact Hi.
Qed.

(* C15_refines_cas: on the record it addresses, every well-formed store call is exactly the register
   operation of Spec/Cas.v (same answer, same new register, fresh version), and no other record moves *)
Definition code_of (c : cas_code) : code := match c with SOk => COk | SNotFound => CNotFound | SExists => CExists | SConflict => CConflict end.

Theorem refines_cas : forall k st op o st' c o' b,
  reachable k st -> valid k op o = true -> step k op o st = (st', c, o', b) ->
  let spec := match op with
              | OCreate => reg1_create (pay st (o_log o) (o_key o)) (o_payload o) (s_clock st + 1)
              | _ => reg1_update (pay st (o_log o) (o_key o)) (o_version o) (o_payload o) (s_clock st + 1)
              end in
  c = code_of (snd spec) /\ pay st' (o_log o) (o_key o) = fst spec /\
  forall lg ky, (lg <> o_log o \/ ky <> o_key o) -> pay st' lg ky = pay st lg ky.
Proof.
  intros k st op o st' c o' b Hr Hvalid Hs. pose proof (reachable_wf _ _ Hr) as Hwf. cbv zeta.
  pose proof (cur_pay st (o_log o) (o_key o)) as Hpc.
  destruct (wf_bounds st (o_log o) (o_key o) Hwf) as (_ & _ & Hpn).
  destruct (step_cases _ _ _ _ _ _ _ _ Hwf Hs)
    as [_ [(_ & (Hl & _) & _ & [(Hv & _) | (_ & Hcre & Hupd)]) | (-> & _ & _ & _ & _ & -> & Helse & Hcre & Hupd)]].
  - congruence.
  - assert (Hsame : forall lg ky, pay st' lg ky = pay st lg ky) by (intros; unfold pay; rewrite Hl; reflexivity).
    rewrite Hsame. destruct (create_or_not op) as [->|Hop]; [|rewrite (not_create _ op _ _ Hop)].
    + destruct (Hcre eq_refl) as (-> & Hcur). rewrite Hpc in Hcur.
      destruct (pay st (o_log o) (o_key o)); [auto | contradiction].
    + destruct (Hupd Hop) as [(-> & Hcur) | (-> & Hcur & Hcur2)].
      * rewrite (proj2 (Hpn Hcur)). auto.
      * rewrite Hpc in Hcur, Hcur2. destruct (pay st (o_log o) (o_key o)) as [r|]; [|contradiction]. simpl.
        destruct (N.eqb_spec (r_version r) (o_version o)); [contradiction | auto].
  - assert (Hel : forall lg ky, lg <> o_log o \/ ky <> o_key o -> pay st' lg ky = pay st lg ky) by (intros lg ky H; apply (Helse lg ky H)).
    destruct (create_or_not op) as [->|Hop]; [|rewrite (not_create _ op _ _ Hop)].
    + rewrite (proj2 (Hpn (proj1 (Hcre eq_refl)))). auto.
    + destruct (Hupd Hop) as (Hcur & Hnz & _). rewrite Hpc in Hcur.
      destruct (pay st (o_log o) (o_key o)); [|congruence]. simpl. rewrite Hcur, N.eqb_refl. auto.
Qed.

(* a refused call changes no record; outside the configuration stores (or without values) it changes nothing *)
Theorem refused_changes_no_record : forall k st op o st' c o' b,
  reachable k st -> step k op o st = (st', c, o', b) -> c <> COk ->
  s_logs st' = s_logs st /\ s_clock st' = s_clock st /\
  (has_values k = false \/ o_vals o = None -> s_pvs st' = s_pvs st /\ s_apvs st' = s_apvs st).
Proof.
  intros k st op o st' c o' b Hr Hs Hc.
  destruct (step_cases _ _ _ _ _ _ _ _ (reachable_wf _ _ Hr) Hs) as [_ [(_ & H & _) | (Hok & _)]]; [exact H | contradiction].
Qed.

(* ---------------------------------------------------------------- F-08 and the v3 loop variable, on the model *)
Definition cobj (key : str) (ver rev payload : N) (vals : option pvmap) : obj :=
  {| o_key := key; o_log := []; o_idok := true; o_tgtok := true; o_txok := true; o_version := ver; o_revision := rev;
     o_index := 0; o_payload := payload; o_vals := vals; o_avals := None; o_last := [] |}.
Definition pv1 (v i : N) : pv := {| pv_val := v; pv_idx := i; pv_del := false |}.

(* F-08: writer A reads, writer B commits /z = 2 @ index 2, A's stale Update is refused with Conflict and
   yet /z is back at 1 @ index 1 *)
Definition f08_history : list call :=
  [ {| c_op := OCreate; c_obj := cobj (B "c") 0 0 1 (Some [(B "/z", pv1 1 1)]) |};
    {| c_op := OUpdate; c_obj := cobj (B "c") 1 1 2 (Some [(B "/z", pv1 2 2)]) |};
    {| c_op := OUpdate; c_obj := cobj (B "c") 1 1 1 (Some [(B "/z", pv1 1 1)]) |} ].

Theorem refused_update_rewrites_values_refuted :
  exists k cs, map fst (snd (run k init cs)) = [COk; COk; CConflict] /\
    get_pvs (B "c") (s_pvs (fst (run k init (firstn 2 cs)))) = [(B "/z", pv1 2 2)] /\
    get_pvs (B "c") (s_pvs (fst (run k init cs))) = [(B "/z", pv1 1 1)].
Proof. exists CfgV2, f08_history. vm_compute. repeat split. Qed.

(* the v3 configuration store as it is (every iteration works on its own copy of the path value, /repo 2aad659):
   oracle [] - each written path receives its own value, exactly as in the v2 store *)
Lemma v3_values_own_copy : forall vals m, store_vals_v3 [] vals m = store_vals vals m.
Proof. intros. reflexivity. Qed.

(* the v3 configuration store BEFORE 2aad659 (shared loop variable, oracle = the path visited last): one Create with
   two paths stores the same value under both *)
Theorem v3_values_aliased_before_repair :
  exists o, o_vals o = Some [(B "/a", pv1 5 1); (B "/c", pv1 48 3)] /\
    snd (fst (fst (step CfgV3 OCreate o init))) = COk /\
    get_pvs (o_key o) (s_pvs (fst (fst (fst (step CfgV3 OCreate o init))))) = [(B "/a", pv1 5 1); (B "/c", pv1 5 1)].
Proof.
  exists {| o_key := B "c"; o_log := []; o_idok := true; o_tgtok := true; o_txok := true; o_version := 0; o_revision := 0;
            o_index := 0; o_payload := 1; o_vals := Some [(B "/a", pv1 5 1); (B "/c", pv1 48 3)]; o_avals := None; o_last := B "/a" |}.
  vm_compute. repeat split.
Qed.

(* non-trivial inputs satisfy the hypotheses *)
Example reachable_example : reachable TxV2 (fst (run TxV2 init [ {| c_op := OCreate; c_obj := cobj (B "t") 0 0 7 None |} ])).
Proof. eexists. reflexivity. Qed.

Example valid_example : valid PropV2 OUpdate (cobj (B "p") 3 1 7 None) = true.
Proof. reflexivity. Qed.
