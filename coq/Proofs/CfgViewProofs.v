(* What a reader of the configuration store sees (configurations.Get = inline copy in the entry overlaid with the Atomix
   map, Model/CfgStore.v view_values) along ANY interleaving of acknowledged Sets (proposal initialize's status update +
   commit), further status updates and recordings of applied values: it is exactly the committed map that the fold of
   persist_commit over the Sets produces - the inline copies never show anything else. *)
From Coq Require Import List NArith Bool Lia.
From OC Require Import Base.Bytes Model.Merge Model.CfgStore
     Proofs.MergeProofs Proofs.TextPathProofs Proofs.CommitProofs Proofs.CommitPreserve Proofs.CommitHistory.
Import ListNotations.
Open Scope N_scope.

Lemma map_set_same k v m : nodup m -> In (k, v) m -> map_set k v m = m.
Proof.
  unfold nodup. induction m as [|[k0 v0] m IH]; cbn; intros ND HI; [destruct HI|].
  inversion ND as [|? ? Hn ND']; subst. destruct HI as [HI|HI].
  - injection HI as -> ->. rewrite eqb_str_refl. reflexivity.
  - deq k k0; [exfalso; apply Hn; apply (in_map fst) in HI; exact HI|]. f_equal. apply IH; assumption.
Qed.

Lemma overlay_sub M l : nodup M -> (forall kv, In kv l -> In kv M) -> overlay M l = M.
Proof.
  unfold overlay. intros ND. induction l as [|[k v] l IH]; intros H; [reflexivity|]. cbn [fold_left fst snd].
  rewrite (map_set_same k v M ND (H _ (or_introl eq_refl))). apply IH. intros kv HI. apply H. right. exact HI.
Qed.

Lemma overlay_nil M : nodup M -> overlay [] M = M.
Proof.
  intros ND. unfold overlay. rewrite (fold_set_fresh fst snd) by exact ND.
  rewrite <- (map_id M) at 2. apply map_ext. intros []. reflexivity.
Qed.

(* the inline copy of the committed values is empty (after a commit) or the committed map itself (after a status update) *)
Definition ev_ok (s : cfg_state) : Prop := cs_ev s = [] \/ cs_ev s = cs_map s.

Lemma view_is_committed s : nodup (cs_map s) -> ev_ok s -> view_values s = cs_map s.
Proof.
  intros ND [E|E]; unfold view_values; rewrite E; [apply overlay_nil; exact ND | apply overlay_sub; auto].
Qed.

Inductive event := ESet (idx : N) (ch : cfgmap) | EStatus | EApplied (idx : N) (ch : cfgmap).

Definition step_event (s : cfg_state) (e : event) : cfg_state :=
  match e with
  | ESet idx ch => set_cycle s idx ch
  | EStatus => status_update s
  | EApplied idx ch => apply_update s idx ch
  end.

Fixpoint sets_of (evs : list event) : list (N * cfgmap) :=
  match evs with
  | [] => []
  | ESet idx ch :: evs' => (idx, ch) :: sets_of evs'
  | _ :: evs' => sets_of evs'
  end.

Lemma step_event_committed s e : nodup (cs_map s) -> ev_ok s ->
  cs_map (step_event s e) = match e with ESet idx ch => persist_commit (cs_map s) idx ch | _ => cs_map s end /\
  (match e with ESet _ _ => cs_ev (step_event s e) = [] | _ => cs_ev (step_event s e) = cs_map s end).
Proof.
  intros ND EV. pose proof (view_is_committed s ND EV) as V. destruct e as [idx ch| |idx ch]; cbn [step_event].
  - unfold set_cycle, commit_update, cfg_update. cbn [cs_map cs_ev].
    assert (V2 : view_values (status_update s) = cs_map (status_update s)).
    { apply view_is_committed; [exact ND|]. right. unfold status_update. cbn [cs_ev cs_map]. exact V. }
    rewrite V2. cbn [status_update cs_map]. split; reflexivity.
  - cbn. auto.
  - cbn. auto.
Qed.

Theorem events_view_gen evs : forall past b s,
  st_inv past b (cs_map s) -> ev_ok s ->
  Forall req_ok (sets_of evs) -> indexes_from b (sets_of evs) -> leaf_discipline (past ++ map snd (sets_of evs)) ->
  view_values (fold_left step_event evs s) = run_history (cs_map s) (sets_of evs).
Proof.
  induction evs as [|e evs IH]; intros past b s I EV R IX LD.
  - cbn. apply view_is_committed; [apply (si_nodup _ _ _ I) | exact EV].
  - cbn [fold_left]. destruct (step_event_committed s e (si_nodup _ _ _ I) EV) as [C1 C2].
    destruct e as [idx ch| |idx ch]; cbn [sets_of] in *.
    + destruct (history_head past b (cs_map s) idx ch _ I R IX LD) as (_ & I' & R2 & IX2 & LD2).
      cbn [run_history]. rewrite <- C1.
      apply (IH (past ++ [ch]) (N.succ idx)); try assumption; [rewrite C1; exact I' | left; exact C2].
    + rewrite <- C1. apply (IH past b); try assumption. right. rewrite C1. exact C2.
    + rewrite <- C1. apply (IH past b); try assumption. right. rewrite C1. exact C2.
Qed.

Definition cfg0 : cfg_state := mkCfg [] [] [] [].

(* from the empty configuration *)
Theorem events_view evs : history_ok (sets_of evs) ->
  view_values (fold_left step_event evs cfg0) = run_history [] (sets_of evs).
Proof.
  intros [R [IX LD]]. apply (events_view_gen evs [] 0 cfg0); try assumption; [exact st_inv_empty | left; reflexivity].
Qed.

(* hence what Get reads along any such run is the sequential effect of the Sets *)
Corollary events_refine evs : history_ok (sets_of evs) ->
  forall p, live (view_values (fold_left step_event evs cfg0)) p = spec_history (fun _ => None) (sets_of evs) p.
Proof. intros H p. rewrite (events_view evs H). apply history_refines. exact H. Qed.
