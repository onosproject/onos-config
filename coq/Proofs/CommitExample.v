(* Boolean forms of the hypotheses of commit_store_refines, and a re-creation scenario that satisfies them. *)
From Coq Require Import List NArith Bool String.
Local Open Scope string_scope.
From OC Require Import Base.Bytes Model.Merge Model.CfgStore
     Proofs.MergeProofs Proofs.TextPathProofs Proofs.MergeRefute Proofs.CommitProofs.
Import ListNotations.
Open Scope N_scope.
Open Scope list_scope.

Definition proper_keysb (m : cfgmap) : bool :=
  forallb (fun kv => negb (eqb_str (fst kv) []) && negb (eqb_str (fst kv) [c_slash])) m.
Definition cleanb (M : cfgmap) : bool :=
  forallb (fun pkv => pv_deleted (snd pkv)
                      || forallb (fun tkv => negb (pv_deleted (snd tkv)) || negb (is_path_below (fst pkv) (fst tkv))) M) M.
Definition leaf_okb (M ch : cfgmap) : bool :=
  forallb (fun pkv => pv_deleted (snd pkv)
                      || forallb (fun q => negb (is_path_below q (fst pkv))) (map fst M ++ map fst ch)) M.
Definition fresh_indexb (idx : N) (M ch : cfgmap) : bool :=
  forallb (fun kv => pv_index (snd kv) =? idx) ch && forallb (fun kv => negb (pv_index (snd kv) =? idx)) M.

Lemma proper_keysb_ok m : proper_keysb m = true -> proper_keys m.
Proof.
  unfold proper_keysb, proper_keys, proper. rewrite forallb_forall. intros H k v HI. specialize (H _ HI). cbn in H.
  apply andb_true_iff in H. destruct H as [H1 H2]. apply negb_true_iff in H1, H2.
  apply eqb_str_neq in H1, H2. auto.
Qed.

Lemma live_entry M p : live M p <> None -> exists pv, In (p, pv) M /\ pv_deleted pv = false.
Proof. intros L. destruct (live_elim M p L) as (pv & G & D & _). exists pv. split; [apply map_get_some_in, G | exact D]. Qed.

Lemma cleanb_ok M : cleanb M = true -> clean M.
Proof.
  unfold cleanb, clean. rewrite forallb_forall. intros H p t e L HI De.
  destruct (live_entry M p L) as [pv [Hp Dp]]. specialize (H _ Hp). cbn in H. rewrite Dp in H. cbn in H.
  rewrite forallb_forall in H. specialize (H _ HI). cbn in H. rewrite De in H. cbn in H.
  apply negb_true_iff in H. exact H.
Qed.

Lemma leaf_okb_ok M ch : leaf_okb M ch = true -> leaf_ok M ch.
Proof.
  unfold leaf_okb, leaf_ok. rewrite forallb_forall. intros H p q L HQ.
  destruct (live_entry M p L) as [pv [Hp Dp]]. specialize (H _ Hp). cbn in H. rewrite Dp in H. cbn in H.
  rewrite forallb_forall in H. assert (HI : In q (map fst M ++ map fst ch)) by (apply in_or_app; exact HQ).
  specialize (H _ HI). apply negb_true_iff in H. exact H.
Qed.

Lemma fresh_indexb_ok idx M ch : fresh_indexb idx M ch = true -> fresh_index idx M ch.
Proof.
  unfold fresh_indexb, fresh_index. rewrite andb_true_iff, !forallb_forall. intros [H1 H2]. split.
  - intros k c HI. specialize (H1 _ HI). cbn in H1. apply N.eqb_eq in H1. exact H1.
  - intros k e HI. specialize (H2 _ HI). cbn in H2. apply negb_true_iff in H2. apply N.eqb_neq in H2. exact H2.
Qed.

(* stored map after: /a/b=1, /a/c/d=1, /l[k=1]/v=1 ; then delete /a and /l.  The request re-creates values beneath
   both deleted paths, deletes a leaf and writes an unrelated one. *)
Definition exM : cfgmap := cs_map (set_cycle (set_cycle s0 1 [upd "/a/b" "1" 1; upd "/a/c/d" "1" 1; upd "/l[k=1]/v" "1" 1; upd "/x" "1" 1])
                                             2 [del "/a" 2; del "/l" 2]).
Definition exCh : cfgmap := [upd "/a/b" "2" 3; upd "/l[k=2]/v" "2" 3; del "/x" 3; upd "/xy" "2" 3].

Example commit_store_example :
  keys_ok exM /\ nodup exM /\ proper_keys exM /\ clean exM /\ keys_ok exCh /\ nodup exCh /\ proper_keys exCh /\
  no_overlap exCh /\ leaf_ok exM exCh /\ fresh_index 3 exM exCh /\
  map_get (B "/a") exM = Some (mkPV (B "/a") [] true 2) /\
  live (persist_commit exM 3 exCh) (B "/a/b") = Some (B "2") /\
  live (persist_commit exM 3 exCh) (B "/l[k=2]/v") = Some (B "2") /\
  live (persist_commit exM 3 exCh) (B "/a/c/d") = None /\
  live (persist_commit exM 3 exCh) (B "/x") = None.
Proof.
  split; [apply keys_okb_ok; vm_compute; reflexivity|].
  split; [apply nodupb_ok; vm_compute; reflexivity|].
  split; [apply proper_keysb_ok; vm_compute; reflexivity|].
  split; [apply cleanb_ok; vm_compute; reflexivity|].
  split; [apply keys_okb_ok; vm_compute; reflexivity|].
  split; [apply nodupb_ok; vm_compute; reflexivity|].
  split; [apply proper_keysb_ok; vm_compute; reflexivity|].
  split; [apply no_overlapb_ok; vm_compute; reflexivity|].
  split; [apply leaf_okb_ok; vm_compute; reflexivity|].
  split; [apply fresh_indexb_ok; vm_compute; reflexivity|].
  repeat split; vm_compute; reflexivity.
Qed.
