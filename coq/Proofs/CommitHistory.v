(* Whole histories of acknowledged Sets: folding reconcileCommit + the store write over ANY list of change maps that
   satisfy the per-request guards, starting from the empty store, leaves a stored map whose live leaves are the fold of
   the sequential gNMI effect (spec_step) over the list.  Induction over the list with commit_store_refines for the
   step and commit_store_keeps for the invariant. *)
From Coq Require Import List NArith Bool Lia.
From OC Require Import Base.Bytes Model.Merge Model.CfgStore
     Proofs.MergeProofs Proofs.TextPathProofs Proofs.PruneProofs Proofs.StoreProofs Proofs.CommitProofs Proofs.StoreFullProofs
     Proofs.CommitPreserve.
Import ListNotations.
Open Scope N_scope.

(* ------------------------------------------------------------------ the reference effect on functions *)
(* some delete of the request has p strictly beneath it (at a path element boundary) *)
Definition deleted_above (ch : cfgmap) (p : str) : bool :=
  existsb (fun kv => pv_deleted (snd kv) && is_path_below p (pv_path (snd kv))) ch.

(* one request applied to the live leaves L (a function path -> value): an update sets its leaf, a delete removes its
   node and everything strictly beneath it, nothing else changes.  No reference to what is stored. *)
Definition spec_step (L : str -> option str) (ch : cfgmap) (p : str) : option str :=
  match map_get p ch with
  | Some c => live_of c
  | None => if deleted_above ch p then None else L p
  end.

Fixpoint spec_history (L : str -> option str) (h : list (N * cfgmap)) : str -> option str :=
  match h with
  | [] => L
  | (_, ch) :: h' => spec_history (spec_step L ch) h'
  end.

Lemma spec_live_fun_step V ch p : spec_live_fun V ch p = spec_step (live V) ch p.
Proof.
  unfold spec_live_fun, spec_step, cascadedb, deleted_above. destruct (map_get p ch); [reflexivity|].
  destruct (existsb _ ch); cbn [andb]; [|reflexivity].
  unfold map_has, live. destruct (map_get p V); reflexivity.
Qed.

Lemma spec_step_ext L L' ch : (forall q, L q = L' q) -> forall p, spec_step L ch p = spec_step L' ch p.
Proof. intros E p. unfold spec_step. rewrite E. reflexivity. Qed.

Lemma spec_history_ext h : forall L L', (forall q, L q = L' q) -> forall p, spec_history L h p = spec_history L' h p.
Proof.
  induction h as [|[i ch] h IH]; intros L L' E p; cbn; [apply E|].
  apply IH. apply spec_step_ext. exact E.
Qed.

(* ------------------------------------------------------------------ the implementation's fold *)
Fixpoint run_history (M : cfgmap) (h : list (N * cfgmap)) : cfgmap :=
  match h with
  | [] => M
  | (idx, ch) :: h' => run_history (persist_commit M idx ch) h'
  end.

(* ------------------------------------------------------------------ guards *)
(* one request: keys are the paths of their values, distinct, not "" or "/"; no update beneath a delete of the same
   request; every value carries the transaction index *)
Definition req_ok (ic : N * cfgmap) : Prop :=
  keys_ok (snd ic) /\ nodup (snd ic) /\ proper_keys (snd ic) /\ no_overlap (snd ic) /\ stamped (fst ic) (snd ic).

(* transaction indexes increase strictly (and start at b or later) *)
Fixpoint indexes_from (b : N) (h : list (N * cfgmap)) : Prop :=
  match h with
  | [] => True
  | (i, _) :: h' => b <= i /\ indexes_from (N.succ i) h'
  end.

(* paths named / updated by some request of a list *)
Definition names (cs : list cfgmap) (q : str) : Prop := exists c, In c cs /\ In q (map fst c).
Definition updated (cs : list cfgmap) (p : str) : Prop := exists c v, In c cs /\ In (p, v) c /\ pv_deleted v = false.

(* leaf / container discipline (what the YANG schema enforces): a path that is ever updated is a leaf, i.e. no request
   of the history names a path strictly beneath it *)
Definition leaf_discipline (cs : list cfgmap) : Prop :=
  forall p q, updated cs p -> names cs q -> is_path_below q p = false.

Definition history_ok (h : list (N * cfgmap)) : Prop :=
  Forall req_ok h /\ indexes_from 0 h /\ leaf_discipline (map snd h).

(* ------------------------------------------------------------------ the invariant of the stored map *)
Record st_inv (past : list cfgmap) (b : N) (M : cfgmap) : Prop := {
  si_keys : keys_ok M;
  si_nodup : nodup M;
  si_proper : proper_keys M;
  si_clean : clean M;
  si_older : older b M;
  si_names : forall q, In q (map fst M) -> names past q;
  si_live : forall p, live M p <> None -> updated past p
}.

Lemma st_inv_empty : st_inv [] 0 [].
Proof.
  constructor.
  - intros k v [].
  - constructor.
  - intros k v [].
  - intros p t e _ [].
  - intros k e [].
  - intros q [].
  - intros p H. cbn in H. congruence.
Qed.

Lemma names_mono cs cs' q : incl cs cs' -> names cs q -> names cs' q.
Proof. intros S [c [HI H]]. exists c. auto. Qed.

Lemma updated_mono cs cs' p : incl cs cs' -> updated cs p -> updated cs' p.
Proof. intros S [c [v [HI H]]]. exists c, v. auto. Qed.

Lemma older_mono b b' M : b <= b' -> older b M -> older b' M.
Proof. intros L O k e HI. specialize (O k e HI). lia. Qed.

(* a single commit re-establishes what the next commit needs *)
Theorem commit_preserves idx M ch :
  keys_ok M -> nodup M -> proper_keys M -> clean M ->
  keys_ok ch -> nodup ch -> proper_keys ch -> no_overlap ch ->
  leaf_ok M ch -> older idx M -> stamped idx ch ->
  keys_ok (persist_commit M idx ch) /\ nodup (persist_commit M idx ch) /\ proper_keys (persist_commit M idx ch) /\
  clean (persist_commit M idx ch) /\ older (N.succ idx) (persist_commit M idx ch) /\
  (forall q, In q (map fst (persist_commit M idx ch)) -> In q (map fst ch) \/ In q (map fst M)) /\
  (forall p, live (persist_commit M idx ch) p <> None ->
             (exists c, In (p, c) ch /\ pv_deleted c = false) \/ live M p <> None).
Proof.
  intros KM NM PM CM KC NC PC GC LF OM SC.
  destruct (commit_store_keeps idx M ch KM NM PM CM KC NC PC GC LF (fresh_of_older idx M ch OM SC)) as (H1 & H2 & H3 & H4 & H5 & H6).
  refine (conj H1 (conj H2 (conj H3 (conj H4 (conj _ H6))))).
  intros q v HI. destruct (H5 q v HI) as [HM|E]; [pose proof (OM _ _ HM)|]; lia.
Qed.

(* the first request of a history that meets the guards: its commit has the reference effect on the live leaves and
   keeps the invariant, and the rest of the history meets the guards from there *)
Lemma history_head past b M idx ch h :
  st_inv past b M -> Forall req_ok ((idx, ch) :: h) -> indexes_from b ((idx, ch) :: h) ->
  leaf_discipline (past ++ map snd ((idx, ch) :: h)) ->
  (forall p, live (persist_commit M idx ch) p = spec_step (live M) ch p) /\
  st_inv (past ++ [ch]) (N.succ idx) (persist_commit M idx ch) /\
  Forall req_ok h /\ indexes_from (N.succ idx) h /\ leaf_discipline ((past ++ [ch]) ++ map snd h).
Proof.
  intros [KM NM PM CM OM NA LI] R [Lb IX] LD. inversion R as [|? ? (KC & NC & PC & GC & SC) R2]; subst.
  cbn [fst snd map] in *. change (ch :: map snd h) with ([ch] ++ map snd h) in LD. rewrite app_assoc in LD.
  assert (S1 : incl past (past ++ [ch])) by apply incl_appl, incl_refl.
  assert (S2 : incl past ((past ++ [ch]) ++ map snd h)) by apply incl_appl, S1.
  assert (LF : leaf_ok M ch).
  { intros p q L HQ. apply LD; [apply (updated_mono past); [exact S2 | apply LI, L]|].
    destruct HQ as [HQ|HQ]; [apply (names_mono past); [exact S2 | apply NA, HQ]|].
    exists ch. split; [apply in_or_app; left; apply in_elt | exact HQ]. }
  assert (OM' : older idx M) by (apply (older_mono b); assumption).
  destruct (commit_preserves idx M ch KM NM PM CM KC NC PC GC LF OM' SC) as (K' & N' & P' & C' & O' & NA' & LI').
  split; [|split; [|auto]].
  - intros p. rewrite <- spec_live_fun_step. apply commit_store_refines; try assumption. apply fresh_of_older; assumption.
  - constructor; try assumption.
    + intros q HI. destruct (NA' q HI) as [H|H]; [exists ch; split; [apply in_elt | exact H]|].
      apply (names_mono past); [exact S1 | apply NA, H].
    + intros p L. destruct (LI' p L) as [[c [HI Dc]]|H]; [exists ch, c; split; [apply in_elt | auto]|].
      apply (updated_mono past); [exact S1 | apply LI, H].
Qed.

(* ------------------------------------------------------------------ histories *)
Theorem history_refines_gen h : forall past b M,
  st_inv past b M -> Forall req_ok h -> indexes_from b h -> leaf_discipline (past ++ map snd h) ->
  (forall p, live (run_history M h) p = spec_history (live M) h p) /\
  exists b', st_inv (past ++ map snd h) b' (run_history M h).
Proof.
  induction h as [|[idx ch] h IH]; intros past b M I R IX LD.
  - cbn. split; [reflexivity|]. exists b. rewrite app_nil_r. exact I.
  - destruct (history_head past b M idx ch h I R IX LD) as (S & I' & R2 & IX2 & LD2).
    destruct (IH _ _ _ I' R2 IX2 LD2) as [H1 [b' H2]]. cbn [run_history spec_history map snd]. split.
    + intros p. rewrite H1. apply spec_history_ext, S.
    + exists b'. rewrite <- app_assoc in H2. exact H2.
Qed.

(* from the empty store *)
Theorem history_refines h : history_ok h ->
  forall p, live (run_history [] h) p = spec_history (fun _ => None) h p.
Proof.
  intros [R [IX LD]] p.
  destruct (history_refines_gen h [] 0 [] st_inv_empty R IX LD) as [H _]. rewrite H.
  apply spec_history_ext. reflexivity.
Qed.

(* the hypotheses of commit_store_refines hold again after every history: the store is well formed and clean *)
Theorem history_invariant h : history_ok h ->
  keys_ok (run_history [] h) /\ nodup (run_history [] h) /\ proper_keys (run_history [] h) /\ clean (run_history [] h) /\
  (forall p, live (run_history [] h) p <> None -> updated (map snd h) p).
Proof.
  intros [R [IX LD]].
  destruct (history_refines_gen h [] 0 [] st_inv_empty R IX LD) as [_ [b' [K N P C _ _ L]]]. cbn [app] in L. auto.
Qed.
