(* reconcileCommit followed by the configuration store write (repaired code): what Get reads afterwards is one gNMI
   request applied to what it read before (commit_store_refines), and the stored map RE-ESTABLISHES the hypotheses of
   that theorem (commit_store_keeps): distinct proper keys that are the paths of their values, `clean` again (no live
   value beneath a stored tombstone), old indexes or the transaction's, only paths the stored map or the request named,
   live values that were live before or are updates of the request. *)
From Coq Require Import List NArith Bool Lia.
From OC Require Import Base.Bytes Model.Merge Model.CfgStore
     Proofs.MergeProofs Proofs.TextPathProofs Proofs.PruneProofs Proofs.StoreProofs Proofs.CommitProofs Proofs.StoreFullProofs.
Import ListNotations.
Open Scope N_scope.

(* every stored value is older than the transaction *)
Definition older (idx : N) (M : cfgmap) : Prop := forall k e, In (k, e) M -> pv_index e < idx.
(* every change value carries the transaction index *)
Definition stamped (idx : N) (ch : cfgmap) : Prop := forall k c, In (k, c) ch -> pv_index c = idx.

Lemma fresh_of_older idx M ch : older idx M -> stamped idx ch -> fresh_index idx M ch.
Proof. intros O S. split; [exact S|]. intros k e HI E. specialize (O k e HI). lia. Qed.

Section Commit.
  Context (idx : N) (M ch : cfgmap).
  Context (KM : keys_ok M) (NM : nodup M) (PM : proper_keys M) (CM : clean M)
          (KC : keys_ok ch) (NC : nodup ch) (PC : proper_keys ch) (GC : no_overlap ch)
          (LF : leaf_ok M ch) (FI : fresh_index idx M ch).

  Let acc := fold_left (adc_step idx) ch ([], M).
  Let V' := commit_merge idx ch M.
  Let M' := persist_commit M idx ch.

  Lemma V'_unfold : V' = apply_all (snd acc) (fst acc).
  Proof. reflexivity. Qed.

  Let INV : adc_inv idx M ch acc := adc_invariant idx M KM NM ch KC NC GC.

  Lemma V'_wf : nodup V' /\ keys_ok V'.
  Proof.
    rewrite V'_unfold. apply apply_all_wf; [apply (ai_upd_ok _ _ _ _ INV) | apply (ai_st_nd _ _ _ _ INV) | apply (ai_st_ok _ _ _ _ INV)].
  Qed.

  Let NV : nodup V' := proj1 V'_wf.
  Let KV : keys_ok V' := proj2 V'_wf.

  (* every entry of the merged map: the request's own value, or a stored value marked deleted now, or an untouched stored entry *)
  Lemma V'_prov p v : map_get p V' = Some v ->
    (map_get p (fst acc) = Some v /\ (In (p, v) ch \/ (pv_deleted v = true /\ pv_index v = idx)))
    \/ (map_get p (fst acc) = None /\ map_get p M = Some v).
  Proof.
    intros H. rewrite V'_unfold in H.
    destruct (apply_all_prov _ _ _ _ (ai_nodup _ _ _ _ INV) H) as [H1|[H1 H2]].
    - left. split; [exact H1 | apply (ai_prov _ _ _ _ INV); exact H1].
    - right. split; [exact H1|]. rewrite <- (ai_miss _ _ _ _ INV p H1). exact H2.
  Qed.

  Lemma V'_index p v : map_get p V' = Some v -> map_get p M = Some v \/ pv_index v = idx.
  Proof.
    intros H. destruct (V'_prov p v H) as [[_ [HI|[_ HI]]]|[_ HM]].
    - right. apply (proj1 FI p v HI).
    - right. exact HI.
    - left. exact HM.
  Qed.

  Lemma upd_keys t : map_get t (fst acc) <> None -> In t (map fst ch) \/ In t (map fst M).
  Proof.
    intros HN. destruct (proj1 (ai_dom _ _ _ _ INV t) HN) as [HK|(kd & d & _ & _ & _ & HV)]; [left; exact HK|].
    right. apply in_keys_of_get, HV.
  Qed.

  Lemma V'_keys t e : map_get t V' = Some e -> In t (map fst ch) \/ In t (map fst M).
  Proof.
    intros H. destruct (V'_prov t e H) as [[H1 _]|[_ HM]]; [apply upd_keys; congruence|].
    right. apply in_keys_of_get. congruence.
  Qed.

  Lemma V'_key_proper t e : map_get t V' = Some e -> proper t.
  Proof.
    intros H. destruct (V'_keys t e H) as [HK|HK]; apply in_map_iff in HK as ([k c] & E & HK); cbn in E; subst k.
    - apply (PC _ _ HK).
    - apply (PM _ _ HK).
  Qed.

  (* a tombstone of the updated map is an own delete or a cascaded stored value: either way a delete d of the
     request has it at or beneath its path, and with it whatever lies beneath the tombstone *)
  Lemma upd_tomb_under_delete t e p : map_get t (fst acc) = Some e -> pv_deleted e = true ->
    proper t -> is_path_below p t = true ->
    exists kd d, In (kd, d) ch /\ pv_deleted d = true /\ is_path_below p (pv_path d) = true.
  Proof.
    intros H De Pt Bt. assert (HN : map_get t (fst acc) <> None) by congruence.
    destruct (proj1 (ai_dom _ _ _ _ INV t) HN) as [HK|[kd [d [HI [Dd [Bd _]]]]]].
    - apply in_map_iff in HK. destruct HK as [[k c] [E HK]]. cbn in E. subst k.
      destruct (pv_deleted c) eqn:Dc.
      + exists t, c. rewrite <- (KC _ _ HK). auto.
      + rewrite (ai_own _ _ _ _ INV t c HK Dc) in H. injection H as <-. congruence.
    - exists kd, d. split; [exact HI|]. split; [exact Dd|].
      apply (below_trans p t (pv_path d) Pt); [rewrite <- (KC _ _ HI); apply (PC _ _ HI) | exact Bt | exact Bd].
  Qed.

  Lemma live_kept p pv : map_get p V' = Some pv -> pv_deleted pv = false -> kept p V' = true.
  Proof.
    intros Hp Dp.
    apply (kept_intro V' p pv KV).
    - intros t [e [HI _]]. apply (V'_key_proper t e). apply map_get_in; assumption.
    - apply map_get_some_in. exact Hp.
    - intros t [e [HI De]] HA.
      assert (Ht : map_get t V' = Some e) by (apply map_get_in; assumption).
      assert (Pt : proper t) by (apply (V'_key_proper t e Ht)).
      assert (Bt : is_path_below p t = true) by (apply (ancestor_below p t Pt); exact HA).
      destruct (V'_prov p pv Hp) as [[Hpu [HIp|[Dx _]]]|[Hpn HpM]]; [| congruence |].
      + (* p is an own update of the request *)
        destruct (V'_prov t e Ht) as [[Htu _]|[Htn HtM]].
        * destruct (upd_tomb_under_delete t e p Htu De Pt Bt) as (kd & d & HId & Dd & B).
          pose proof (GC p pv kd d HIp HId Dp Dd) as F. rewrite <- (KC _ _ HIp) in F. congruence.
        * (* an old tombstone the request does not name: dropped when p was applied *)
          assert (NT : not_tomb V' t).
          { rewrite V'_unfold. apply (apply_all_clears (fst acc) (snd acc) p pv t (ai_nodup _ _ _ _ INV)).
            - apply map_get_some_in. exact Hpu.
            - exact Dp.
            - exact HA.
            - intros HK. apply map_get_in_keys in HK. congruence. }
          unfold not_tomb in NT. rewrite Ht in NT. congruence.
      + (* p is an untouched stored live value *)
        assert (Lp : live M p <> None) by (rewrite (live_intro _ _ _ HpM Dp); discriminate).
        destruct (V'_prov t e Ht) as [[Htu _]|[Htn HtM]].
        * destruct (upd_tomb_under_delete t e p Htu De Pt Bt) as (kd & d & HId & Dd & B).
          assert (HC : map_get p (fst acc) <> None).
          { apply (ai_dom _ _ _ _ INV). right. exists kd, d. repeat split; try assumption. congruence. }
          congruence.
        * apply map_get_some_in in HtM. pose proof (CM p t e Lp HtM De). congruence.
  Qed.

  Lemma gone_not_live p : map_get p V' = None -> live M p = None.
  Proof.
    intros H. destruct (live M p) eqn:L; [|reflexivity]. exfalso.
    assert (Lp : live M p <> None) by congruence.
    assert (HS : map_get p (snd acc) <> None).
    { intros E. apply (ai_st_dom _ _ _ _ INV) in E. unfold live in L. rewrite E in L. discriminate. }
    rewrite V'_unfold in H.
    destruct (apply_all_dropped _ _ _ H (or_introl HS)) as [x [Hx Ha]].
    assert (Pp : proper p) by (destruct (live_elim M p Lp) as (w & G & _); apply (PM p w), map_get_some_in, G).
    assert (B : is_path_below x p = true) by (apply (ancestor_below x p Pp); exact Ha).
    pose proof (LF p x Lp (proj1 (or_comm _ _) (upd_keys x (map_get_in_keys _ _ Hx)))). congruence.
  Qed.

  (* ---------------------------------------------------------------- the stored map afterwards *)
  Lemma M'_unfold : M' = store_write M V'.
  Proof. reflexivity. Qed.

  (* a key of the merged map holds the merged value if PrunePathMap keeps it, and is absent otherwise *)
  Lemma M'_named q pv : map_get q V' = Some pv -> map_get q M' = if kept q V' then Some pv else None.
  Proof.
    intros G. rewrite M'_unfold, (proj1 (proj2 (store_write_full M V' KV NV)) q pv G).
    unfold entry_after. rewrite <- (KV q pv (map_get_some_in _ _ _ G)).
    destruct (map_get q M) as [e|] eqn:GM; [|reflexivity].
    destruct (kept q V'); cbn [negb]; [|reflexivity].
    destruct (pv_index pv =? pv_index e) eqn:EI; cbn [negb]; [|reflexivity].
    (* the write is skipped on equal indexes: then the stored entry is the merged one, by fresh_index *)
    apply N.eqb_eq in EI. destruct (V'_index q pv G) as [HM|HI]; [congruence|].
    destruct (proj2 FI q e (map_get_some_in _ _ _ GM)). congruence.
  Qed.

  Lemma M'_unnamed q : map_get q V' = None -> map_get q M' = map_get q M \/ map_get q M' = None.
  Proof. apply (store_write_full M V' KV NV). Qed.

  (* the live leaves Get reads after the commit has been stored = one gNMI request applied to those before *)
  Theorem commit_store_refines p : live (persist_commit M idx ch) p = spec_live_fun M ch p.
  Proof.
    rewrite <- (merge_refines_eq idx M ch KM NM KC NC GC p). fold V' M'. unfold live.
    destruct (map_get p V') as [pv|] eqn:Hp.
    - rewrite (M'_named p pv Hp). destruct (pv_deleted pv) eqn:Dp.
      + destruct (kept p V'); [|unfold live_of; rewrite Dp]; reflexivity.
      + rewrite (live_kept p pv Hp Dp). reflexivity.
    - pose proof (gone_not_live p Hp) as E. unfold live in E. destruct (M'_unnamed p Hp) as [-> | ->]; [exact E | reflexivity].
  Qed.

  (* an entry of the merged map: a value of the request, a tombstone, or a stored entry as it was *)
  Lemma V'_origin q v : map_get q V' = Some v -> In (q, v) ch \/ pv_deleted v = true \/ map_get q M = Some v.
  Proof. intros H. destruct (V'_prov q v H) as [[_ [HI|[D _]]]|[_ HM]]; auto. Qed.

  (* what the store holds afterwards is an entry of the merged map, or an untouched entry the merged map does not name *)
  Lemma M'_entry q v : map_get q M' = Some v ->
    map_get q V' = Some v \/ (map_get q V' = None /\ map_get q M = Some v).
  Proof.
    intros H. destruct (map_get q V') as [pv|] eqn:G.
    - left. rewrite (M'_named q pv G) in H. destruct (kept q V'); [exact H | discriminate].
    - right. split; [reflexivity|]. destruct (M'_unnamed q G) as [E|E]; congruence.
  Qed.

  Lemma M'_nodup : nodup M'.
  Proof. rewrite M'_unfold. apply (store_write_full M V' KV NV). exact NM. Qed.

  Lemma M'_in q v : In (q, v) M' -> map_get q M' = Some v.
  Proof. apply map_get_in. exact M'_nodup. Qed.

  Lemma M'_keys_ok : keys_ok M'.
  Proof.
    intros q v HI. destruct (M'_entry q v (M'_in q v HI)) as [H|[_ H]]; apply map_get_some_in in H.
    - apply (KV _ _ H).
    - apply (KM _ _ H).
  Qed.

  Lemma M'_proper : proper_keys M'.
  Proof.
    intros q v HI. destruct (M'_entry q v (M'_in q v HI)) as [H|[_ H]].
    - apply (V'_key_proper q v H).
    - apply map_get_some_in in H. apply (PM _ _ H).
  Qed.

  Lemma M'_index q v : In (q, v) M' -> In (q, v) M \/ pv_index v = idx.
  Proof.
    intros HI. destruct (M'_entry q v (M'_in q v HI)) as [H|[_ H]]; [|left; apply map_get_some_in, H].
    destruct (V'_index q v H) as [HM|E]; [left; apply map_get_some_in, HM | right; exact E].
  Qed.

  (* the store names nothing new *)
  Lemma M'_keys q : In q (map fst M') -> In q (map fst ch) \/ In q (map fst M).
  Proof.
    intros HI. apply in_map_iff in HI. destruct HI as [[k v] [E HI]]. cbn in E. subst k.
    destruct (M'_entry q v (M'_in q v HI)) as [H|[_ H]]; [apply (V'_keys q v H)|].
    right. apply in_keys_of_get. congruence.
  Qed.

  (* a live value afterwards is a live entry of the merged map, stored as such *)
  Lemma M'_live p : live M' p <> None ->
    exists pv, map_get p V' = Some pv /\ pv_deleted pv = false /\ map_get p M' = Some pv.
  Proof.
    intros L. destruct (live_elim M' p L) as (pv & G & Dp & _).
    exists pv. destruct (M'_entry p pv G) as [H|[HN HM]]; [auto|].
    pose proof (gone_not_live p HN) as E. rewrite (live_intro _ _ _ HM Dp) in E. discriminate.
  Qed.

  (* ... and it is an update of the request or a live value from before *)
  Lemma M'_live_origin p : live M' p <> None ->
    (exists c, In (p, c) ch /\ pv_deleted c = false) \/ live M p <> None.
  Proof.
    intros L. destruct (M'_live p L) as [pv [G [Dp _]]].
    destruct (V'_origin p pv G) as [HI|[D|HM]]; [left; exists pv; auto | congruence|].
    right. rewrite (live_intro _ _ _ HM Dp). discriminate.
  Qed.

  (* the store is clean again *)
  Lemma M'_clean : clean M'.
  Proof.
    intros p t e L HI De. destruct (is_path_below p t) eqn:B; [exfalso | reflexivity].
    destruct (M'_live p L) as [pv [Gp [Dp Sp]]].
    assert (Pt : proper t) by (apply (M'_proper t e HI)).
    assert (HA : In t (boundary_ancestors p)) by (apply (ancestor_below p t Pt); exact B).
    pose proof (live_kept p pv Gp Dp) as K.
    destruct (M'_entry t e (M'_in t e HI)) as [Ht|[HtN HtM]].
    - (* a tombstone of the merged map above a kept value: PrunePathMap would have dropped the value *)
      apply (kept_elim V' p t KV K); [|exact HA].
      exists e. split; [apply map_get_some_in; exact Ht | exact De].
    - destruct (V'_origin p pv Gp) as [HIp|[D|HpM]]; [| congruence |].
      + (* p is written by this commit: the old tombstone above it has been removed *)
        assert (W : written M V' pv = true).
        { unfold written. rewrite <- (KV _ _ (map_get_some_in _ _ _ Gp)). rewrite K.
          destruct (map_get p M) as [e0|] eqn:G0; [|reflexivity]. cbn [andb]. apply negb_true_iff. apply N.eqb_neq.
          rewrite (proj1 FI _ _ HIp). intros E. apply (proj2 FI _ _ (map_get_some_in _ _ _ G0)). congruence. }
        destruct (store_write_full M V' KV NV) as [_ [_ [_ W4]]].
        assert (OT : old_tomb M V' t).
        { split; [unfold map_has; rewrite HtN; reflexivity | exists e; auto]. }
        pose proof (W4 p pv Gp W Dp t HA OT) as E. rewrite <- M'_unfold in E.
        rewrite (M'_in t e HI) in E. discriminate.
      + (* p is an untouched stored value: the stored map was clean *)
        assert (Lp : live M p <> None) by (rewrite (live_intro _ _ _ HpM Dp); discriminate).
        apply map_get_some_in in HtM. pose proof (CM p t e Lp HtM De). congruence.
  Qed.

  Theorem commit_store_keeps :
    keys_ok M' /\ nodup M' /\ proper_keys M' /\ clean M' /\
    (forall q v, In (q, v) M' -> In (q, v) M \/ pv_index v = idx) /\
    (forall q, In q (map fst M') -> In q (map fst ch) \/ In q (map fst M)) /\
    (forall p, live M' p <> None -> (exists c, In (p, c) ch /\ pv_deleted c = false) \/ live M p <> None).
  Proof.
    exact (conj M'_keys_ok (conj M'_nodup (conj M'_proper (conj M'_clean (conj M'_index (conj M'_keys M'_live_origin)))))).
  Qed.
End Commit.
