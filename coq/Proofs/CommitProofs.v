(* applyChangeToConfig over the updated change values (apply_all): what it keeps, enters and drops; the hypotheses of the
   theorems about reconcileCommit followed by the configuration store write (CommitPreserve.v). *)
From Coq Require Import List NArith Bool Lia.
From OC Require Import Base.Bytes Model.Merge Model.CfgStore
     Proofs.MergeProofs Proofs.TextPathProofs Proofs.PruneProofs Proofs.StoreProofs.
Import ListNotations.
Open Scope N_scope.

(* ------------------------------------------------------------------ map_del, the ancestor-dropping fold *)
Lemma map_del_incl k m : incl (map_del k m) m.
Proof.
  induction m as [|[k0 v0] m IH]; cbn; [apply incl_refl|].
  destruct (eqb_str k k0); [apply incl_tl, IH | apply incl_cons; [left; reflexivity | apply incl_tl, IH]].
Qed.

Lemma nodup_map_del k m : nodup m -> nodup (map_del k m).
Proof.
  unfold nodup. induction m as [|[k0 v0] m IH]; cbn; intros ND; [constructor|].
  inversion ND as [|? ? Hn ND']; subst.
  destruct (eqb_str k k0); cbn; [apply IH; exact ND'|].
  constructor; [|apply IH; exact ND']. intros H. apply Hn. apply (incl_map fst (map_del_incl k m)), H.
Qed.

Lemma keys_ok_map_del k m : keys_ok m -> keys_ok (map_del k m).
Proof. intros KO k1 v1 HI. apply KO, (map_del_incl k m), HI. Qed.

Definition not_tomb (m : cfgmap) (a : str) : Prop :=
  match map_get a m with Some e => pv_deleted e = false | None => True end.

Lemma drop_step_facts acc a :
  let r := drop_deleted_ancestor acc a in
  (nodup (fst acc) -> nodup (fst r)) /\ (keys_ok (fst acc) -> keys_ok (fst r)) /\
  (forall p v, map_get p (fst r) = Some v -> map_get p (fst acc) = Some v) /\
  (forall p, map_get p (fst r) = None -> map_get p (fst acc) = None \/ p = a) /\
  not_tomb (fst r) a /\
  (forall b, not_tomb (fst acc) b -> not_tomb (fst r) b).
Proof.
  unfold drop_deleted_ancestor, not_tomb.
  destruct (map_get a (fst acc)) as [e|] eqn:G; [destruct (pv_deleted e) eqn:D|]; cbn [fst].
  - repeat split.
    + apply nodup_map_del.
    + apply keys_ok_map_del.
    + intros p v H. rewrite map_get_del in H. destruct (eqb_str p a); [discriminate | exact H].
    + intros p H. rewrite map_get_del in H. deq p a; [right; reflexivity | left; exact H].
    + rewrite map_get_del, eqb_str_refl. exact I.
    + intros b H. rewrite map_get_del. destruct (eqb_str b a); [exact I | exact H].
  - repeat split; auto. rewrite G. exact D.
  - repeat split; auto. rewrite G. exact I.
Qed.

Lemma drop_fold_facts ancs : forall acc,
  let r := fold_left drop_deleted_ancestor ancs acc in
  (nodup (fst acc) -> nodup (fst r)) /\ (keys_ok (fst acc) -> keys_ok (fst r)) /\
  (forall p v, map_get p (fst r) = Some v -> map_get p (fst acc) = Some v) /\
  (forall p, map_get p (fst r) = None -> map_get p (fst acc) = None \/ In p ancs) /\
  (forall a, In a ancs -> not_tomb (fst r) a) /\
  (forall b, not_tomb (fst acc) b -> not_tomb (fst r) b).
Proof.
  induction ancs as [|a ancs IH]; intros acc; cbn [fold_left].
  - repeat split; auto. intros a [].
  - destruct (drop_step_facts acc a) as [S1 [S2 [S3 [S4 [S5 S6]]]]].
    destruct (IH (drop_deleted_ancestor acc a)) as [R1 [R2 [R3 [R4 [R5 R6]]]]].
    repeat split.
    + intros H. apply R1, S1, H.
    + intros H. apply R2, S2, H.
    + intros p v H. apply S3, R3, H.
    + intros p H. destruct (R4 p H) as [H'|H']; [|right; right; exact H'].
      destruct (S4 p H') as [H''|H'']; [left; exact H'' | right; left; symmetry; exact H''].
    + intros b [<-|H]; [apply R6, S5 | apply R5, H].
    + intros b H. apply R6, S6, H.
Qed.

Lemma ancestor_neq a x : In a (boundary_ancestors x) -> a <> x.
Proof.
  intros H E. subst a. apply in_ancestors_iff in H. destruct H as [_ [c [r [E _]]]]. exact (app_cons_neq _ _ _ E).
Qed.

(* ------------------------------------------------------------------ applyChangeToConfig, one value *)
Lemma apply_change_facts vals k u :
  let r := fst (apply_change_to_config vals k u) in
  (nodup vals -> nodup r) /\ (keys_ok vals -> k = pv_path u -> keys_ok r) /\
  (forall p v, map_get p r = Some v -> (p = k /\ v = u) \/ (p <> k /\ map_get p vals = Some v)) /\
  (forall p, map_get p r = None -> p <> k /\ (map_get p vals = None \/ In p (boundary_ancestors k))) /\
  (pv_deleted u = false -> forall a, In a (boundary_ancestors k) -> not_tomb r a) /\
  (forall b, b <> k -> not_tomb vals b -> not_tomb r b).
Proof.
  rewrite apply_change_fold.
  assert (IA : incl (if pv_deleted u then [] else boundary_ancestors k) (boundary_ancestors k))
    by (destruct (pv_deleted u); [intros x [] | apply incl_refl]).
  destruct (drop_fold_facts (if pv_deleted u then [] else boundary_ancestors k) (map_set k u vals, None))
    as [R1 [R2 [R3 [R4 [R5 R6]]]]].
  cbn [fst] in *. repeat split.
  - intros H. apply R1, nodup_map_set, H.
  - intros H E. apply R2, keys_ok_map_set; assumption.
  - intros p v H. apply R3 in H. rewrite map_get_set in H.
    deq p k; [left; injection H as <-; auto | right; auto].
  - apply R4 in H. destruct H as [H|H].
    + rewrite map_get_set in H. deq p k; [discriminate | exact E].
    + apply ancestor_neq, IA. exact H.
  - apply R4 in H. destruct H as [H|H]; [|right; apply IA; exact H].
    rewrite map_get_set in H. destruct (eqb_str p k); [discriminate | left; exact H].
  - intros Du. rewrite Du in *. exact R5.
  - intros b Nb H. apply R6. unfold not_tomb. rewrite map_get_set. apply eqb_str_neq in Nb. rewrite Nb. exact H.
Qed.

(* ------------------------------------------------------------------ the whole updated map *)
Lemma apply_all_cons vals k u upd :
  apply_all vals ((k, u) :: upd) = apply_all (fst (apply_change_to_config vals k u)) upd.
Proof. reflexivity. Qed.

Lemma apply_all_wf upd : forall vals, keys_ok upd -> nodup vals -> keys_ok vals ->
  nodup (apply_all vals upd) /\ keys_ok (apply_all vals upd).
Proof.
  induction upd as [|[k u] upd IH]; intros vals KU NV KV; [split; assumption|].
  rewrite apply_all_cons. destruct (keys_ok_cons _ _ _ KU) as [Ek KU'].
  destruct (apply_change_facts vals k u) as [A1 [A2 _]].
  apply IH; [exact KU' | apply A1, NV | apply A2; assumption].
Qed.

(* where an entry of the result comes from *)
Lemma apply_all_prov upd : forall vals p v, nodup upd ->
  map_get p (apply_all vals upd) = Some v ->
  map_get p upd = Some v \/ (map_get p upd = None /\ map_get p vals = Some v).
Proof.
  induction upd as [|[k u] upd IH]; intros vals p v ND H; [right; split; [reflexivity | exact H]|].
  rewrite apply_all_cons in H. unfold nodup in ND. cbn in ND. inversion ND as [|? ? Hn ND']; subst.
  destruct (apply_change_facts vals k u) as [_ [_ [A3 _]]].
  cbn [map_get]. destruct (IH _ p v ND' H) as [H1|[H1 H2]].
  - left. deq p k; [|exact H1]. exfalso. apply Hn. apply map_get_some_in in H1. apply (in_map fst) in H1. exact H1.
  - destruct (A3 p v H2) as [[-> ->]|[Np Hv]].
    + left. rewrite eqb_str_refl. reflexivity.
    + right. apply eqb_str_neq in Np. rewrite Np. split; assumption.
Qed.

(* a tombstone above a LIVE value of the updated map that the updated map itself does not name is gone
   (a deleted value leaves its ancestors alone, 13d170a) *)
Lemma apply_all_not_tomb_other upd : forall vals t, ~ In t (map fst upd) -> not_tomb vals t -> not_tomb (apply_all vals upd) t.
Proof.
  induction upd as [|[k u] upd IH]; intros vals t Hn H; [exact H|].
  rewrite apply_all_cons. cbn in Hn.
  destruct (apply_change_facts vals k u) as [_ [_ [_ [_ [_ A6]]]]].
  apply IH; [intros HI; apply Hn; right; exact HI|].
  apply A6; [intros E; apply Hn; left; symmetry; exact E | exact H].
Qed.

Lemma apply_all_clears upd : forall vals p v t, nodup upd ->
  In (p, v) upd -> pv_deleted v = false -> In t (boundary_ancestors p) -> ~ In t (map fst upd) ->
  not_tomb (apply_all vals upd) t.
Proof.
  induction upd as [|[k u] upd IH]; intros vals p v t ND HI Dv HA Hn; [destruct HI|].
  rewrite apply_all_cons. unfold nodup in ND. cbn in ND, Hn. inversion ND as [|? ? Hk ND']; subst.
  destruct (apply_change_facts vals k u) as [_ [_ [_ [_ [A5 _]]]]].
  destruct HI as [HI|HI].
  - injection HI as -> ->. apply apply_all_not_tomb_other; [intros H; apply Hn; right; exact H|].
    apply A5; [exact Dv | exact HA].
  - apply (IH _ p v t ND' HI Dv HA). intros H. apply Hn. right. exact H.
Qed.

(* a key that disappears was dropped as the ancestor of a key of the updated map *)
Lemma apply_all_dropped upd : forall vals p,
  map_get p (apply_all vals upd) = None -> map_get p vals <> None \/ In p (map fst upd) ->
  exists x, In x (map fst upd) /\ In p (boundary_ancestors x).
Proof.
  induction upd as [|[k u] upd IH]; intros vals p H HP.
  - cbn in H. destruct HP as [HP|[]]. congruence.
  - rewrite apply_all_cons in H.
    destruct (apply_change_facts vals k u) as [_ [_ [A3 [A4 _]]]].
    destruct (map_get p (fst (apply_change_to_config vals k u))) as [w|] eqn:G.
    + destruct (IH _ p H) as [x [Hx Ha]]; [left; congruence|]. exists x. split; [right; exact Hx | exact Ha].
    + destruct (A4 p G) as [Np [Hv|Ha]].
      * destruct HP as [HP|[HP|HP]]; [congruence | cbn in HP; congruence|].
        destruct (IH _ p H) as [x [Hx Ha]]; [right; exact HP|]. exists x. split; [right; exact Hx | exact Ha].
      * exists k. split; [left; reflexivity | exact Ha].
Qed.

(* ------------------------------------------------------------------ hypotheses about the stored map and the request *)
Definition proper_keys (m : cfgmap) : Prop := forall k v, In (k, v) m -> proper k.

(* no live stored value lies beneath a stored tombstone (the store keeps this: see the theorem's corollary) *)
Definition clean (M : cfgmap) : Prop :=
  forall p t e, live M p <> None -> In (t, e) M -> pv_deleted e = true -> is_path_below p t = false.

(* a stored live value is a leaf: neither a stored path nor a path of the request lies beneath it *)
Definition leaf_ok (M ch : cfgmap) : Prop :=
  forall p q, live M p <> None -> In q (map fst M) \/ In q (map fst ch) -> is_path_below q p = false.

Definition fresh_index (idx : N) (M ch : cfgmap) : Prop :=
  (forall k c, In (k, c) ch -> pv_index c = idx) /\ (forall k e, In (k, e) M -> pv_index e <> idx).
