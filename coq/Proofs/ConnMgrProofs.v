(* Proofs about the connection manager model Model/ConnMgr.v (stdlib only).
   [fx = true]: conn_manager.go as it is; [fx = false]: as it was before the repair CONN-1 (/repo ac94f55). *)
From Coq Require Import List NArith Bool Lia Arith.
From OC Require Import Model.ConnMgr.
Import ListNotations.
Open Scope N_scope.

(** * Lists *)
Lemma set_nth_same {A} (l : list A) n x y : nth_error l n = Some y -> nth_error (set_nth n x l) n = Some x.
Proof.
  revert n; induction l as [|a l IH]; intros [|n] Hn; cbn in *; try discriminate; auto.
Qed.

Lemma set_nth_other {A} (l : list A) n k x : k <> n -> nth_error (set_nth n x l) k = nth_error l k.
Proof.
  revert n k; induction l as [|a l IH]; intros [|n] [|k] Hk; cbn; auto; try congruence.
Qed.

Lemma set_nth_none {A} (l : list A) n x : nth_error l n = None -> set_nth n x l = l.
Proof.
  revert n; induction l as [|a l IH]; intros [|n] Hn; cbn in *; try discriminate; auto. f_equal; auto.
Qed.

Lemma set_nth_id {A} (l : list A) n x : nth_error l n = Some x -> set_nth n x l = l.
Proof.
  revert n; induction l as [|a l IH]; intros [|n] Hn; cbn in *; try discriminate.
  - inversion Hn; reflexivity.
  - f_equal; auto.
Qed.

Lemma set_nth_twice {A} (l : list A) n x y : set_nth n x (set_nth n y l) = set_nth n x l.
Proof.
  revert n; induction l as [|a l IH]; intros [|n]; cbn; auto. f_equal; auto.
Qed.

Lemma nth_error_set_nth {A} (l : list A) n x y k z :
  nth_error l n = Some y -> nth_error (set_nth n x l) k = Some z ->
  (k = n /\ z = x) \/ (k <> n /\ nth_error l k = Some z).
Proof.
  intros Hn Hk. destruct (Nat.eq_dec k n) as [->|Hne].
  - rewrite (set_nth_same _ _ _ _ Hn) in Hk. inversion Hk. auto.
  - rewrite set_nth_other in Hk by exact Hne. auto.
Qed.

Lemma nth_error_snoc {A} (l : list A) x g y :
  nth_error (l ++ [x]) g = Some y -> nth_error l g = Some y \/ (g = length l /\ y = x /\ nth_error l g = None).
Proof.
  intros H. destruct (Nat.lt_ge_cases g (length l)) as [Hlt|Hge].
  - left. rewrite nth_error_app1 in H; auto.
  - right. rewrite nth_error_app2 in H by exact Hge.
    destruct (g - length l)%nat as [|k] eqn:Hk; cbn in H.
    + inversion H; subst. repeat split; try lia. apply nth_error_None; lia.
    + destruct k; discriminate.
Qed.

Lemma lookup_remove_key {A} (l : list (N * A)) k k' :
  lookup k (remove_key k' l) = if k =? k' then None else lookup k l.
Proof.
  unfold remove_key. induction l as [|[a v] l IH]; cbn [filter lookup fst].
  - destruct (k =? k'); reflexivity.
  - destruct (a =? k') eqn:Ha; cbn [negb lookup].
    + apply N.eqb_eq in Ha; subst a. rewrite IH. destruct (k =? k') eqn:Hk; auto.
      rewrite N.eqb_sym, Hk. reflexivity.
    + destruct (a =? k) eqn:Hak; auto.
      apply N.eqb_eq in Hak; subst a. rewrite Ha. reflexivity.
Qed.

(** * Views of the state *)
Definition gconn (m : mgr) (g : nat) : option N :=
  match nth_error (m_gors m) g with Some go => g_conn go | None => None end.

Definition running (m : mgr) (g : nat) : Prop :=
  exists go, nth_error (m_gors m) g = Some go /\ g_alive go = true /\ g_started go = true.

Definition gor_ok (go : gor) : Prop :=
  (g_started go = false -> g_conn go = None) /\ (g_alive go = false -> g_conn go = None).

Record Inv (m : mgr) : Prop := mkInv {
  inv_ok : forall g go, nth_error (m_gors m) g = Some go -> gor_ok go;
  inv_own : forall g go id, nth_error (m_gors m) g = Some go -> g_conn go = Some id ->
                            lookup id (m_conns m) = Some (g_target go) /\ id < m_next m;
  inv_map : forall id t, lookup id (m_conns m) = Some t ->
                         id < m_next m /\ exists g go, nth_error (m_gors m) g = Some go /\ g_conn go = Some id /\ g_target go = t;
  inv_uniq : forall g1 g2 go1 go2 id, nth_error (m_gors m) g1 = Some go1 -> nth_error (m_gors m) g2 = Some go2 ->
                                      g_conn go1 = Some id -> g_conn go2 = Some id -> g1 = g2 }.

Lemma Inv_init n0 : Inv (init n0).
Proof.
  split; cbn.
  - intros [|g] go H; discriminate.
  - intros [|g] go id H; discriminate.
  - intros id t H; discriminate.
  - intros [|g1] g2 go1 go2 id H; discriminate.
Qed.

Definition only_connect (g : nat) (o : list out) : Prop := forall x, In x o -> x = CallConnect g.

Lemma only_connect_no_removed k o g t id : only_connect k o -> ~ In (Removed g t id) o.
Proof. intros H Hin. apply H in Hin. discriminate. Qed.

(** outputs the watchers do not see *)
Definition quiet (o : list out) : Prop := forall x, In x o -> is_conn_out x = false.

Lemma quiet_nil : quiet [].
Proof. intros x []. Qed.

Lemma quiet_one x : is_conn_out x = false -> quiet [x].
Proof. intros H y [<-|[]]. exact H. Qed.

Lemma quiet_cons x o : quiet (x :: o) -> is_conn_out x = false /\ quiet o.
Proof. intros H. split; [apply H; left; reflexivity | intros y Hy; apply H; right; exact Hy]. Qed.

Lemma quiet_added o : quiet o -> added_ids o = [].
Proof.
  induction o as [|x o IH]; intros H; auto. apply quiet_cons in H. destruct H as [Hx Ho].
  unfold added_ids in *. cbn. rewrite (IH Ho). destruct x; try discriminate Hx; reflexivity.
Qed.

Lemma quiet_alternates g c o : quiet o -> alternates g c o = Some c.
Proof.
  induction o as [|x o IH]; intros H; auto. apply quiet_cons in H. destruct H as [Hx Ho].
  destruct x; try discriminate Hx; cbn; auto.
Qed.

(** * What one sample of a live goroutine does (everything later is proved from this) *)
Definition is_shutdown (s : chan_state) : bool := match s with Shutdown => true | _ => false end.

(** the goroutine's connection, the m.conns map, the id supply and the outputs after goroutine [k] (which was [go])
    has read [s] *)
Inductive sample_kind (fx : bool) (m : mgr) (k : nat) (go : gor) (s : chan_state)
          (c' : option N) (cs' : list (N * N)) (n' : N) (o : list out) : Prop :=
| SkAdd : g_conn go = None -> s = Ready -> c' = Some (m_next m) ->
          cs' = (m_next m, g_target go) :: m_conns m -> n' = m_next m + 1 ->
          o = [Added k (g_target go) (m_next m)] -> sample_kind fx m k go s c' cs' n' o
| SkRemove id tl : g_conn go = Some id -> loss_seen fx s = true -> c' = None ->
          cs' = remove_key id (m_conns m) -> n' = m_next m ->
          o = Removed k (g_target go) id :: tl -> quiet tl -> sample_kind fx m k go s c' cs' n' o
| SkKeep : c' = g_conn go -> cs' = m_conns m -> n' = m_next m -> quiet o ->
          (s = Ready -> g_conn go <> None) -> (g_conn go = None \/ loss_seen fx s = false) ->
          sample_kind fx m k go s c' cs' n' o.

(** the first switch: the goroutine is marked started and keeps, gets or loses its connection *)
Lemma on_state_spec fx m k go s :
  Inv m -> nth_error (m_gors m) k = Some go ->
  exists c',
    m_gors (fst (on_state fx m k go s)) = set_nth k (mkGor (g_target go) c' true (g_alive go)) (m_gors m) /\
    m_targets (fst (on_state fx m k go s)) = m_targets m /\
    sample_kind fx m k go s c' (m_conns (fst (on_state fx m k go s))) (m_next (fst (on_state fx m k go s)))
                (snd (on_state fx m k go s)).
Proof.
  intros HI Hg. destruct (inv_ok _ HI _ _ Hg) as [Hns _]. pose proof (fun id => inv_own _ HI _ _ id Hg) as Hown.
  pose proof (set_nth_id _ _ _ Hg) as Hid. destruct go as [t c st al]; cbn [g_target g_conn g_started g_alive] in *.
  (* [G r]: the claim for a result [r] of the switch; the four things it can do, then the switch by cases *)
  set (G := fun r : mgr * list out => exists c',
    m_gors (fst r) = set_nth k (mkGor t c' true al) (m_gors m) /\ m_targets (fst r) = m_targets m /\
    sample_kind fx m k (mkGor t c st al) s c' (m_conns (fst r)) (m_next (fst r)) (snd r)).
  assert (Gadd : c = None -> s = Ready -> G (add_conn m k (mkGor t c st al))).
  { intros Hc Hs. exists (Some (m_next m)). repeat split. apply SkAdd; auto. }
  assert (Grem : forall id tl r, c = Some id -> loss_seen fx s = true -> quiet tl ->
                                 remove_conn m k (mkGor t c st al) id = r -> G (fst r, snd r ++ tl)).
  { intros id tl r Hc Hl Htl <-. exists None. unfold remove_conn. destruct (Hown id Hc) as [-> _].
    cbn. repeat split. eapply SkRemove; eauto. }
  assert (Gkeep : forall o, st = true -> quiet o -> (s = Ready -> c <> None) ->
                            (c = None \/ loss_seen fx s = false) -> G (m, o)).
  { intros o -> Ho Hr Hl. exists c. rewrite Hid. repeat split. apply SkKeep; auto. }
  assert (Gstart : c = None -> s <> Ready -> G (set_gor m k (mkGor t c true al), [])).
  { intros Hc Hs. exists c. repeat split. apply SkKeep; auto using quiet_nil. }
  unfold on_state; cbn [g_target g_conn g_started g_alive]. destruct st.
  - destruct s.
    2,4,5: destruct c as [id|];
      [rewrite (surjective_pairing (remove_conn _ _ _ _)), <- (app_nil_r (snd _)); eapply Grem; eauto using quiet_nil
      |apply Gkeep; auto using quiet_nil; discriminate].
    + destruct fx; [destruct c as [id|]|].
      * destruct (remove_conn m k _ id) eqn:Hr. eapply (Grem id _ (_, _)); eauto using quiet_one.
      * apply Gkeep; auto using quiet_one. discriminate.
      * apply Gkeep; auto using quiet_one. discriminate.
    + destruct c as [id|]; [apply Gkeep; auto using quiet_nil; discriminate | apply Gadd; reflexivity].
  - specialize (Hns eq_refl); subst c. destruct s; try (apply Gstart; [reflexivity|discriminate]). apply Gadd; reflexivity.
Qed.

Lemma sample_spec fx m k s go :
  Inv m -> nth_error (m_gors m) k = Some go -> g_alive go = true ->
  exists go',
    m_gors (fst (sample fx m k s)) = set_nth k go' (m_gors m) /\
    m_targets (fst (sample fx m k s)) = m_targets m /\
    g_target go' = g_target go /\ g_started go' = true /\
    g_alive go' = negb (is_shutdown s && g_started go) /\
    sample_kind fx m k go s (g_conn go') (m_conns (fst (sample fx m k s))) (m_next (fst (sample fx m k s)))
                (snd (sample fx m k s)).
Proof.
  intros HI Hg Ha. unfold sample. rewrite Hg, Ha.
  destruct (on_state_spec fx m k go s HI Hg) as (c' & Hgs & Hts & Hkind).
  destruct (on_state fx m k go s) as [m1 o]. cbn [fst snd] in *. rewrite Ha in Hgs.
  assert (Has : after_state m1 k (g_started go) s =
                if is_shutdown s && g_started go then set_gor m1 k (mkGor (g_target go) c' true false) else m1).
  { unfold after_state. rewrite Hgs, (set_nth_same _ _ _ _ Hg). destruct s, (g_started go); reflexivity. }
  rewrite Has. destruct (is_shutdown s && g_started go).
  - exists (mkGor (g_target go) c' true false). cbn. rewrite Hgs, set_nth_twice. auto 6.
  - exists (mkGor (g_target go) c' true true). auto 6.
Qed.

Lemma sample_dead fx m k s :
  (nth_error (m_gors m) k = None \/ exists go, nth_error (m_gors m) k = Some go /\ g_alive go = false) ->
  sample fx m k s = (m, []).
Proof.
  unfold sample. intros [H|[go [H Ha]]]; rewrite H; auto. rewrite Ha. reflexivity.
Qed.

Lemma gor_cases m k :
  (nth_error (m_gors m) k = None \/ exists go, nth_error (m_gors m) k = Some go /\ g_alive go = false) \/
  (exists go, nth_error (m_gors m) k = Some go /\ g_alive go = true).
Proof.
  destruct (nth_error (m_gors m) k) as [go|]; auto. destruct (g_alive go) eqn:Ha; eauto.
Qed.

(** * The invariant is kept *)
Definition conn_is (c : option N) (id : N) : bool := match c with Some x => x =? id | None => false end.

Lemma conn_is_true c id : conn_is c id = true <-> c = Some id.
Proof. destruct c as [x|]; cbn; [rewrite N.eqb_eq|]; split; congruence. Qed.

(** goroutine [k] changes its connection from [g_conn go] to [g_conn go'], a new one has a fresh id, m.conns follows *)
Lemma Inv_update m m' k go go' :
  Inv m -> nth_error (m_gors m) k = Some go -> m_gors m' = set_nth k go' (m_gors m) ->
  g_target go' = g_target go -> gor_ok go' -> m_next m <= m_next m' ->
  (forall id, g_conn go' = Some id -> g_conn go = Some id \/ m_next m <= id < m_next m') ->
  (forall id, lookup id (m_conns m') = if conn_is (g_conn go') id then Some (g_target go)
                                       else if conn_is (g_conn go) id then None else lookup id (m_conns m)) ->
  Inv m'.
Proof.
  intros [Hok Hown Hmap Huq] Hk Hgs Ht Hgo' Hn Hnew Hcs.
  assert (Hold : forall g x id, g <> k -> nth_error (m_gors m) g = Some x -> g_conn x = Some id ->
                   conn_is (g_conn go') id = false /\ conn_is (g_conn go) id = false).
  { intros g x id Hne Hg Hx. destruct (Hown _ _ _ Hg Hx) as [_ Hlt]. split.
    - destruct (conn_is (g_conn go') id) eqn:E; auto. apply conn_is_true in E.
      destruct (Hnew _ E) as [E'|?]; [|lia]. elim Hne. eapply Huq; eauto.
    - destruct (conn_is (g_conn go) id) eqn:E; auto. apply conn_is_true in E. elim Hne. eapply Huq; eauto. }
  assert (Hlt : forall id, g_conn go' = Some id -> id < m_next m').
  { intros id E. destruct (Hnew _ E) as [E'|?]; [destruct (Hown _ _ _ Hk E')|]; lia. }
  split; rewrite ?Hgs.
  - intros g x Hg. destruct (nth_error_set_nth _ _ _ _ _ _ Hk Hg) as [[_ ->]|[_ Hg']]; eauto.
  - intros g x id Hg Hx. rewrite Hcs. destruct (nth_error_set_nth _ _ _ _ _ _ Hk Hg) as [[_ ->]|[Hne Hg']].
    + rewrite (proj2 (conn_is_true _ _) Hx), Ht. auto.
    + destruct (Hold _ _ _ Hne Hg' Hx) as [-> ->]. destruct (Hown _ _ _ Hg' Hx). split; auto; lia.
  - intros id t Hl. rewrite Hcs in Hl. destruct (conn_is (g_conn go') id) eqn:E'.
    + apply conn_is_true in E'. inversion Hl; subst t. split; auto.
      exists k, go'. rewrite (set_nth_same _ _ _ _ Hk). auto.
    + destruct (conn_is (g_conn go) id) eqn:E; [discriminate|].
      destruct (Hmap _ _ Hl) as [Hlt' (g & x & Hg & Hx & Htx)]. split; [lia|].
      assert (g <> k). { intros ->. rewrite Hk in Hg; inversion Hg; subst x. apply conn_is_true in Hx. congruence. }
      exists g, x. rewrite set_nth_other by assumption. auto.
  - intros g1 g2 x1 x2 id H1 H2 Hx1 Hx2.
    destruct (nth_error_set_nth _ _ _ _ _ _ Hk H1) as [[-> ->]|[Hn1 H1']],
             (nth_error_set_nth _ _ _ _ _ _ Hk H2) as [[-> ->]|[Hn2 H2']]; auto.
    + destruct (Hold _ _ _ Hn2 H2' Hx2) as [E _]. apply conn_is_true in Hx1. congruence.
    + destruct (Hold _ _ _ Hn1 H1' Hx1) as [E _]. apply conn_is_true in Hx2. congruence.
    + eauto.
Qed.

Lemma sample_inv fx m g s : Inv m -> Inv (fst (sample fx m g s)).
Proof.
  intros HI. destruct (gor_cases m g) as [Hd|[go [Hg Ha]]]; [rewrite (sample_dead _ _ _ _ Hd); exact HI|].
  destruct (sample_spec fx m g s go HI Hg Ha) as [go' (Hgs & _ & Ht & Hst & Hal & Hkind)].
  assert (Hok : gor_ok go').
  { split; [rewrite Hst; discriminate|]. rewrite Hal. intros Hdead.
    destruct Hkind as [_ Hs _ _ _ _ | id tl _ _ Hc' _ _ _ _ | Hc' _ _ _ _ [Hc|Hl]]; try congruence;
      destruct s; discriminate. }
  destruct Hkind as [Hc Hs Hc' Hcs Hn Ho | id tl Hc Hl Hc' Hcs Hn Ho Htl | Hc' Hcs Hn Ho _ _];
    apply (Inv_update m _ g go go' HI Hg Hgs Ht Hok); rewrite ?Hc', ?Hcs, ?Hn, ?Hc; try lia.
  - intros id [= <-]. right; lia.
  - reflexivity.
  - discriminate.
  - intros id'. rewrite lookup_remove_key. cbn. rewrite N.eqb_sym. reflexivity.
  - auto.
  - intros id. destruct (conn_is (g_conn go) id) eqn:E; auto. apply conn_is_true in E. apply (inv_own _ HI _ _ _ Hg E).
Qed.

Lemma step_inv fx m e : Inv m -> Inv (fst (step fx m e)).
Proof.
  intros HI. destruct e as [t|t|g s]; cbn.
  - destruct (lookup t (m_targets m)); cbn; auto.
    destruct HI as [Hok Hown Hmap Huq]. split; cbn.
    + intros g go Hg. apply nth_error_snoc in Hg. destruct Hg as [Hg|[_ [-> _]]]; eauto. split; cbn; auto.
    + intros g go id Hg Hc. apply nth_error_snoc in Hg. destruct Hg as [Hg|[_ [-> _]]]; eauto. discriminate.
    + intros id t' Hl. destruct (Hmap _ _ Hl) as [Hlt [g [go [Hg Hr]]]]. split; auto.
      exists g, go. split; auto. rewrite nth_error_app1; auto. apply nth_error_Some; congruence.
    + intros g1 g2 x1 x2 id H1 H2 Hx1 Hx2.
      apply nth_error_snoc in H1. apply nth_error_snoc in H2.
      destruct H1 as [H1|[_ [-> _]]]; [|discriminate]. destruct H2 as [H2|[_ [-> _]]]; [|discriminate]. eauto.
  - destruct (lookup t (m_targets m)); cbn; auto.
    destruct HI as [Hok Hown Hmap Huq]. split; cbn; eauto.
  - apply sample_inv; auto.
Qed.

Lemma run_from_cons_fst fx m e r : fst (run_from fx m (e :: r)) = fst (run_from fx (fst (step fx m e)) r).
Proof. cbn [run_from]. destruct (step fx m e) as [m1 o1]. cbn [fst snd]. destruct (run_from fx m1 r). reflexivity. Qed.

Lemma run_from_cons_snd fx m e r :
  snd (run_from fx m (e :: r)) = snd (step fx m e) ++ snd (run_from fx (fst (step fx m e)) r).
Proof. cbn [run_from]. destruct (step fx m e) as [m1 o1]. cbn [fst snd]. destruct (run_from fx m1 r). reflexivity. Qed.

Lemma run_from_app_fst fx m a b : fst (run_from fx m (a ++ b)) = fst (run_from fx (fst (run_from fx m a)) b).
Proof.
  revert m; induction a as [|e a IH]; intros m; [reflexivity|]. cbn [app]. rewrite !run_from_cons_fst. apply IH.
Qed.

Lemma run_from_app_snd fx m a b :
  snd (run_from fx m (a ++ b)) = snd (run_from fx m a) ++ snd (run_from fx (fst (run_from fx m a)) b).
Proof.
  revert m; induction a as [|e a IH]; intros m; [reflexivity|]. cbn [app].
  rewrite !run_from_cons_snd, run_from_cons_fst, IH, app_assoc. reflexivity.
Qed.

Lemma run_from_inv fx m es : Inv m -> Inv (fst (run_from fx m es)).
Proof.
  revert m; induction es as [|e es IH]; intros m HI; [exact HI|]. rewrite run_from_cons_fst. apply IH, step_inv, HI.
Qed.

(** * What one step does to the connections: nothing, one Added, or one Removed *)
Lemma gconn_set_nth m' m k go' g :
  m_gors m' = set_nth k go' (m_gors m) -> nth_error (m_gors m) k <> None ->
  gconn m' g = if Nat.eqb k g then g_conn go' else gconn m g.
Proof.
  intros Hgs Hk. unfold gconn. rewrite Hgs. destruct (Nat.eqb k g) eqn:Hkg.
  - apply Nat.eqb_eq in Hkg; subst g. destruct (nth_error (m_gors m) k) eqn:Hn; [|congruence].
    rewrite (set_nth_same _ _ _ _ Hn). reflexivity.
  - apply Nat.eqb_neq in Hkg. rewrite set_nth_other by congruence. reflexivity.
Qed.

Inductive step_kind (m m' : mgr) (o : list out) : Prop :=
| StQuiet : m_conns m' = m_conns m -> m_next m' = m_next m -> (forall g, gconn m' g = gconn m g) -> quiet o ->
            step_kind m m' o
| StAdd k t : gconn m k = None -> (forall g, gconn m' g = if Nat.eqb k g then Some (m_next m) else gconn m g) ->
            m_conns m' = (m_next m, t) :: m_conns m -> m_next m' = m_next m + 1 -> o = [Added k t (m_next m)] ->
            lookup (m_next m) (m_conns m) = None -> step_kind m m' o
| StRemove k t id tl : gconn m k = Some id -> (forall g, gconn m' g = if Nat.eqb k g then None else gconn m g) ->
            m_conns m' = remove_key id (m_conns m) -> m_next m' = m_next m -> o = Removed k t id :: tl -> quiet tl ->
            lookup id (m_conns m) = Some t -> id < m_next m -> step_kind m m' o.

Lemma step_spec fx m e : Inv m -> step_kind m (fst (step fx m e)) (snd (step fx m e)).
Proof.
  intros HI. destruct e as [t|t|k s]; cbn [step].
  - destruct (lookup t (m_targets m)); apply StQuiet; cbn; auto using quiet_nil, quiet_one.
    intros g. unfold gconn; cbn. destruct (nth_error (m_gors m) g) as [go|] eqn:Hg.
    + rewrite nth_error_app1 by (apply nth_error_Some; congruence). rewrite Hg. reflexivity.
    + destruct (nth_error (m_gors m ++ [mkGor t None false true]) g) as [go|] eqn:Hg'; auto.
      apply nth_error_snoc in Hg'. destruct Hg' as [Hg'|[_ [-> _]]]; [congruence|reflexivity].
  - destruct (lookup t (m_targets m)); apply StQuiet; cbn; auto using quiet_nil, quiet_one.
  - destruct (gor_cases m k) as [Hd|[go [Hk Ha]]]; [rewrite (sample_dead _ _ _ _ Hd); apply StQuiet; auto using quiet_nil|].
    destruct (sample_spec fx m k s go HI Hk Ha) as [go' (Hgs & _ & _ & _ & _ & Hkind)].
    assert (Hgc : forall g, gconn (fst (sample fx m k s)) g = if Nat.eqb k g then g_conn go' else gconn m g).
    { intros g. apply (gconn_set_nth _ _ _ _ g Hgs). congruence. }
    assert (Hgk : gconn m k = g_conn go) by (unfold gconn; rewrite Hk; reflexivity).
    destruct Hkind as [Hc Hs Hc' Hcs Hn Ho | id tl Hc Hl Hc' Hcs Hn Ho Htl | Hc' Hcs Hn Ho _ _]; rewrite Hc' in Hgc.
    + apply (StAdd _ _ _ k (g_target go)); auto; try congruence.
      destruct (lookup (m_next m) (m_conns m)) eqn:Hlk; auto. destruct (inv_map _ HI _ _ Hlk) as [Hlt _]. lia.
    + destruct (inv_own _ HI _ _ _ Hk Hc) as [Hlk Hlt].
      apply (StRemove _ _ _ k (g_target go) id tl); eauto. congruence.
    + apply StQuiet; eauto.
      intros g. rewrite Hgc. destruct (Nat.eqb k g) eqn:E; auto. apply Nat.eqb_eq in E. subst g. auto.
Qed.

(** * (ii) connection ids are never reused *)
Fixpoint increasing_from (lo : N) (l : list N) : Prop :=
  match l with
  | [] => True
  | x :: r => lo <= x /\ increasing_from (x + 1) r
  end.

Lemma increasing_from_weaken lo lo' l : lo' <= lo -> increasing_from lo l -> increasing_from lo' l.
Proof. destruct l; cbn; auto. intros H [H1 H2]. split; auto. lia. Qed.

Lemma increasing_from_app lo l1 mid l2 :
  increasing_from lo l1 -> (forall x, In x l1 -> x < mid) -> lo <= mid -> increasing_from mid l2 -> increasing_from lo (l1 ++ l2).
Proof.
  revert lo; induction l1 as [|x l1 IH]; intros lo H1 Hb Hlo H2; cbn in *.
  - eapply increasing_from_weaken; eauto.
  - destruct H1 as [Hx H1]. split; auto. apply IH; auto. specialize (Hb x (or_introl eq_refl)). lia.
Qed.

Lemma increasing_from_bound lo l x : increasing_from lo l -> In x l -> lo <= x.
Proof.
  revert lo; induction l as [|y l IH]; intros lo H Hin; cbn in *; [contradiction|].
  destruct H as [Hy H]. destruct Hin as [->|Hin]; auto. specialize (IH _ H Hin). lia.
Qed.

Lemma increasing_from_NoDup lo l : increasing_from lo l -> NoDup l.
Proof.
  revert lo; induction l as [|x l IH]; intros lo H; constructor; cbn in H; destruct H as [Hx H].
  - intros Hin. pose proof (increasing_from_bound _ _ _ H Hin). lia.
  - eauto.
Qed.

Definition ids_ok (m m1 : mgr) (o : list out) : Prop :=
  m_next m <= m_next m1 /\ increasing_from (m_next m) (added_ids o) /\ (forall x, In x (added_ids o) -> x < m_next m1).

Lemma ids_ok_none m m1 o : m_next m1 = m_next m -> added_ids o = [] -> ids_ok m m1 o.
Proof. intros Hn Ho. unfold ids_ok. rewrite Hn, Ho. cbn. split; [lia|tauto]. Qed.

Lemma step_ids fx m e : Inv m -> ids_ok m (fst (step fx m e)) (snd (step fx m e)).
Proof.
  intros HI. destruct (step_spec fx m e HI) as [_ Hn _ Ho | k t _ _ _ Hn Ho _ | k t id tl _ _ _ Hn Ho Htl _ _].
  - apply ids_ok_none; auto using quiet_added.
  - unfold ids_ok. rewrite Hn, Ho. cbn. split; [lia|]. split; [split; [lia|exact I]|]. intros x [<-|[]]; lia.
  - apply ids_ok_none; auto. rewrite Ho. apply (quiet_added _ Htl).
Qed.

Lemma added_ids_app a b : added_ids (a ++ b) = added_ids a ++ added_ids b.
Proof. unfold added_ids. apply flat_map_app. Qed.

Lemma run_from_ids fx m es : Inv m -> ids_ok m (fst (run_from fx m es)) (snd (run_from fx m es)).
Proof.
  revert m; induction es as [|e es IH]; intros m HI; [apply ids_ok_none; reflexivity|].
  unfold ids_ok. rewrite run_from_cons_fst, run_from_cons_snd, added_ids_app.
  destruct (step_ids fx m e HI) as (Ha & Hb & Hc), (IH _ (step_inv fx m e HI)) as (Hd & He & Hf).
  split; [lia|]. split.
  - eapply increasing_from_app; eauto.
  - intros x Hx. apply in_app_or in Hx. destruct Hx as [Hx|Hx]; auto. specialize (Hc x Hx). lia.
Qed.

Theorem ids_increasing fx n0 es : increasing_from n0 (added_ids (snd (run_from fx (init n0) es))).
Proof. apply (run_from_ids fx (init n0) es (Inv_init n0)). Qed.

Theorem ids_never_reused fx n0 es : NoDup (added_ids (snd (run_from fx (init n0) es))).
Proof. eapply increasing_from_NoDup, ids_increasing. Qed.

(** * (iii) at most one live connection per Connect: Added and Removed of a goroutine alternate *)
Lemma alternates_app g cur a b :
  alternates g cur (a ++ b) = match alternates g cur a with Some c => alternates g c b | None => None end.
Proof.
  revert cur; induction a as [|x a IH]; intros cur; cbn; auto.
  destruct x as [g' t id|g' t id| | |]; auto.
  - destruct (Nat.eqb g' g); auto. destruct cur; auto.
  - destruct (Nat.eqb g' g); auto. destruct cur as [id'|]; auto. destruct (id' =? id); auto.
Qed.

Lemma step_alternates fx m e g :
  Inv m -> alternates g (gconn m g) (snd (step fx m e)) = Some (gconn (fst (step fx m e)) g).
Proof.
  intros HI. destruct (step_spec fx m e HI) as [_ _ Hg Ho | k t Hk Hg _ _ Ho _ | k t id tl Hk Hg _ _ Ho Htl _ _]; rewrite Hg.
  - apply quiet_alternates, Ho.
  - rewrite Ho. cbn. destruct (Nat.eqb k g) eqn:E; [apply Nat.eqb_eq in E; subst g; rewrite Hk|]; reflexivity.
  - rewrite Ho. cbn.
    destruct (Nat.eqb k g) eqn:E; [apply Nat.eqb_eq in E; subst g; rewrite Hk, N.eqb_refl|]; apply quiet_alternates, Htl.
Qed.

Lemma run_from_alternates fx m es g :
  Inv m -> alternates g (gconn m g) (snd (run_from fx m es)) = Some (gconn (fst (run_from fx m es)) g).
Proof.
  revert m; induction es as [|e es IH]; intros m HI; [reflexivity|].
  rewrite run_from_cons_fst, run_from_cons_snd, alternates_app, (step_alternates fx m e g HI).
  apply IH, step_inv, HI.
Qed.

Theorem one_live_per_connect fx n0 es g :
  alternates g None (snd (run_from fx (init n0) es)) = Some (gconn (fst (run_from fx (init n0) es)) g).
Proof.
  rewrite <- (run_from_alternates fx (init n0) es g (Inv_init n0)). unfold gconn; cbn. destruct g; reflexivity.
Qed.

(** the m.conns map (what Get answers from) holds exactly the current connections of the goroutines, each once *)
Theorem get_is_live fx n0 es id t :
  let m := fst (run_from fx (init n0) es) in
  get m id = Some t <-> exists g go, nth_error (m_gors m) g = Some go /\ g_conn go = Some id /\ g_target go = t.
Proof.
  cbn. pose proof (run_from_inv fx (init n0) es (Inv_init n0)) as HI. unfold get. split.
  - intros H. apply (inv_map _ HI _ _ H).
  - intros [g [go [Hg [Hc <-]]]]. apply (inv_own _ HI _ _ _ Hg Hc).
Qed.

Theorem conn_of_one_connect fx n0 es g1 g2 id :
  let m := fst (run_from fx (init n0) es) in
  gconn m g1 = Some id -> gconn m g2 = Some id -> g1 = g2.
Proof.
  cbn. pose proof (run_from_inv fx (init n0) es (Inv_init n0)) as HI. unfold gconn.
  destruct (nth_error _ g1) eqn:H1; [|discriminate]. destruct (nth_error _ g2) eqn:H2; [|discriminate].
  intros. eapply (inv_uniq _ HI); eauto.
Qed.

(** a removed id is never handed out again: Get(id) fails from the Removed event on *)
Lemma step_conns fx m e id :
  Inv m ->
  (id < m_next m -> get m id = None -> get (fst (step fx m e)) id = None) /\
  (forall g t, In (Removed g t id) (snd (step fx m e)) -> get (fst (step fx m e)) id = None /\ id < m_next (fst (step fx m e))).
Proof.
  intros HI. unfold get.
  destruct (step_spec fx m e HI) as [Hcs Hn _ Ho | k t _ _ Hcs Hn Ho _ | k t id' tl _ _ Hcs Hn Ho Htl _ Hlt'];
    rewrite Hcs, Hn.
  - split; auto. intros g t H. apply Ho in H. discriminate.
  - rewrite Ho. cbn. split.
    + intros Hlt Hd. destruct (m_next m =? id) eqn:He; [apply N.eqb_eq in He; lia|exact Hd].
    + intros g t' [H|[]]; discriminate.
  - rewrite Ho. split.
    + intros Hlt Hd. rewrite lookup_remove_key. destruct (id =? id'); auto.
    + intros g t' [H|H]; [|apply Htl in H; discriminate].
      inversion H; subst. rewrite lookup_remove_key, N.eqb_refl. auto.
Qed.

Lemma dead_stays_dead fx m es id :
  Inv m -> id < m_next m -> get m id = None -> get (fst (run_from fx m es)) id = None.
Proof.
  revert m; induction es as [|e es IH]; intros m HI Hlt Hd; [exact Hd|].
  rewrite run_from_cons_fst. pose proof (step_ids fx m e HI) as [Hn _].
  apply IH; [apply step_inv, HI | lia | apply (step_conns fx m e id HI); assumption].
Qed.

Lemma run_from_removed_dead fx m es g t id :
  Inv m -> In (Removed g t id) (snd (run_from fx m es)) -> get (fst (run_from fx m es)) id = None.
Proof.
  revert m; induction es as [|e es IH]; intros m HI Hin; [contradiction|].
  rewrite run_from_cons_fst. rewrite run_from_cons_snd in Hin. pose proof (step_inv fx m e HI) as HI1.
  apply in_app_or in Hin. destruct Hin as [Hin|Hin]; auto.
  destruct (proj2 (step_conns fx m e id HI) _ _ Hin) as [Hd Hlt]. apply dead_stays_dead; assumption.
Qed.

Theorem removed_id_not_handed_out fx n0 es g t id :
  In (Removed g t id) (snd (run_from fx (init n0) es)) -> get (fst (run_from fx (init n0) es)) id = None.
Proof. apply run_from_removed_dead, Inv_init. Qed.

(** * (i) a loss that the goroutine sees removes the connection, and the next READY makes a new one *)
Lemma samples_of_app g a b : samples_of g (a ++ b) = samples_of g a ++ samples_of g b.
Proof.
  induction a as [|e a IH]; cbn; auto. destruct e as [t|t|k s]; auto. destruct (Nat.eqb k g); cbn; rewrite IH; reflexivity.
Qed.

Lemma samples_of_cons g e r : samples_of g (e :: r) = samples_of g [e] ++ samples_of g r.
Proof. apply (samples_of_app g [e] r). Qed.

Lemma event_cases g e : (exists s, e = ESample g s /\ samples_of g [e] = [s]) \/ samples_of g [e] = [].
Proof.
  destruct e as [t|t|k s]; auto. cbn. destruct (Nat.eqb k g) eqn:Hkg; auto.
  apply Nat.eqb_eq in Hkg; subst k. eauto.
Qed.

Lemma step_frame fx m e g go :
  Inv m -> samples_of g [e] = [] -> nth_error (m_gors m) g = Some go ->
  nth_error (m_gors (fst (step fx m e))) g = Some go.
Proof.
  intros HI Hs Hg. destruct e as [t|t|k s]; cbn in *.
  - destruct (lookup t (m_targets m)); cbn; auto. rewrite nth_error_app1; auto. apply nth_error_Some; congruence.
  - destruct (lookup t (m_targets m)); cbn; auto.
  - destruct (Nat.eqb k g) eqn:Hkg; [discriminate|]. apply Nat.eqb_neq in Hkg.
    destruct (gor_cases m k) as [Hd|[gk [Hk Ha]]]; [rewrite (sample_dead _ _ _ _ Hd); exact Hg|].
    destruct (sample_spec fx m k s gk HI Hk Ha) as [go' (Hgs & _)].
    rewrite Hgs. rewrite set_nth_other by congruence. exact Hg.
Qed.

Lemma conn_alive m g go id : Inv m -> nth_error (m_gors m) g = Some go -> g_conn go = Some id ->
                             g_alive go = true /\ g_started go = true.
Proof.
  intros HI Hg Hc. destruct (inv_ok _ HI _ _ Hg) as [H1 H2]. rewrite Hc in H1, H2.
  destruct (g_alive go); [|discriminate (H2 eq_refl)]. destruct (g_started go); [auto|discriminate (H1 eq_refl)].
Qed.

(** goroutine [g] before it has seen the loss of its connection [id1] to target [t], and afterwards: it runs, and
    whatever connection it has or gets is younger than [id1] *)
Definition phase (g : nat) (t id1 : N) (seen : bool) (m : mgr) : Prop :=
  if seen then running m g /\ id1 < m_next m /\ (forall id, gconn m g = Some id -> id1 < id)
  else exists go, nth_error (m_gors m) g = Some go /\ g_conn go = Some id1 /\ g_target go = t.

Lemma phase_step fx m e g t id1 seen :
  Inv m -> phase g t id1 seen m -> ~ In Shutdown (samples_of g [e]) ->
  phase g t id1 (seen || existsb (loss_seen fx) (samples_of g [e])) (fst (step fx m e)) /\
  (seen = false -> existsb (loss_seen fx) (samples_of g [e]) = true -> In (Removed g t id1) (snd (step fx m e))).
Proof.
  intros HI Hp Hns. pose proof (step_ids fx m e HI) as [Hmono _].
  assert (Hgo : exists go, nth_error (m_gors m) g = Some go /\ g_alive go = true).
  { destruct seen; [destruct Hp as ([go (Hg & Ha & _)] & _); eauto|].
    destruct Hp as (go & Hg & Hc & _). exists go. split; auto. apply (conn_alive _ _ _ _ HI Hg Hc). }
  destruct Hgo as (go & Hg & Ha). unfold phase, running, gconn in Hp. rewrite Hg in Hp.
  destruct (event_cases g e) as [(s & -> & Hse)|Hse]; rewrite Hse in *; cbn [existsb]; rewrite orb_false_r.
  - cbn [step] in *. destruct (sample_spec fx m g s go HI Hg Ha) as [go' (Hgs & _ & Ht & Hst' & Ha' & Hkind)].
    assert (Hrun : running (fst (sample fx m g s)) g).
    { exists go'. rewrite Hgs, (set_nth_same _ _ _ _ Hg). repeat split; auto.
      rewrite Ha'. destruct s; auto. elim Hns. left; reflexivity. }
    unfold phase. rewrite (gconn_set_nth _ _ _ _ g Hgs) by congruence. rewrite Nat.eqb_refl, Hgs, (set_nth_same _ _ _ _ Hg).
    destruct seen; cbn [orb].
    + destruct Hp as (_ & Hlt & Hid). split; [|discriminate]. split; [exact Hrun|]. split; [lia|].
      destruct Hkind as [_ _ Hc' _ _ _ | id' tl _ _ Hc' _ _ _ _ | Hc' _ _ _ _ _]; rewrite Hc'; auto; [|discriminate].
      intros id [= <-]. exact Hlt.
    + destruct Hp as (go0 & [= <-] & Hc & <-). destruct (inv_own _ HI _ _ _ Hg Hc) as [_ Hlt].
      destruct Hkind as [Hc0 _ _ _ _ _ | id' tl Hc0 Hl Hc' _ _ Ho _ | Hc' _ _ _ _ [Hc0|Hl]]; try congruence; rewrite Hl.
      * rewrite Hc', Ho. split; [split; [exact Hrun|split; [lia|discriminate]]|]. intros _ _. left. congruence.
      * split; [|discriminate]. exists go'. rewrite Hc'. auto.
  - split; [|discriminate]. pose proof (step_frame fx m e g go HI Hse Hg) as Hg1.
    unfold phase, running, gconn. rewrite Hg1. destruct seen; [|exact Hp].
    destruct Hp as (Hrun & Hlt & Hid). split; [exact Hrun|]. split; [lia|exact Hid].
Qed.

Lemma phase_run fx m es g t id1 seen :
  Inv m -> phase g t id1 seen m -> ~ In Shutdown (samples_of g es) ->
  phase g t id1 (seen || existsb (loss_seen fx) (samples_of g es)) (fst (run_from fx m es)) /\
  (seen = false -> existsb (loss_seen fx) (samples_of g es) = true -> In (Removed g t id1) (snd (run_from fx m es))).
Proof.
  revert m seen; induction es as [|e es IH]; intros m seen HI Hp Hns.
  - cbn. rewrite orb_false_r. split; [exact Hp|discriminate].
  - rewrite run_from_cons_fst, run_from_cons_snd, samples_of_cons, existsb_app, orb_assoc. rewrite samples_of_cons in Hns.
    destruct (phase_step fx m e g t id1 seen HI Hp) as [Hp1 Hr1]; [intros H; apply Hns, in_or_app; auto|].
    destruct (IH _ _ (step_inv fx m e HI) Hp1) as [Hp2 Hr2]; [intros H; apply Hns, in_or_app; auto|].
    split; [exact Hp2|]. intros -> Hex. apply in_or_app.
    destruct (existsb (loss_seen fx) (samples_of g [e])); [left|right]; auto.
Qed.

Theorem seen_loss_replaces fx m g go id1 es2 :
  Inv m -> nth_error (m_gors m) g = Some go -> g_conn go = Some id1 ->
  existsb (loss_seen fx) (samples_of g es2) = true -> ~ In Shutdown (samples_of g es2) ->
  In (Removed g (g_target go) id1) (snd (run_from fx m (es2 ++ [ESample g Ready]))) /\
  exists id2, gconn (fst (run_from fx m (es2 ++ [ESample g Ready]))) g = Some id2 /\ id1 < id2.
Proof.
  intros HI Hg Hc Hex Hns. rewrite run_from_app_fst, run_from_app_snd.
  destruct (phase_run fx m es2 g (g_target go) id1 false HI) as [Hp Hrem]; [exists go; auto|exact Hns|].
  rewrite Hex in Hp.
  split; [apply in_or_app; auto|].
  pose proof (run_from_inv fx m es2 HI) as HI2. destruct Hp as ([go2 (Hg2 & Ha & _)] & Hlt & Hid).
  rewrite run_from_cons_fst. cbn [step run_from fst].
  destruct (sample_spec fx _ g Ready go2 HI2 Hg2 Ha) as [go' (Hgs & _ & _ & _ & _ & Hkind)].
  rewrite (gconn_set_nth _ _ _ _ g Hgs) by congruence. rewrite Nat.eqb_refl.
  unfold gconn in Hid. rewrite Hg2 in Hid.
  destruct Hkind as [_ _ Hc' _ _ _ | id' tl _ Hl _ _ _ _ _ | Hc' _ _ _ Hr _]; [eauto|discriminate Hl|].
  rewrite Hc'. destruct (g_conn go2) as [id|]; [eauto|]. elim (Hr eq_refl). reflexivity.
Qed.

(** ** the same for a channel whose every state the goroutine reads *)
Lemma chan_ok_app_r a b : chan_ok (a ++ b) = true -> chan_ok b = true.
Proof.
  induction a as [|x a IH]; auto. intros H. apply IH. cbn [app] in H.
  destruct (a ++ b) as [|y r] eqn:Hab; auto. cbn in H. apply andb_true_iff in H. apply H.
Qed.

Lemma chan_ok_no_shutdown_inside l x : chan_ok (l ++ [x]) = true -> ~ In Shutdown l.
Proof.
  induction l as [|a l IH]; intros H Hin; [contradiction|].
  cbn [app] in H. destruct (l ++ [x]) as [|b r] eqn:Hlx; [destruct l; discriminate|].
  cbn in H. apply andb_true_iff in H. destruct H as [H1 H2]. destruct Hin as [->|Hin].
  - discriminate.
  - apply IH; auto.
Qed.

Lemma chan_ok_before_ready l : chan_ok (l ++ [Ready]) = true -> l <> [] -> exists l', l = l' ++ [Connecting].
Proof.
  intros H Hne. destruct (exists_last Hne) as [l' [y ->]]. exists l'. f_equal.
  rewrite <- app_assoc in H. apply chan_ok_app_r in H. cbn in H. destruct y; try discriminate. reflexivity.
Qed.

Theorem channel_loss_replaces fx m g go id1 es2 :
  Inv m -> nth_error (m_gors m) g = Some go -> g_conn go = Some id1 ->
  samples_of g es2 <> [] -> chan_ok (Ready :: samples_of g es2 ++ [Ready]) = true ->
  In (Removed g (g_target go) id1) (snd (run_from fx m (es2 ++ [ESample g Ready]))) /\
  exists id2, gconn (fst (run_from fx m (es2 ++ [ESample g Ready]))) g = Some id2 /\ id1 < id2.
Proof.
  intros HI Hg Hc Hne Hok. apply seen_loss_replaces; auto.
  - change (Ready :: samples_of g es2 ++ [Ready]) with ([Ready] ++ (samples_of g es2 ++ [Ready])) in Hok.
    apply chan_ok_app_r in Hok. destruct (chan_ok_before_ready _ Hok Hne) as [l' ->].
    rewrite existsb_app. cbn. apply orb_true_r.
  - intros Hin. change (Ready :: samples_of g es2 ++ [Ready]) with ((Ready :: samples_of g es2) ++ [Ready]) in Hok.
    apply (chan_ok_no_shutdown_inside _ _ Hok). right; exact Hin.
Qed.

(** the two theorems above for the states the manager can be in *)
Theorem seen_loss_replaces_run fx n0 es1 g go id1 es2 :
  let m := fst (run_from fx (init n0) es1) in
  nth_error (m_gors m) g = Some go -> g_conn go = Some id1 ->
  existsb (loss_seen fx) (samples_of g es2) = true -> ~ In Shutdown (samples_of g es2) ->
  In (Removed g (g_target go) id1) (snd (run_from fx m (es2 ++ [ESample g Ready]))) /\
  exists id2, gconn (fst (run_from fx m (es2 ++ [ESample g Ready]))) g = Some id2 /\ id1 < id2.
Proof. cbn zeta. apply seen_loss_replaces. apply run_from_inv, Inv_init. Qed.

Theorem channel_loss_replaces_run fx n0 es1 g go id1 es2 :
  let m := fst (run_from fx (init n0) es1) in
  nth_error (m_gors m) g = Some go -> g_conn go = Some id1 ->
  samples_of g es2 <> [] -> chan_ok (Ready :: samples_of g es2 ++ [Ready]) = true ->
  In (Removed g (g_target go) id1) (snd (run_from fx m (es2 ++ [ESample g Ready]))) /\
  exists id2, gconn (fst (run_from fx m (es2 ++ [ESample g Ready]))) g = Some id2 /\ id1 < id2.
Proof. cbn zeta. apply channel_loss_replaces. apply run_from_inv, Inv_init. Qed.
