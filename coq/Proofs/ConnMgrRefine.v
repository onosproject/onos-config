(* The connection manager (Model/ConnMgr.v) refines the connection labels of the protocol model (Model/Proto2.v):
   what its Watch shows - Added id of target t / Removed id - is a sequence of LConnUp id t / LConnDown id labels,
   every LConnUp with a connection id the world has never seen (so that it takes effect), every LConnDown of a
   connection that is live in the world, and the [conns] component of the world follows the manager's m.conns map,
   whatever other labels (reconciler steps, changes, device restarts ..) are interleaved. *)
From stdpp Require Import gmap.
From RecordUpdate Require Import RecordUpdate.
From Coq Require Import NArith Lia.
From OC Require Import Model.Proto2 Proofs.P2Base.
From OC Require Model.ConnMgr Proofs.ConnMgrProofs.
Module CM := OC.Model.ConnMgr.
Module CP := OC.Proofs.ConnMgrProofs.
Open Scope N_scope.

Section Refine.
  Context {V Ch Req D : Type}.
  Context (candidate : V -> Ch -> V) (candidate_rb : V -> Ch -> V) (rollback_of : V -> Ch -> Ch)
          (overlay : V -> V -> V) (commit_merge : N -> N -> V -> V -> Ch -> V)
          (payload : N -> V -> Ch -> option Req) (record_applied : N -> N -> V -> V -> V -> Ch -> V)
          (touched : N -> V -> Ch -> V) (restore : V -> V -> V)
          (resync_payload : V -> list (option Req)) (doc_ok : V -> bool)
          (dev_apply : D -> Req -> D) (stamp : N -> Ch -> Ch) (v_empty : V) (d_empty : D) (ch_empty : Ch).
  Notation world := (@world V Ch Req D).
  Notation label := (@label Ch).
  Notation apply_eff := (@apply_eff V Ch Req D dev_apply d_empty).
  Notation step := (@step V Ch Req D candidate candidate_rb rollback_of overlay commit_merge payload record_applied
                          touched restore resync_payload doc_ok dev_apply stamp v_empty d_empty ch_empty).

  Definition label_of (o : CM.out) : option label :=
    match o with
    | CM.Added _ t id => Some (LConnUp id t)
    | CM.Removed _ _ id => Some (LConnDown id)
    | _ => None
    end.

  (** the Watch trace as protocol labels *)
  Definition labels_of (os : list CM.out) : list label := omap label_of os.

  Definition is_conn_label (l : label) : bool :=
    match l with LConnUp _ _ | LConnDown _ => true | _ => false end.

  (** every LConnUp adds a connection the world does not have, every LConnDown removes one it has *)
  Fixpoint effective (w : world) (ls : list label) : Prop :=
    match ls with
    | [] => True
    | l :: r => match l with
                | LConnUp c t => conns w !! c = None
                | LConnDown c => is_Some (conns w !! c)
                | _ => True
                end /\ effective (step w l) r
    end.

  (** * The manager's side: m.conns is a function of the Watch trace *)
  Fixpoint apply_labels (ls : list label) (cs : list (N * N)) : list (N * N) :=
    match ls with
    | [] => cs
    | LConnUp id t :: r => apply_labels r ((id, t) :: cs)
    | LConnDown id :: r => apply_labels r (CM.remove_key id cs)
    | _ :: r => apply_labels r cs
    end.

  (** every LConnUp has an id >= n0 that is not in the map, every LConnDown an id that is *)
  Fixpoint labels_ok (n0 : N) (ls : list label) (cs : list (N * N)) : Prop :=
    match ls with
    | [] => True
    | LConnUp id t :: r => n0 <= id /\ CM.lookup id cs = None /\ labels_ok n0 r ((id, t) :: cs)
    | LConnDown id :: r => CM.lookup id cs <> None /\ labels_ok n0 r (CM.remove_key id cs)
    | _ :: r => labels_ok n0 r cs
    end.

  Lemma apply_labels_app a b cs : apply_labels (a ++ b) cs = apply_labels b (apply_labels a cs).
  Proof. revert cs; induction a as [|x a IH]; intros cs; cbn; auto. destruct x; auto. Qed.

  Lemma labels_ok_app n0 a b cs : labels_ok n0 a cs -> labels_ok n0 b (apply_labels a cs) -> labels_ok n0 (a ++ b) cs.
  Proof.
    revert cs; induction a as [|x a IH]; intros cs Ha Hb; cbn in *; auto.
    destruct x; cbn in *; auto.
    - destruct Ha as (H1 & H2 & H3). auto.
    - destruct Ha as (H1 & H2). auto.
  Qed.

  Lemma labels_of_app a b : labels_of (a ++ b) = labels_of a ++ labels_of b.
  Proof. apply omap_app. Qed.

  Lemma quiet_labels o : CP.quiet o -> labels_of o = [].
  Proof.
    induction o as [|x o IH]; intros H; auto. apply CP.quiet_cons in H. destruct H as [Hx Ho].
    cbn. fold (labels_of o). rewrite (IH Ho). destruct x; try discriminate Hx; reflexivity.
  Qed.

  Lemma step_labels fx m e n0 :
    CP.Inv m -> n0 <= CM.m_next m ->
    CM.m_conns (fst (CM.step fx m e)) = apply_labels (labels_of (snd (CM.step fx m e))) (CM.m_conns m) /\
    labels_ok n0 (labels_of (snd (CM.step fx m e))) (CM.m_conns m).
  Proof.
    intros HI Hn0.
    destruct (CP.step_spec fx m e HI) as [Hcs _ _ Ho | k t _ _ Hcs _ Ho Hnew | k t id tl _ _ Hcs _ Ho Htl Hlk _];
      rewrite Hcs.
    - rewrite (quiet_labels _ Ho). cbn. auto.
    - rewrite Ho. cbn. auto.
    - rewrite Ho. cbn. fold (labels_of tl). rewrite (quiet_labels tl Htl), Hlk. cbn. repeat split; auto.
  Qed.

  Lemma run_labels fx m es n0 :
    CP.Inv m -> n0 <= CM.m_next m ->
    CM.m_conns (fst (CM.run_from fx m es)) = apply_labels (labels_of (snd (CM.run_from fx m es))) (CM.m_conns m) /\
    labels_ok n0 (labels_of (snd (CM.run_from fx m es))) (CM.m_conns m).
  Proof.
    revert m; induction es as [|e es IH]; intros m HI Hn0; [cbn; auto|].
    rewrite CP.run_from_cons_fst, CP.run_from_cons_snd, labels_of_app.
    destruct (step_labels fx m e n0 HI Hn0) as [H1 H2].
    pose proof (CP.step_ids fx m e HI) as [Hmono _].
    destruct (IH (fst (CM.step fx m e)) (CP.step_inv fx m e HI) ltac:(lia)) as [H3 H4].
    rewrite apply_labels_app, <- H1. split; auto. apply labels_ok_app; auto. rewrite <- H1. exact H4.
  Qed.

  (** * The protocol's side *)
  Lemma conns_fold (es : list (@eff V Ch Req)) (w : world) : conns (fold_left apply_eff es w) = conns w.
  Proof.
    revert w; induction es as [|e es IH]; intros w; cbn; auto. rewrite IH. apply conns_apply_eff.
  Qed.

  Lemma conns_step_other (w : world) (l : label) : is_conn_label l = false -> conns (step w l) = conns w.
  Proof.
    destruct l; cbn; intros H; try discriminate; try reflexivity.
    - apply conns_fold.
    - destruct (rels w !! c); reflexivity.
  Qed.

  (** the world's conns, above n0, are the manager's map; below n0 they are what they were in w0 *)
  Definition follows (n0 : N) (w0 w : world) (cs : list (N * N)) : Prop :=
    forall c, conns w !! c = if n0 <=? c then CM.lookup c cs else conns w0 !! c.

  Lemma follows_run n0 w0 :
    forall (ls : list label) (w : world) cs,
      labels_ok n0 (List.filter is_conn_label ls) cs ->
      (forall c t, CM.lookup c cs = Some t -> n0 <= c) -> follows n0 w0 w cs ->
      follows n0 w0 (fold_left step ls w) (apply_labels (List.filter is_conn_label ls) cs) /\ effective w ls.
  Proof.
    induction ls as [|l ls IH]; intros w cs Hok Hkeys Hfol; [cbn; auto|].
    cbn [fold_left effective List.filter] in *. destruct (is_conn_label l) eqn:Hl.
    - destruct l as [| | |id t|id| | | |]; try discriminate Hl; cbn in Hok |- *.
      + destruct Hok as (Hn0 & Hnone & Hok').
        assert (Hc : conns w !! id = None).
        { rewrite (Hfol id). destruct (n0 <=? id) eqn:Hle; auto. apply N.leb_gt in Hle. lia. }
        rewrite Hc. destruct (IH (w <| conns := <[id := t]> (conns w) |>) ((id, t) :: cs)) as [H1 H2]; auto.
        * intros c t' Hlk. cbn in Hlk. destruct (id =? c) eqn:He; [apply N.eqb_eq in He; subst; auto|eauto].
        * intros c. cbn. destruct (decide (c = id)) as [->|Hne].
          -- rewrite lookup_insert, N.eqb_refl. destruct (n0 <=? id) eqn:Hle; auto. apply N.leb_gt in Hle. lia.
          -- rewrite lookup_insert_ne by congruence. destruct (id =? c) eqn:He; [apply N.eqb_eq in He; congruence|].
             apply Hfol.
      + destruct Hok as (Hsome & Hok'). destruct (CM.lookup id cs) as [t|] eqn:Hlk; [clear Hsome|contradiction].
        assert (Hn0 : n0 <= id) by eauto.
        assert (Hc : is_Some (conns w !! id)).
        { rewrite (Hfol id). destruct (n0 <=? id) eqn:Hle; [rewrite Hlk; eauto|]. apply N.leb_gt in Hle. lia. }
        destruct (IH (w <| conns := delete id (conns w) |>) (CM.remove_key id cs)) as [H1 H2]; auto.
        * intros c t' Hlk'. rewrite CP.lookup_remove_key in Hlk'. destruct (c =? id); [discriminate|eauto].
        * intros c. cbn. rewrite CP.lookup_remove_key. destruct (decide (c = id)) as [->|Hne].
          -- rewrite lookup_delete, N.eqb_refl. destruct (n0 <=? id) eqn:Hle; auto. apply N.leb_gt in Hle. lia.
          -- rewrite lookup_delete_ne by congruence. destruct (c =? id) eqn:He; [apply N.eqb_eq in He; congruence|].
             apply Hfol.
    - destruct (IH (step w l) cs) as [H1 H2]; auto.
      { intros c. rewrite (conns_step_other w l Hl). apply Hfol. }
      split; auto. split; auto. destruct l; auto; discriminate.
  Qed.

  (** the refinement: the manager started with the first id n0, any event sequence, any interleaving ls of its Watch
      trace with other protocol labels, from any world w0 that knows no connection id >= n0 *)
  Theorem manager_refines_conn_labels fx n0 es (w0 : world) (ls : list label) :
    (forall c, n0 <= c -> conns w0 !! c = None) ->
    List.filter is_conn_label ls = labels_of (snd (CM.run_from fx (CM.init n0) es)) ->
    effective w0 ls /\
    forall c, conns (fold_left step ls w0) !! c =
              if n0 <=? c then CM.get (fst (CM.run_from fx (CM.init n0) es)) c else conns w0 !! c.
  Proof.
    intros Hw0 Hf.
    destruct (run_labels fx (CM.init n0) es n0 (CP.Inv_init n0) ltac:(cbn; lia)) as [Hcs Hok]. cbn in Hcs, Hok.
    rewrite <- Hf in Hcs, Hok. destruct (follows_run n0 w0 ls w0 [] Hok) as [H1 H2].
    - intros c t H. discriminate.
    - intros c. cbn. destruct (n0 <=? c) eqn:Hle; auto. apply N.leb_le in Hle. auto.
    - split; auto. intros c. rewrite (H1 c). unfold CM.get. rewrite Hcs. reflexivity.
  Qed.
End Refine.
