(* Get with wildcards after any history of acknowledged Sets, against the reference semantics: the leaves the Get filter
   returns from the stored map are exactly the leaves of the reference configuration gnmi_history that the query steps
   match (Spec/Gnmi.v qmatch). *)
From Coq Require Import List NArith Bool Lia.
From OC Require Import Base.Bytes Model.Merge Model.CfgStore Model.Wildcard Spec.Gnmi
     Proofs.MergeProofs Proofs.TextPathProofs Proofs.WildcardProofs Proofs.CommitProofs Proofs.CommitPreserve Proofs.CommitHistory
     Proofs.PathAbstraction Proofs.GnmiHistory Proofs.WildcardElements.
Import ListNotations.
Open Scope N_scope.

(* the text of a query never ends in "/" : processRequest's trimming leaves it alone *)
Lemma trim_slash_query q : Forall qstep_wf q -> trim_slash (qrender q) = qrender q.
Proof.
  intros F. unfold trim_slash. destruct q as [|s0 q0]; [reflexivity|].
  destruct (qrender_last (s0 :: q0) ltac:(discriminate) F) as (t & c & E & Hc & _).
  pose proof (ends_with_last [] c_slash t c Hc) as A. cbn [app] in A. rewrite E, A. reflexivity.
Qed.

(* what the reference configuration holds was put there by an update *)
Lemma glookup_in g sp v : glookup g sp = Some v -> In (sp, v) g.
Proof.
  induction g as [|[p w] g IH]; cbn; [discriminate|]. destruct (eqb_spath sp p) eqn:E.
  - apply eqb_spath_eq in E. subst p. intros [= ->]. left. reflexivity.
  - intros H. right. apply IH. exact H.
Qed.

Lemma in_deletes ds : forall g e, In e (fold_left gnmi_delete ds g) -> In e g.
Proof.
  induction ds as [|d ds IH]; intros g e H; [exact H|]. cbn [fold_left] in H. apply IH in H.
  unfold gnmi_delete in H. apply filter_In in H. apply H.
Qed.

Lemma in_updates us : forall g e, In e (fold_left gnmi_update us g) -> In e us \/ In e g.
Proof.
  induction us as [|u us IH]; intros g e H; [right; exact H|]. cbn [fold_left] in H. apply IH in H.
  destruct H as [H|H]; [left; right; exact H|]. unfold gnmi_update in H. destruct H as [H|H].
  - left. left. exact H.
  - right. apply filter_In in H. apply H.
Qed.

Lemma in_history rs : forall g e, In e (gnmi_history g rs) -> (exists r, In r rs /\ In e (g_updates r)) \/ In e g.
Proof.
  unfold gnmi_history. induction rs as [|r rs IH]; intros g e H; [right; exact H|]. cbn [fold_left] in H.
  apply IH in H. destruct H as [[r' [H1 H2]]|H]; [left; exists r'; split; [right; exact H1 | exact H2]|].
  unfold gnmi_apply in H. apply in_updates in H. destruct H as [H|H].
  - left. exists r. split; [left; reflexivity | exact H].
  - right. apply in_deletes in H. exact H.
Qed.

Lemma glookup_updated rs sp v : glookup (gnmi_history [] rs) sp = Some v -> gupdated rs sp.
Proof.
  intros H. apply glookup_in, in_history in H. destruct H as [[r [H1 H2]]|[]].
  exists r, (sp, v). auto.
Qed.

(* all paths of the history are over the characters "*" stands for *)
Definition legal_history (h : list (N * greq)) : Prop :=
  forall ir sp, In ir h -> In sp (req_paths (snd ir)) -> lpath sp.

Theorem get_history_reference h q : ghistory_ok h -> legal_history h -> query_wf q ->
  forall t v,
    In (t, v) (get_leaves (run_history [] (map text_req h)) (qrender q)) <->
    exists sp, t = render sp /\ glookup (gnmi_history [] (map snd h)) sp = Some v /\ qmatch q sp = true.
Proof.
  intros H LH Q t v. set (M := run_history [] (map text_req h)).
  destruct (history_invariant _ (text_history_ok h H)) as [KM [NM _]]. fold M in KM, NM.
  unfold get_leaves. rewrite (trim_slash_query q (proj1 Q)). unfold get_filter. rewrite in_map_iff.
  assert (LIVE : forall sp, gupdated (map snd h) sp -> lpath sp).
  { intros sp [r [u [Hr [Hu <-]]]]. apply in_map_iff in Hr. destruct Hr as [ir [<- Hir]].
    apply (LH ir (fst u) Hir). unfold req_paths. apply in_or_app. left. apply in_map. exact Hu. }
  split.
  - intros [pv [E HI]]. injection E as <- <-. apply filter_In in HI. destruct HI as [HI HB].
    apply andb_true_iff in HB. destruct HB as [HM HD]. apply negb_true_iff in HD.
    apply in_map_iff in HI. destruct HI as [[k pv'] [E HI]]. cbn in E. subst pv'.
    pose proof (KM _ _ HI) as Ek. subst k.
    pose proof (live_intro M _ pv (map_get_in _ _ _ NM HI) HD) as Lv.
    destruct (elements_history_complete h H (pv_path pv)) as [sp [U E]]; [fold M; congruence|].
    pose proof (LIVE sp U) as L. exists sp. split; [exact E|]. split.
    + rewrite <- (elements_history_refines h H sp (lpath_wf sp L)). fold M. rewrite <- E. exact Lv.
    + rewrite E, (wildcard_elements q sp Q L) in HM. exact HM.
  - intros [sp [-> [G HM]]].
    assert (L : lpath sp).
    { apply LIVE. apply (glookup_updated _ sp v G). }
    rewrite <- (elements_history_refines h H sp (lpath_wf sp L)) in G. fold M in G.
    destruct (live_elim M (render sp)) as (pv & GM & D & E); [congruence|]. rewrite G in E. injection E as ->.
    apply map_get_some_in in GM. exists pv. split.
    + rewrite <- (KM _ _ GM). reflexivity.
    + apply filter_In. split; [apply in_map_iff; exists (render sp, pv); auto|].
      rewrite <- (KM _ _ GM), (wildcard_elements q sp Q L), HM, D. reflexivity.
Qed.
