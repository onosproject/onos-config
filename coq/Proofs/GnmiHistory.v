(* The stored configuration against the REFERENCE semantics Spec/Gnmi.v (element lists, no text):
   for every history of gNMI requests given as element-level paths (steps), rendered to text the way the Set handler
   does, turned into change maps by computeChange, stamped with increasing transaction indexes and folded through
   reconcileCommit + the store write from the empty store, the value Get reads at the text of ANY well-formed path is
   the value gnmi_history holds for that path. *)
From Coq Require Import List NArith Bool Lia.
From OC Require Import Base.Bytes Model.Merge Model.CfgStore Spec.Gnmi
     Proofs.MergeProofs Proofs.TextPathProofs Proofs.CommitProofs Proofs.CommitPreserve Proofs.CommitHistory Proofs.PathAbstraction.
Import ListNotations.
Open Scope N_scope.

(* ------------------------------------------------------------------ a request as the Set handler hands it on *)
Definition text_updates (r : greq) : list (str * str) := map (fun u => (render (fst u), snd u)) (g_updates r).
Definition text_removes (r : greq) : list str := map render (g_deletes r).
Definition text_change (idx : N) (r : greq) : cfgmap :=
  with_index idx (compute_change (text_updates r) (text_removes r)).
Definition text_req (ir : N * greq) : N * cfgmap := (fst ir, text_change (fst ir) (snd ir)).

Definition upd_entry (idx : N) (u : spath * str) : str * path_value :=
  (render (fst u), mkPV (render (fst u)) (snd u) false idx).
Definition del_entry (idx : N) (d : spath) : str * path_value := (render d, mkPV (render d) [] true idx).

Definition req_paths (r : greq) : list spath := map fst (g_updates r) ++ g_deletes r.

(* ------------------------------------------------------------------ guards, on element lists *)
Definition path_ok (p : spath) : Prop := p <> [] /\ spath_wf p.

(* well-formed non-empty paths; no path twice in a request; no update at or beneath a delete of the same request *)
Definition greq_ok (r : greq) : Prop :=
  Forall path_ok (req_paths r) /\ NoDup (req_paths r) /\
  (forall u d, In u (g_updates r) -> In d (g_deletes r) -> sprefix d (fst u) = false).

Fixpoint increasing_from (b : N) (l : list N) : Prop :=
  match l with
  | [] => True
  | i :: l' => b <= i /\ increasing_from (N.succ i) l'
  end.

Definition gnames (rs : list greq) (q : spath) : Prop := exists r, In r rs /\ In q (req_paths r).
Definition gupdated (rs : list greq) (p : spath) : Prop := exists r u, In r rs /\ In u (g_updates r) /\ fst u = p.

(* an updated path is a leaf: no request names a path of which it is a proper prefix *)
Definition gleaf_discipline (rs : list greq) : Prop :=
  forall p q, gupdated rs p -> gnames rs q -> sprefix p q = true -> q = p.

Definition ghistory_ok (h : list (N * greq)) : Prop :=
  Forall (fun ir => greq_ok (snd ir)) h /\ increasing_from 0 (map fst h) /\ gleaf_discipline (map snd h).

(* ------------------------------------------------------------------ computeChange on distinct paths *)
Lemma NoDup_app_left {A} (a b : list A) : NoDup (a ++ b) -> NoDup a.
Proof.
  induction a as [|x a IH]; cbn; intros H; [constructor|]. inversion H as [|? ? Hn H']; subst.
  constructor; [intros HI; apply Hn; apply in_or_app; left; exact HI | apply IH; exact H'].
Qed.

Lemma with_index_app idx a b : with_index idx (a ++ b) = with_index idx a ++ with_index idx b.
Proof. unfold with_index. apply map_app. Qed.

Lemma NoDup_render l : Forall path_ok l -> NoDup l -> NoDup (map render l).
Proof.
  induction l as [|x l IH]; intros F ND; cbn; [constructor|].
  inversion F as [|? ? Fx Fl]; subst. inversion ND as [|? ? Hn ND']; subst.
  constructor; [|apply IH; assumption].
  intros HI. apply in_map_iff in HI. destruct HI as [y [E Hy]].
  rewrite Forall_forall in Fl. apply (render_injective y x (proj2 (Fl y Hy)) (proj2 Fx)) in E. subst y. contradiction.
Qed.

Lemma text_change_explicit idx r : greq_ok r ->
  text_change idx r = map (upd_entry idx) (g_updates r) ++ map (del_entry idx) (g_deletes r).
Proof.
  intros [F [ND _]]. pose proof (NoDup_render _ F ND) as NR. unfold req_paths in NR. rewrite map_app in NR.
  unfold text_change, compute_change.
  rewrite (fold_set_fresh (fun u : str * str => fst u) (fun u => mkPV (fst u) (snd u) false 0)).
  - cbn [app].
    rewrite (fold_set_fresh (fun p : str => p) (fun p => mkPV p [] true 0)).
    + rewrite with_index_app. unfold with_index, text_updates, text_removes. rewrite !map_map. reflexivity.
    + unfold text_updates, text_removes. rewrite !map_map. cbn [fst].
      rewrite map_map in NR. exact NR.
  - cbn [map app]. unfold text_updates. rewrite map_map. cbn [fst].
    rewrite map_map in NR. apply NoDup_app_left in NR. exact NR.
Qed.

Lemma in_text_change idx r k c : greq_ok r -> In (k, c) (text_change idx r) ->
  (exists u, In u (g_updates r) /\ path_ok (fst u) /\ k = render (fst u) /\ c = mkPV k (snd u) false idx) \/
  (exists d, In d (g_deletes r) /\ path_ok d /\ k = render d /\ c = mkPV k [] true idx).
Proof.
  intros G. pose proof G as (F & _). rewrite Forall_forall in F. unfold req_paths in F.
  rewrite (text_change_explicit idx r G), in_app_iff, !in_map_iff. unfold upd_entry, del_entry.
  intros [(u & [= <- <-] & H)|(d & [= <- <-] & H)]; [left; exists u | right; exists d];
    (split; [exact H|]); (split; [apply F, in_or_app | auto]).
  - left. apply in_map, H.
  - right. exact H.
Qed.

Lemma text_change_keys idx r : greq_ok r -> map fst (text_change idx r) = map render (req_paths r).
Proof.
  intros G. rewrite (text_change_explicit idx r G). unfold req_paths. rewrite !map_app, !map_map. reflexivity.
Qed.

(* ------------------------------------------------------------------ the textual guards follow *)
Lemma text_req_ok idx r : greq_ok r -> req_ok (idx, text_change idx r).
Proof.
  intros G. unfold req_ok. cbn [fst snd]. split; [|split; [|split; [|split]]].
  - intros k c HI. destruct (in_text_change idx r k c G HI) as [(u & _ & _ & -> & ->)|(d & _ & _ & -> & ->)]; reflexivity.
  - unfold nodup. rewrite (text_change_keys idx r G). destruct G as [F [ND _]]. apply NoDup_render; assumption.
  - intros k c HI. destruct (in_text_change idx r k c G HI) as [(u & _ & [N W] & -> & _)|(d & _ & [N W] & -> & _)];
      apply render_proper; assumption.
  - intros k c kd d Hc Hd Dc Dd.
    destruct (in_text_change idx r k c G Hc) as [(u & Hu & [_ Wu] & -> & ->)|(x & _ & _ & _ & ->)]; [|discriminate].
    destruct (in_text_change idx r kd d G Hd) as [(x & _ & _ & _ & ->)|(d0 & Hd0 & [Nd Wd] & -> & ->)]; [discriminate|].
    cbn [pv_path].
    rewrite (below_is_proper_sprefix (fst u) d0 Wu Wd Nd).
    destruct G as [_ [_ GO]]. rewrite (GO u d0 Hu Hd0). reflexivity.
  - intros k c HI. destruct (in_text_change idx r k c G HI) as [(u & _ & _ & -> & ->)|(d & _ & _ & -> & ->)]; reflexivity.
Qed.

Lemma increasing_indexes h : forall b, increasing_from b (map fst h) -> indexes_from b (map text_req h).
Proof.
  induction h as [|[i r] h IH]; intros b; cbn; [auto|]. intros [H1 H2]. split; [exact H1 | apply IH; exact H2].
Qed.

Lemma in_text_reqs h c : In c (map snd (map text_req h)) -> exists i r, In (i, r) h /\ c = text_change i r.
Proof. rewrite map_map, in_map_iff. intros ([i r] & <- & H). exists i, r. auto. Qed.

Lemma text_history_ok h : ghistory_ok h -> history_ok (map text_req h).
Proof.
  intros [F [IX LD]]. split; [|split].
  - apply Forall_forall. intros ic HI. apply in_map_iff in HI. destruct HI as [[i r] [<- HI]].
    rewrite Forall_forall in F. apply (text_req_ok i r (F _ HI)).
  - apply increasing_indexes. exact IX.
  - rewrite Forall_forall in F.
    intros p q [c [v [Hc [Hv Dv]]]] [c2 [Hc2 Hq]].
    apply in_text_reqs in Hc as (i & r & Hr & ->). apply in_text_reqs in Hc2 as (i2 & r2 & Hr2 & ->).
    pose proof (F _ Hr) as G. pose proof (F _ Hr2) as G2. cbn [snd] in G, G2.
    destruct (in_text_change i r p v G Hv) as [(u & Hu & [Nu Wu] & -> & ->)|(x & _ & _ & _ & ->)]; [|discriminate].
    rewrite (text_change_keys i2 r2 G2) in Hq. apply in_map_iff in Hq. destruct Hq as [q0 [<- Hq0]].
    assert (Pq : path_ok q0) by (destruct G2 as [F2 _]; rewrite Forall_forall in F2; apply F2; exact Hq0).
    rewrite (below_is_proper_sprefix q0 (fst u) (proj2 Pq) Wu Nu).
    destruct (sprefix (fst u) q0) eqn:S; [|reflexivity]. cbn [andb]. apply negb_false_iff. apply eqb_spath_eq. symmetry.
    apply (LD (fst u) q0); [| |exact S].
    + exists r, u. split; [apply (in_map snd _ _ Hr) | auto].
    + exists r2. split; [apply (in_map snd _ _ Hr2) | exact Hq0].
Qed.

(* ------------------------------------------------------------------ lookups in the reference configuration *)
Lemma glookup_delete g d sp : glookup (gnmi_delete g d) sp = if sprefix d sp then None else glookup g sp.
Proof.
  unfold gnmi_delete. induction g as [|[p v] g IH]; cbn [filter glookup fst]; [destruct (sprefix d sp); reflexivity|].
  destruct (eqb_spath sp p) eqn:E.
  - apply eqb_spath_eq in E. subst p. destruct (sprefix d sp) eqn:S; cbn [negb].
    + exact IH.
    + cbn [glookup]. rewrite eqb_spath_refl. reflexivity.
  - destruct (sprefix d p); cbn [negb]; [exact IH|]. cbn [glookup]. rewrite E. exact IH.
Qed.

Lemma glookup_deletes ds : forall g sp,
  glookup (fold_left gnmi_delete ds g) sp = if existsb (fun d => sprefix d sp) ds then None else glookup g sp.
Proof.
  induction ds as [|d ds IH]; intros g sp; cbn [fold_left existsb]; [reflexivity|].
  rewrite IH, glookup_delete. destruct (sprefix d sp); cbn [orb]; [destruct (existsb _ ds); reflexivity | reflexivity].
Qed.

Lemma glookup_update g u sp : glookup (gnmi_update g u) sp = if eqb_spath sp (fst u) then Some (snd u) else glookup g sp.
Proof.
  unfold gnmi_update. destruct u as [pu vu]. cbn [glookup fst snd].
  destruct (eqb_spath sp pu) eqn:E; [reflexivity|].
  induction g as [|[p v] g IH]; cbn [filter glookup fst]; [reflexivity|].
  destruct (eqb_spath pu p) eqn:E2; cbn [negb].
  - apply eqb_spath_eq in E2. subst p. rewrite E. exact IH.
  - cbn [glookup]. destruct (eqb_spath sp p); [reflexivity | exact IH].
Qed.

Lemma glookup_updates us : forall g sp, NoDup (map fst us) ->
  glookup (fold_left gnmi_update us g) sp
  = match find (fun u => eqb_spath sp (fst u)) us with Some u => Some (snd u) | None => glookup g sp end.
Proof.
  induction us as [|u us IH]; intros g sp ND; cbn [fold_left find]; [reflexivity|].
  cbn [map] in ND. inversion ND as [|? ? Hn ND']; subst.
  rewrite IH by exact ND'. rewrite glookup_update.
  destruct (eqb_spath sp (fst u)) eqn:E; [|reflexivity].
  destruct (find (fun u0 => eqb_spath sp (fst u0)) us) as [u'|] eqn:Fd; [|reflexivity].
  exfalso. apply find_some in Fd. destruct Fd as [Hu' E']. apply eqb_spath_eq in E, E'. apply Hn.
  rewrite <- E, E'. apply in_map. exact Hu'.
Qed.

(* ------------------------------------------------------------------ lookups in the text change map *)
Lemma map_get_app k a b : map_get k (a ++ b) = match map_get k a with Some v => Some v | None => map_get k b end.
Proof. induction a as [|[k0 v0] a IH]; cbn; [reflexivity|]. destruct (eqb_str k k0); [reflexivity | exact IH]. Qed.

Lemma map_get_upds idx sp us : spath_wf sp -> Forall path_ok (map fst us) ->
  map_get (render sp) (map (upd_entry idx) us)
  = option_map (fun u => mkPV (render (fst u)) (snd u) false idx) (find (fun u => eqb_spath sp (fst u)) us).
Proof.
  intros W. induction us as [|u us IH]; intros F; cbn [map map_get find upd_entry option_map]; [reflexivity|].
  cbn [map] in F. inversion F as [|? ? Fu Fus]; subst.
  rewrite (eqb_render sp (fst u) W (proj2 Fu)).
  destruct (eqb_spath sp (fst u)); [reflexivity | apply IH; exact Fus].
Qed.

Lemma map_get_dels idx sp ds : spath_wf sp -> Forall path_ok ds ->
  map_get (render sp) (map (del_entry idx) ds)
  = if existsb (fun d => eqb_spath d sp) ds then Some (mkPV (render sp) [] true idx) else None.
Proof.
  intros W. induction ds as [|d ds IH]; intros F; cbn [map map_get existsb del_entry]; [reflexivity|].
  inversion F as [|? ? Fd Fds]; subst.
  rewrite (eqb_render sp d W (proj2 Fd)).
  destruct (eqb_spath sp d) eqn:E.
  - apply eqb_spath_eq in E. subst d. rewrite eqb_spath_refl. reflexivity.
  - assert (E2 : eqb_spath d sp = false).
    { destruct (eqb_spath d sp) eqn:E2; [|reflexivity]. apply eqb_spath_eq in E2. subst d. rewrite eqb_spath_refl in E. discriminate. }
    rewrite E2. cbn [orb]. apply IH. exact Fds.
Qed.

Lemma deleted_above_text idx r sp : greq_ok r -> spath_wf sp ->
  deleted_above (text_change idx r) (render sp)
  = existsb (fun d => sprefix d sp && negb (eqb_spath d sp)) (g_deletes r).
Proof.
  intros G W. rewrite (text_change_explicit idx r G). unfold deleted_above. rewrite existsb_app.
  assert (E1 : existsb (fun kv => pv_deleted (snd kv) && is_path_below (render sp) (pv_path (snd kv)))
                       (map (upd_entry idx) (g_updates r)) = false).
  { induction (g_updates r) as [|u us IH]; [reflexivity | cbn; exact IH]. }
  rewrite E1. cbn [orb].
  assert (F : Forall path_ok (g_deletes r)) by (destruct G as [F _]; apply Forall_app in F; apply F).
  induction (g_deletes r) as [|d ds IH]; [reflexivity|].
  inversion F as [|? ? Fd Fds]; subst. cbn [map existsb del_entry snd pv_deleted pv_path andb].
  rewrite (below_is_proper_sprefix sp d W (proj2 Fd) (proj1 Fd)). rewrite (IH Fds). reflexivity.
Qed.

(* ------------------------------------------------------------------ one request: text effect = reference effect *)
Definition agree (L : str -> option str) (g : gcfg) : Prop :=
  forall sp, spath_wf sp -> L (render sp) = glookup g sp.

Lemma existsb_prefix_split ds sp :
  existsb (fun d => sprefix d sp) ds
  = existsb (fun d => eqb_spath d sp) ds || existsb (fun d => sprefix d sp && negb (eqb_spath d sp)) ds.
Proof.
  induction ds as [|d ds IH]; [reflexivity|]. cbn [existsb]. rewrite IH.
  destruct (eqb_spath d sp) eqn:E.
  - apply eqb_spath_eq in E. subst d.
    assert (S : sprefix sp sp = true) by (apply sprefix_spec; exists []; rewrite app_nil_r; reflexivity).
    rewrite S. reflexivity.
  - destruct (sprefix d sp); cbn [andb negb orb].
    + destruct (existsb (fun d0 => eqb_spath d0 sp) ds); reflexivity.
    + reflexivity.
Qed.

Lemma step_agrees L g idx r : greq_ok r -> agree L g -> agree (spec_step L (text_change idx r)) (gnmi_apply g r).
Proof.
  intros G A sp W. unfold spec_step, gnmi_apply.
  pose proof G as (F & NDu & _). apply Forall_app in F as [Fu Fd]. apply NoDup_app_left in NDu.
  rewrite (glookup_updates _ _ sp NDu), glookup_deletes.
  rewrite (deleted_above_text idx r sp G W).
  rewrite (text_change_explicit idx r G), map_get_app, (map_get_upds idx sp _ W Fu), (map_get_dels idx sp _ W Fd).
  destruct (find (fun u => eqb_spath sp (fst u)) (g_updates r)) as [u|]; cbn [option_map]; [reflexivity|].
  rewrite existsb_prefix_split.
  destruct (existsb (fun d => eqb_spath d sp) (g_deletes r)); cbn [orb]; [reflexivity|].
  destruct (existsb _ (g_deletes r)); [reflexivity | apply A; exact W].
Qed.

Lemma history_agrees h : forall L g, Forall (fun ir => greq_ok (snd ir)) h -> agree L g ->
  agree (spec_history L (map text_req h)) (gnmi_history g (map snd h)).
Proof.
  induction h as [|[i r] h IH]; intros L g F A; [exact A|].
  inversion F as [|? ? F1 F2]; subst. cbn [map text_req fst snd spec_history]. unfold gnmi_history. cbn [fold_left].
  apply IH; [exact F2 | apply step_agrees; assumption].
Qed.

(* ------------------------------------------------------------------ the stored configuration vs. the reference *)
Theorem elements_history_refines h : ghistory_ok h ->
  forall sp, spath_wf sp ->
  live (run_history [] (map text_req h)) (render sp) = glookup (gnmi_history [] (map snd h)) sp.
Proof.
  intros H sp W. rewrite (history_refines _ (text_history_ok h H)).
  destruct H as [F _]. apply (history_agrees h (fun _ => None) [] F); [|exact W].
  intros sp' _. reflexivity.
Qed.

(* nothing else is readable: a live stored path is the text of a path some request updated *)
Theorem elements_history_complete h : ghistory_ok h ->
  forall p, live (run_history [] (map text_req h)) p <> None -> exists sp, gupdated (map snd h) sp /\ p = render sp.
Proof.
  intros H p L. pose proof H as [F _]. rewrite Forall_forall in F.
  destruct (history_invariant _ (text_history_ok h H)) as [_ [_ [_ [_ U]]]].
  destruct (U p L) as [c [v [Hc [Hv Dv]]]]. apply in_text_reqs in Hc as (i & r & Hr & ->).
  pose proof (F _ Hr) as G. cbn [snd] in G.
  destruct (in_text_change i r p v G Hv) as [(u & Hu & _ & -> & ->)|(x & _ & _ & _ & ->)]; [|discriminate].
  exists (fst u). split; [|reflexivity]. exists r, u. split; [apply (in_map snd _ _ Hr) | auto].
Qed.
