(* Proofs about the handlers' wait loop and response (Model/Handler.v) over the GENERATED tables
   (Gen/Tables.v): the table facts below are re-proved against whatever the Go source says now. *)
From Coq Require Import List NArith Arith Bool Lia.
From OC Require Import Base.Bytes Model.Failure Model.Watch2 Model.Handler Gen.Tables Proofs.Watch2Proofs.
Import ListNotations.
Local Close Scope N_scope.
Local Open Scope nat_scope.

Lemma failure_eqb_eq a b : failure_eqb a b = true -> a = b.
Proof. destruct a, b; intros H; (reflexivity || discriminate H). Qed.

Lemma failure_opt_eqb_eq a b : failure_opt_eqb a b = true -> a = b.
Proof.
  destruct a as [x|], b as [y|]; cbn; intros H; try discriminate; [|reflexivity].
  apply failure_eqb_eq in H. congruence.
Qed.

Lemma last_map {X Y} (f : X -> Y) (l : list X) d : last (map f l) (f d) = f (last l d).
Proof.
  induction l as [|a l IH]; [reflexivity|].
  destruct l as [|b l]; [reflexivity|]. exact IH.
Qed.

(* a FAILED record stays: every later record, the last one included, is FAILED with the same failure *)
Lemma chain_failed_persists h s :
  chain_ok h = true -> In s h -> st_state s = FAILED ->
  st_state (last_status h) = FAILED /\ st_failure (last_status h) = st_failure s.
Proof.
  unfold last_status. revert s.
  induction h as [|a h IH]; intros s Hc Hin Hs; [contradiction|].
  destruct h as [|b h].
  - destruct Hin as [<- | []]. cbn. split; [exact Hs | reflexivity].
  - cbn [chain_ok] in Hc. apply andb_true_iff in Hc. destruct Hc as [Hab Hc].
    change (last (a :: b :: h) (mk_status PENDING None)) with (last (b :: h) (mk_status PENDING None)).
    destruct Hin as [<- | Hin]; [|apply IH; assumption].
    (* a is FAILED, so b is FAILED with the same failure *)
    unfold step_ok in Hab. rewrite Hs in Hab.
    destruct (st_state b) eqn:Eb; try discriminate.
    apply failure_opt_eqb_eq in Hab.
    destruct (IH b Hc (or_introl eq_refl) Eb) as [H1 H2].
    split; [exact H1 | congruence].
Qed.

(* what the theorems need from the tables of one handler: wait predicates, failure switch, nil case *)
Definition tables_ok (wok wfail : synchronicity -> tx_state -> bool)
           (fctor : failure_type -> err_ctor) (nctor : err_ctor) : Prop :=
  (forall sy st, terminal_state st = true -> wok sy st || wfail sy st = true) /\
  (forall sy st, wok sy st = true -> awaited sy st = true) /\
  (forall sy st, wok sy st = false -> wfail sy st = true -> st = FAILED) /\
  (forall f, lib_status (fctor f) = status_of f) /\
  lib_status nctor = G_Unknown.

Section Generic.
  Context (wok wfail : synchronicity -> tx_state -> bool)
          (fctor : failure_type -> err_ctor) (nctor : err_ctor)
          (T : tables_ok wok wfail fctor nctor).

  Let ev := on_event wok wfail fctor nctor.
  Let loop := wait_loop wok wfail fctor nctor.

  Lemma loop_not_waiting evs e : In e evs -> ev e <> Waiting -> loop evs <> Waiting.
  Proof.
    induction evs as [|a evs IH]; intros Hin Hne; [contradiction|].
    cbn. fold (ev a).
    destruct (ev a) eqn:Ea; try discriminate.
    destruct Hin as [-> | Hin]; [congruence | apply IH; assumption].
  Qed.

  Lemma loop_verdict sy (d : list tx_status) r :
    loop (events_of sy d) = r -> r <> Waiting ->
    exists s, In s d /\ ev (mk_event sy (st_state s) (st_failure s)) = r.
  Proof.
    induction d as [|a d IH]; intros Hl Hr; [cbn in Hl; congruence|].
    cbn [events_of map] in Hl. unfold loop in Hl. cbn [wait_loop] in Hl.
    fold loop (ev (mk_event sy (st_state a) (st_failure a))) (events_of sy d) in Hl.
    destruct (ev (mk_event sy (st_state a) (st_failure a))) eqn:Ea.
    - destruct (IH Hl Hr) as [s [Hin He]]. exists s. split; [right; exact Hin | exact He].
    - exists a. split; [left; reflexivity | congruence].
    - exists a. split; [left; reflexivity | congruence].
  Qed.

  Lemma terminal_event_decides e : terminal_state (ev_state e) = true -> ev e <> Waiting.
  Proof.
    intros Ht. unfold ev, on_event. destruct T as (Tt & _).
    specialize (Tt (ev_sync e) (ev_state e) Ht).
    destruct (wok (ev_sync e) (ev_state e)); [discriminate|].
    cbn in Tt. rewrite Tt. discriminate.
  Qed.

  (* ANSWERS: whatever subsequence of the history is delivered, in whatever order, as long as the final
     record is among the delivered events, the loop does not keep waiting *)
  Theorem loop_answers sy (h d : list tx_status) :
    terminal (last_status h) = true -> In (last_status h) d ->
    loop (events_of sy d) <> Waiting.
  Proof.
    intros Ht Hin.
    apply loop_not_waiting with (e := mk_event sy (st_state (last_status h)) (st_failure (last_status h))).
    - unfold events_of. apply in_map_iff. exists (last_status h). split; [reflexivity | exact Hin].
    - apply terminal_event_decides. exact Ht.
  Qed.

  (* TRUTHFUL, success: only events of the history are delivered, and the success branch is taken only on
     an event in the awaited stage *)
  Theorem loop_truthful_ok sy (h d : list tx_status) :
    incl d h -> loop (events_of sy d) = Succeeded -> reached sy h = true.
  Proof.
    intros Hincl Hl. destruct T as (_ & Tok & _).
    destruct (loop_verdict _ _ _ Hl ltac:(discriminate)) as [s [Hs He]].
    unfold ev, on_event in He. cbn in He.
    destruct (wok sy (st_state s)) eqn:Ew.
    - unfold reached. apply existsb_exists. exists s. split; [apply Hincl; exact Hs | apply Tok; exact Ew].
    - destruct (wfail sy (st_state s)); discriminate.
  Qed.

  (* TRUTHFUL, failure: the transaction is FAILED for good and the code is the one of the recorded class *)
  Theorem loop_truthful_err sy (h d : list tx_status) c :
    valid_history h = true -> incl d h -> loop (events_of sy d) = Failed_with c ->
    st_state (last_status h) = FAILED /\ c = status_of_failure (st_failure (last_status h)).
  Proof.
    intros Hv Hincl Hl. destruct T as (_ & _ & Tfail & Tstatus & Tnil).
    destruct (loop_verdict _ _ _ Hl ltac:(discriminate)) as [s [Hs He]].
    unfold ev, on_event in He. cbn in He.
    destruct (wok sy (st_state s)) eqn:Ew; [discriminate|].
    destruct (wfail sy (st_state s)) eqn:Ef; [|discriminate].
    assert (Hst : st_state s = FAILED) by (eapply Tfail; eassumption).
    assert (Hc : chain_ok h = true) by (unfold valid_history in Hv; destruct h; [discriminate | exact Hv]).
    destruct (chain_failed_persists h s Hc (Hincl _ Hs) Hst) as [H1 H2].
    split; [exact H1|].
    rewrite H2. injection He as <-.
    destruct (st_failure s) as [f|]; cbn; [apply Tstatus | exact Tnil].
  Qed.
End Generic.

(* the generated tables of Set and of RollbackTransaction *)
Lemma set_tables_ok : tables_ok set_wait_ok set_wait_failed set_failure_ctor set_nil_failure_ctor.
Proof.
  split; [|split; [|split; [|split]]].
  - intros sy st. destruct sy, st; cbn; intros H; try reflexivity; discriminate.
  - intros sy st. destruct sy, st; cbn; intros H; try reflexivity; discriminate.
  - intros sy st. destruct sy, st; cbn; intros H1 H2; try reflexivity; discriminate.
  - intros f. destruct f; reflexivity.
  - reflexivity.
Qed.

Lemma rollback_tables_ok :
  tables_ok rollback_wait_ok rollback_wait_failed rollback_failure_ctor rollback_nil_failure_ctor.
Proof.
  split; [|split; [|split; [|split]]].
  - intros sy st. destruct sy, st; cbn; intros H; try reflexivity; discriminate.
  - intros sy st. destruct sy, st; cbn; intros H; try reflexivity; discriminate.
  - intros sy st. destruct sy, st; cbn; intros H1 H2; try reflexivity; discriminate.
  - intros f. destruct f; reflexivity.
  - reflexivity.
Qed.

(* the class can be read back from the code: distinct named classes never share a code *)
Lemma status_of_roundtrip f : In f named_failure_types -> class_of_code (status_of f) = Some f.
Proof. destruct f; cbn; intros H; try reflexivity; repeat (destruct H as [H|H]; [discriminate|]); contradiction. Qed.

Lemma roundtrip_table :
  (forall f, lib_status (set_failure_ctor f) = status_of f) /\
  (forall f, lib_status (rollback_failure_ctor f) = status_of f) /\
  lib_status set_nil_failure_ctor = G_Unknown /\
  lib_status rollback_nil_failure_ctor = G_Unknown /\
  (forall f, In f named_failure_types -> class_of_code (lib_status (set_failure_ctor f)) = Some f) /\
  (forall f, In f named_failure_types -> class_of_code (lib_status (rollback_failure_ctor f)) = Some f) /\
  (forall f, status_of f <> G_OK).
Proof.
  destruct set_tables_ok as (_ & _ & _ & Hs & _), rollback_tables_ok as (_ & _ & _ & Hr & _).
  repeat split.
  - exact Hs.
  - exact Hr.
  - intros f Hf. rewrite Hs. apply status_of_roundtrip. exact Hf.
  - intros f Hf. rewrite Hr. apply status_of_roundtrip. exact Hf.
  - intros f. destruct f; discriminate.
Qed.

(* under any delivery (lost, repeated or reordered events) that still hands over the final record *)
Theorem answers_any_delivery :
  forall sy h d, terminal (last_status h) = true -> In (last_status h) d ->
    set_wait (events_of sy d) <> Waiting /\ rollback_wait (events_of sy d) <> Waiting.
Proof.
  intros sy h d Ht Hin.
  split; [apply (loop_answers _ _ _ _ set_tables_ok sy h d Ht Hin)
         | apply (loop_answers _ _ _ _ rollback_tables_ok sy h d Ht Hin)].
Qed.

Theorem answers :
  forall sy h j k, placement_ok h j k = true -> terminal (last_status h) = true ->
    set_wait (events_of sy (delivered h j k)) <> Waiting /\
    rollback_wait (events_of sy (delivered h j k)) <> Waiting.
Proof.
  intros sy h j k Hp Ht. apply (answers_any_delivery sy h); [exact Ht | apply delivered_has_last, Hp].
Qed.

Theorem truthful :
  forall sy h j k,
    (set_wait (events_of sy (delivered h j k)) = Succeeded -> reached sy h = true) /\
    (rollback_wait (events_of sy (delivered h j k)) = Succeeded -> reached sy h = true) /\
    (forall c, valid_history h = true ->
       set_wait (events_of sy (delivered h j k)) = Failed_with c \/
       rollback_wait (events_of sy (delivered h j k)) = Failed_with c ->
       st_state (last_status h) = FAILED /\ c = status_of_failure (st_failure (last_status h))).
Proof.
  intros sy h j k.
  assert (Hd : incl (delivered h j k) h) by (intros x; apply delivered_incl).
  split; [|split].
  - apply (loop_truthful_ok _ _ _ _ set_tables_ok sy h _ Hd).
  - apply (loop_truthful_ok _ _ _ _ rollback_tables_ok sy h _ Hd).
  - intros c Hv [H|H].
    + apply (loop_truthful_err _ _ _ _ set_tables_ok sy h _ c Hv Hd H).
    + apply (loop_truthful_err _ _ _ _ rollback_tables_ok sy h _ c Hv Hd H).
Qed.

Definition cm_parses (cm : change_map) : bool := forallb path_parses (cm_paths cm).

Lemma response_rows_some cm rows : response_rows cm = Some rows -> rows = rows_of cm.
Proof. unfold response_rows. destruct (forallb path_parses (cm_paths cm)); intros H; [congruence | discriminate]. Qed.

Lemma tx_lookup_create log id cm :
  tx_lookup (fst (tx_create log id cm)) (snd (tx_create log id cm)) = Some (id, cm).
Proof.
  unfold tx_create, tx_lookup. cbn [fst snd].
  rewrite Nat2N.id. rewrite nth_error_app2 by lia. rewrite Nat.sub_diag. reflexivity.
Qed.

(* the successful response lists exactly what the request changed, and its (id, index) are those under
   which that change map is stored in the log *)
Theorem response_exact log id cm evs r :
  snd (set_handler log id cm evs) = SetOk r ->
  resp_rows r = rows_of cm /\ resp_id r = id /\
  tx_lookup (fst (set_handler log id cm evs)) (resp_index r) = Some (id, cm).
Proof.
  unfold set_handler.
  pose proof (tx_lookup_create log id cm) as Hl.
  destruct (tx_create log id cm) as [log' index] eqn:Ec. cbn [fst snd] in *.
  destruct (set_wait evs); try discriminate.
  destruct (response_rows cm) as [rows|] eqn:Er; [|discriminate].
  intros [= <-]. cbn. apply response_rows_some in Er.
  repeat split; [exact Er | exact Hl].
Qed.

Theorem rollback_response_exact nlog id evs id' index :
  rollback_handler nlog id evs = RbOk id' index -> id' = id /\ index = N.of_nat (S nlog).
Proof. unfold rollback_handler. destruct (rollback_wait evs); intros H; try discriminate. injection H as <- <-. split; reflexivity. Qed.

Theorem handlers_answer : forall log nlog id cm sy h j k,
  placement_ok h j k = true -> terminal (last_status h) = true ->
  snd (set_handler log id cm (events_of sy (delivered h j k))) <> SetWaiting /\
  rollback_handler nlog id (events_of sy (delivered h j k)) <> RbWaiting.
Proof.
  intros log nlog id cm sy h j k Hp Ht. destruct (answers sy h j k Hp Ht) as [Hs Hr]. split.
  - unfold set_handler, tx_create. cbn [snd].
    destruct (set_wait (events_of sy (delivered h j k))); [congruence | | discriminate].
    destruct (response_rows cm); discriminate.
  - unfold rollback_handler.
    destruct (rollback_wait (events_of sy (delivered h j k))); [congruence | discriminate | discriminate].
Qed.

Theorem set_handler_truthful log id cm sy h j k :
  (forall r, snd (set_handler log id cm (events_of sy (delivered h j k))) = SetOk r -> reached sy h = true) /\
  (forall c, cm_parses cm = true -> valid_history h = true ->
     snd (set_handler log id cm (events_of sy (delivered h j k))) = SetErr c ->
     st_state (last_status h) = FAILED /\ c = status_of_failure (st_failure (last_status h))).
Proof.
  destruct (truthful sy h j k) as [Hok [_ Herr]].
  unfold set_handler. destruct (tx_create log id cm) as [log' index]. cbn [snd].
  split.
  - intros r. destruct (set_wait (events_of sy (delivered h j k))) eqn:Ew; try discriminate.
    intros _. apply Hok. reflexivity.
  - intros c Hp Hv. destruct (set_wait (events_of sy (delivered h j k))) eqn:Ew; try discriminate.
    + unfold response_rows. unfold cm_parses in Hp. rewrite Hp. discriminate.
    + intros [= <-]. apply Herr; [exact Hv | left; reflexivity].
Qed.

Theorem rollback_handler_truthful nlog id sy h j k :
  (forall i n, rollback_handler nlog id (events_of sy (delivered h j k)) = RbOk i n -> reached sy h = true) /\
  (forall c, valid_history h = true ->
     rollback_handler nlog id (events_of sy (delivered h j k)) = RbErr c ->
     st_state (last_status h) = FAILED /\ c = status_of_failure (st_failure (last_status h))).
Proof.
  destruct (truthful sy h j k) as [_ [Hok Herr]].
  unfold rollback_handler. split.
  - intros i n. destruct (rollback_wait (events_of sy (delivered h j k))) eqn:Ew; try discriminate.
    intros _. apply Hok. reflexivity.
  - intros c Hv. destruct (rollback_wait (events_of sy (delivered h j k))) eqn:Ew; try discriminate.
    intros [= <-]. apply Herr; [exact Hv | right; reflexivity].
Qed.

(* the hypotheses are not vacuous *)

Definition ex_history : list tx_status :=
  [mk_status PENDING None; mk_status PENDING None; mk_status VALIDATED None; mk_status VALIDATED None;
   mk_status COMMITTED None; mk_status COMMITTED None; mk_status FAILED (Some F_UNAVAILABLE);
   mk_status FAILED (Some F_UNAVAILABLE)].

Example ex_history_valid :
  valid_history ex_history = true /\ terminal (last_status ex_history) = true /\
  placement_ok ex_history 2 5 = true /\
  (* stale events after the snapshot: replay of record 5, then records 3.. again *)
  map st_state (delivered ex_history 2 5) = [COMMITTED; VALIDATED; VALIDATED; COMMITTED; COMMITTED; FAILED; FAILED] /\
  set_wait (events_of ASYNCHRONOUS (delivered ex_history 2 5)) = Succeeded /\
  set_wait (events_of SYNCHRONOUS (delivered ex_history 2 5)) = Failed_with G_Unavailable /\
  set_wait (events_of ASYNCHRONOUS (delivered ex_history 0 8)) = Failed_with G_Unavailable.
Proof. vm_compute. repeat split. Qed.

Definition ex_cm : change_map :=
  [(B "t1", [(B "/a/b[k=v]/c", false); (B "/x", true)]); (B "t2", [(B "/y", false)])].

Example ex_cm_parses : cm_parses ex_cm = true /\
  rows_of ex_cm = [(B "t1", B "/a/b[k=v]/c", OpUpdate); (B "t1", B "/x", OpDelete); (B "t2", B "/y", OpUpdate)].
Proof. vm_compute. split; reflexivity. Qed.

(* Why [cm_parses] is needed: the handler also answers with a (plain, code Unknown) error when a path of
   its own change map does not parse while building the response, although the transaction succeeded.
   Paths that went through Set's request validation come from utils.StrPath and parse (property C16's
   round trip); this only documents the model's behaviour, it is not a reproduced defect. *)
Example set_err_unparsable_path_witness :
  let h := [mk_status PENDING None; mk_status APPLIED None] in
  snd (set_handler [] (B "id") [(B "t1", [(B "/a[", false)])] (events_of SYNCHRONOUS (delivered h 0 2))) = SetErr G_Unknown
  /\ st_state (last_status h) = APPLIED.
Proof. vm_compute. split; reflexivity. Qed.

(* Why the replay matters: a watcher registered after the last event was dispatched and whose replay read
   finds nothing (k = 0; the code logs the read error and goes on) is never told anything *)
Example no_replay_no_answer :
  let h := [mk_status PENDING None; mk_status APPLIED None] in
  set_wait (events_of SYNCHRONOUS (delivered h 2 0)) = Waiting.
Proof. reflexivity. Qed.

(* whole-log form: the id filter gives the watcher exactly its own transaction's events *)
Theorem answers_whole_log (log : list (str * tx_status)) tid sy j k :
  let h := project eqb_str tid log in
  j <= k -> k <= length log -> 1 <= length (project eqb_str tid (firstn k log)) ->
  terminal (last_status h) = true ->
  set_wait (events_of sy (log_delivered eqb_str log tid j k)) <> Waiting /\
  rollback_wait (events_of sy (log_delivered eqb_str log tid j k)) <> Waiting.
Proof.
  intros h Hjk Hk Hone Ht. rewrite log_delivered_project. fold h.
  apply answers; [|exact Ht].
  unfold placement_ok. rewrite !andb_true_iff, !Nat.leb_le. repeat split.
  - exact Hone.
  - unfold h. rewrite <- (firstn_skipn k log) at 2. rewrite project_app, app_length. lia.
  - apply project_firstn_mono. exact Hjk.
Qed.

(* two watchers on one transaction (the handler's and, say, admin WatchTransactions with that ID): the one
   that leaves takes only itself out of the store's registry, the handler's watch stays registered *)
Theorem second_watcher_leaves : forall (r : list (str * list nat)) t2 w2 t1 w1,
  w1 <> w2 ->
  (In w1 (watchers_of eqb_str (unregister eqb_str Nat.eqb r t2 w2) t1) <-> In w1 (watchers_of eqb_str r t1)).
Proof. exact (unregister_others_unaffected eqb_str Nat.eqb eqb_str_eq Nat.eqb_eq). Qed.
