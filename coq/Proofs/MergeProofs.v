(* Proofs about the merge layer (Model/Merge.v): what reconcileCommit's in-memory merge does to the live leaves,
   for EVERY stored map, change map and iteration order (list order). *)
From Coq Require Import List NArith Bool Lia.
From OC Require Import Base.Bytes Model.Merge.
Import ListNotations.
Open Scope N_scope.

Ltac deq a b :=
  let E := fresh "E" in
  destruct (eqb_str a b) eqn:E; [apply eqb_str_eq in E; try (rewrite E in * ) | apply eqb_str_neq in E].

(* ------------------------------------------------------------------ association lists *)
Definition keys_ok (m : cfgmap) : Prop := forall k v, In (k, v) m -> k = pv_path v.
Definition nodup (m : cfgmap) : Prop := NoDup (map fst m).

Lemma keys_ok_cons k v m : keys_ok ((k, v) :: m) -> k = pv_path v /\ keys_ok m.
Proof. intros KO. split; [apply KO; left; reflexivity | intros k1 v1 H; apply KO; right; exact H]. Qed.

Lemma map_get_set k k' v m :
  map_get k (map_set k' v m) = if eqb_str k k' then Some v else map_get k m.
Proof.
  induction m as [|[k0 v0] m IH]; cbn.
  - reflexivity.
  - deq k' k0; cbn.
    + deq k k0; reflexivity.
    + rewrite IH. deq k k0; [|reflexivity].
      deq k0 k'; [congruence | reflexivity].
Qed.

Lemma map_get_del k k' m :
  map_get k (map_del k' m) = if eqb_str k k' then None else map_get k m.
Proof.
  induction m as [|[k0 v0] m IH]; cbn.
  - destruct (eqb_str k k'); reflexivity.
  - deq k' k0; cbn.
    + rewrite IH. deq k k0; reflexivity.
    + rewrite IH. deq k k0; [|reflexivity].
      deq k0 k'; [congruence | reflexivity].
Qed.

Lemma map_get_notin k m : ~ In k (map fst m) -> map_get k m = None.
Proof.
  induction m as [|[k0 v0] m IH]; cbn; intros H; [reflexivity|].
  deq k k0; [exfalso; apply H; left; reflexivity | apply IH; intros H'; apply H; right; exact H'].
Qed.

Lemma map_get_in k v m : nodup m -> In (k, v) m -> map_get k m = Some v.
Proof.
  unfold nodup. induction m as [|[k0 v0] m IH]; cbn; intros ND HI; [contradiction|].
  inversion ND as [|? ? Hn ND']; subst.
  destruct HI as [HI|HI].
  - injection HI as -> ->. rewrite eqb_str_refl. reflexivity.
  - deq k k0.
    + exfalso. apply Hn. apply (in_map fst) in HI. exact HI.
    + apply IH; assumption.
Qed.

Lemma map_get_some_in k v m : map_get k m = Some v -> In (k, v) m.
Proof.
  induction m as [|[k0 v0] m IH]; cbn; intros H; [discriminate|].
  deq k k0; [injection H as ->; left; reflexivity | right; apply IH; exact H].
Qed.

Lemma map_set_in x k v m : In x (map_set k v m) -> x = (k, v) \/ In x m.
Proof.
  induction m as [|[k0 v0] m IH]; cbn; [intros [H|[]]; left; congruence|].
  deq k k0; cbn.
  - intros [H|H]; [left; congruence | right; right; exact H].
  - intros [H|H]; [right; left; exact H|]. destruct (IH H); [left | right; right]; assumption.
Qed.

Lemma map_set_keys x k v m : In x (map fst (map_set k v m)) -> x = k \/ In x (map fst m).
Proof.
  intros H. apply in_map_iff in H as (y & <- & H).
  apply map_set_in in H as [->|H]; [left; reflexivity | right; apply in_map, H].
Qed.

Lemma nodup_map_set k v m : nodup m -> nodup (map_set k v m).
Proof.
  unfold nodup. induction m as [|[k0 v0] m IH]; cbn; intros ND.
  - constructor; [intros []|constructor].
  - inversion ND as [|? ? Hn ND']; subst.
    deq k k0; cbn.
    + constructor; assumption.
    + constructor; [|apply IH; exact ND'].
      intros H. apply map_set_keys in H. destruct H as [H|H]; [congruence | contradiction].
Qed.

Lemma keys_ok_map_set k v m : keys_ok m -> k = pv_path v -> keys_ok (map_set k v m).
Proof. intros KO E k1 v1 HI. apply map_set_in in HI as [[= -> ->]|HI]; [exact E | apply KO, HI]. Qed.

Lemma map_set_fresh k v m : ~ In k (map fst m) -> map_set k v m = m ++ [(k, v)].
Proof.
  induction m as [|[k0 v0] m IH]; cbn; intros H; [reflexivity|].
  deq k k0; [exfalso; apply H; left; reflexivity|]. f_equal. apply IH. intros HI. apply H. right. exact HI.
Qed.

Lemma fold_set_fresh {A} (kf : A -> str) (vf : A -> path_value) l : forall acc,
  NoDup (map fst acc ++ map kf l) ->
  fold_left (fun acc x => map_set (kf x) (vf x) acc) l acc = acc ++ map (fun x => (kf x, vf x)) l.
Proof.
  induction l as [|x l IH]; intros acc ND; cbn [fold_left map]; [rewrite app_nil_r; reflexivity|].
  cbn [map] in ND. pose proof (NoDup_remove_2 _ _ _ ND) as Hx.
  rewrite map_set_fresh by (intros HI; apply Hx; apply in_or_app; left; exact HI).
  rewrite IH.
  - rewrite <- app_assoc. reflexivity.
  - rewrite map_app, <- app_assoc. exact ND.
Qed.

(* ------------------------------------------------------------------ live leaves *)
Definition live_of (v : path_value) : option str := if pv_deleted v then None else Some (pv_val v).
Definition live (m : cfgmap) (p : str) : option str :=
  match map_get p m with Some v => live_of v | None => None end.

Lemma live_intro m p v : map_get p m = Some v -> pv_deleted v = false -> live m p = Some (pv_val v).
Proof. intros G D. unfold live, live_of. rewrite G, D. reflexivity. Qed.

Lemma live_elim m p : live m p <> None ->
  exists v, map_get p m = Some v /\ pv_deleted v = false /\ live m p = Some (pv_val v).
Proof.
  unfold live, live_of. destruct (map_get p m) as [v|]; [|congruence].
  destruct (pv_deleted v) eqn:D; [congruence|]. intros _. exists v. auto.
Qed.

Lemma drop_ancestors_live anc : forall acc p,
  live (fst (fold_left drop_deleted_ancestor anc acc)) p = live (fst acc) p.
Proof.
  induction anc as [|a anc IH]; intros acc p; cbn [fold_left]; [reflexivity|].
  rewrite IH. unfold drop_deleted_ancestor.
  destruct (map_get a (fst acc)) as [v|] eqn:G; [|reflexivity].
  destruct (pv_deleted v) eqn:D; [|reflexivity].
  cbn [fst]. unfold live. rewrite map_get_del.
  deq p a; [|reflexivity].
  rewrite G. unfold live_of. rewrite D. reflexivity.
Qed.

(* a deleted value (13d170a) is set and no ancestor is touched: the fold over no ancestors *)
Lemma apply_change_fold vals k u :
  apply_change_to_config vals k u
  = fold_left drop_deleted_ancestor (if pv_deleted u then [] else boundary_ancestors k) (map_set k u vals, None).
Proof. unfold apply_change_to_config. destruct (pv_deleted u); reflexivity. Qed.

Lemma apply_change_live vals path v p :
  live (fst (apply_change_to_config vals path v)) p = if eqb_str p path then live_of v else live vals p.
Proof.
  rewrite apply_change_fold, drop_ancestors_live. cbn [fst]. unfold live.
  rewrite map_get_set. destruct (eqb_str p path); reflexivity.
Qed.

Lemma apply_all_live upd : forall vals p, nodup upd ->
  live (apply_all vals upd) p = match map_get p upd with Some v => live_of v | None => live vals p end.
Proof.
  unfold apply_all, nodup. induction upd as [|[k v] upd IH]; intros vals p ND; [reflexivity|].
  cbn [fold_left fst snd map] in *.
  inversion ND as [|? ? Hn ND']; subst.
  rewrite IH by exact ND'. rewrite apply_change_live. cbn [map_get].
  deq p k.
  - rewrite (map_get_notin _ _ Hn). reflexivity.
  - reflexivity.
Qed.

(* ------------------------------------------------------------------ AddDeleteChildren *)
Lemma cascade_upd idx d : forall st upd p, keys_ok st -> nodup st ->
  map_get p (fst (cascade idx d st upd)) =
  match map_get p st with
  | Some v => if is_path_below p d then Some (mark_deleted idx v) else map_get p upd
  | None => map_get p upd
  end.
Proof.
  unfold cascade, nodup. cbn [fst].
  induction st as [|[k v] st IH]; intros upd p KO ND; cbn; [reflexivity|].
  inversion ND as [|? ? Hn ND']; subst.
  destruct (keys_ok_cons _ _ _ KO) as [Ek KO'].
  rewrite IH by assumption. rewrite <- Ek.
  deq p k.
  - rewrite (map_get_notin _ _ Hn).
    destruct (is_path_below k d); [rewrite map_get_set, eqb_str_refl|]; reflexivity.
  - destruct (map_get p st) as [v1|]; destruct (is_path_below k d); try reflexivity;
      rewrite map_get_set; apply eqb_str_neq in E; rewrite E; reflexivity.
Qed.

Lemma cascade_store idx d st upd p : keys_ok st ->
  map_get p (snd (cascade idx d st upd)) =
  match map_get p st with
  | Some v => Some (if is_path_below p d then mark_deleted idx v else v)
  | None => None
  end.
Proof.
  unfold cascade. cbn [snd]. intros KO.
  induction st as [|[k v] st IH]; cbn; [reflexivity|].
  destruct (keys_ok_cons _ _ _ KO) as [Ek KO'].
  rewrite <- Ek.
  destruct (is_path_below k d) eqn:Bk; cbn.
  - deq p k; [rewrite Bk; reflexivity | apply IH; exact KO'].
  - deq p k; [rewrite Bk; reflexivity | apply IH; exact KO'].
Qed.

Lemma cascade_store_fst idx d st upd : map fst (snd (cascade idx d st upd)) = map fst st.
Proof.
  unfold cascade. cbn [snd]. induction st as [|[k v] st IH]; cbn; [reflexivity|].
  destruct (is_path_below (pv_path v) d); cbn; f_equal; exact IH.
Qed.

Lemma cascade_store_keys_ok idx d st upd : keys_ok st -> keys_ok (snd (cascade idx d st upd)).
Proof.
  unfold cascade, keys_ok. cbn [snd]. intros KO k v HI.
  apply in_map_iff in HI. destruct HI as [[k0 v0] [E HI]].
  cbn in E. destruct (is_path_below (pv_path v0) d); injection E as <- <-; cbn; apply (KO _ _ HI).
Qed.

Lemma cascade_upd_nodup idx d : forall st upd, nodup upd -> nodup (fst (cascade idx d st upd)).
Proof.
  unfold cascade. cbn [fst]. induction st as [|[k v] st IH]; intros upd ND; cbn; [exact ND|].
  apply IH. destruct (is_path_below (pv_path v) d); [apply nodup_map_set|]; exact ND.
Qed.

Lemma cascade_upd_keys_ok idx d : forall st upd, keys_ok upd -> keys_ok (fst (cascade idx d st upd)).
Proof.
  unfold cascade. cbn [fst]. induction st as [|[k v] st IH]; intros upd KO; cbn; [exact KO|].
  apply IH. destruct (is_path_below (pv_path v) d); [apply keys_ok_map_set; [exact KO | reflexivity]|exact KO].
Qed.

(* the guard: no live change value lies below a deleted change value of the same request *)
Definition no_overlap (ch : cfgmap) : Prop :=
  forall k c kd d, In (k, c) ch -> In (kd, d) ch -> pv_deleted c = false -> pv_deleted d = true ->
                   is_path_below (pv_path c) (pv_path d) = false.

(* p is hit by the cascade of some delete of the request *)
Definition cascaded (V ch : cfgmap) (p : str) : Prop :=
  exists kd d, In (kd, d) ch /\ pv_deleted d = true /\ is_path_below p (pv_path d) = true /\ map_get p V <> None.

Lemma cascaded_incl V l l' p : incl l l' -> cascaded V l p -> cascaded V l' p.
Proof. intros S (kd & d & HI & H). exists kd, d. split; [apply S, HI | exact H]. Qed.

Lemma cascaded_snoc V l k c p :
  cascaded V (l ++ [(k, c)]) p <->
  cascaded V l p \/ (pv_deleted c = true /\ is_path_below p (pv_path c) = true /\ map_get p V <> None).
Proof.
  split.
  - intros (kd & d & HI & H). apply in_app_iff in HI as [HI|[[= <- <-]|[]]]; [left; exists kd, d; auto | right; exact H].
  - intros [H|H]; [apply (cascaded_incl V l); [apply incl_appl, incl_refl | exact H]|].
    exists k, c. split; [apply in_or_app; right; left; reflexivity | exact H].
Qed.

Lemma map_get_in_keys p m : In p (map fst m) -> map_get p m <> None.
Proof.
  induction m as [|[k0 v0] m IH]; cbn; intros H; [contradiction|].
  deq p k0; [discriminate|]. apply IH. destruct H as [H|H]; [congruence | exact H].
Qed.

Lemma in_keys_of_get p m : map_get p m <> None -> In p (map fst m).
Proof. destruct (map_get p m) as [v|] eqn:G; [|congruence]. intros _. apply map_get_some_in, (in_map fst) in G. exact G. Qed.

Definition adc_step (index : N) (acc : cfgmap * cfgmap) (kv : str * path_value) : cfgmap * cfgmap :=
  let cv := snd kv in
  if pv_deleted cv then
    let r := cascade index (pv_path cv) (snd acc) (fst acc) in
    (map_set (pv_path cv) cv (fst r), snd r)
  else (map_set (pv_path cv) cv (fst acc), snd acc).

Lemma adc_unfold index change store :
  add_delete_children index change store = fold_left (adc_step index) change ([], store).
Proof. reflexivity. Qed.

(* one change value: the value itself is entered; a delete first enters, and marks in the store, what is stored below it *)
Lemma adc_step_upd idx acc k c p : keys_ok (snd acc) -> nodup (snd acc) ->
  map_get p (fst (adc_step idx acc (k, c))) =
  if eqb_str p (pv_path c) then Some c
  else match map_get p (snd acc) with
       | Some v => if pv_deleted c && is_path_below p (pv_path c) then Some (mark_deleted idx v) else map_get p (fst acc)
       | None => map_get p (fst acc)
       end.
Proof.
  intros KO ND. unfold adc_step. cbn [snd]. destruct (pv_deleted c); cbn [fst andb]; rewrite map_get_set.
  - rewrite cascade_upd by assumption. reflexivity.
  - destruct (map_get p (snd acc)); reflexivity.
Qed.

Lemma adc_step_store idx acc k c p : keys_ok (snd acc) ->
  map_get p (snd (adc_step idx acc (k, c))) =
  option_map (fun v => if pv_deleted c && is_path_below p (pv_path c) then mark_deleted idx v else v) (map_get p (snd acc)).
Proof.
  intros KO. unfold adc_step. cbn [snd]. destruct (pv_deleted c); cbn [snd andb].
  - rewrite cascade_store by exact KO. destruct (map_get p (snd acc)); reflexivity.
  - destruct (map_get p (snd acc)); reflexivity.
Qed.

Lemma adc_step_wf idx acc kv :
  nodup (fst acc) -> keys_ok (fst acc) -> keys_ok (snd acc) -> nodup (snd acc) ->
  nodup (fst (adc_step idx acc kv)) /\ keys_ok (fst (adc_step idx acc kv)) /\
  keys_ok (snd (adc_step idx acc kv)) /\ nodup (snd (adc_step idx acc kv)).
Proof.
  intros N1 K1 K2 N2. unfold adc_step. destruct (pv_deleted (snd kv)); cbn [fst snd].
  - split; [apply nodup_map_set, cascade_upd_nodup, N1|].
    split; [apply keys_ok_map_set; [apply cascade_upd_keys_ok, K1 | reflexivity]|].
    split; [apply cascade_store_keys_ok, K2|]. unfold nodup. rewrite cascade_store_fst. exact N2.
  - split; [apply nodup_map_set, N1|]. split; [apply keys_ok_map_set; [exact K1 | reflexivity]|]. split; assumption.
Qed.

Lemma or_drop (A B C X : Prop) : ~ B -> ~ X -> ((A \/ (B \/ False)) \/ (C \/ X) <-> A \/ C).
Proof. tauto. Qed.

(* acc = (updated change values, store after the in-place mutation) once the change values l have been handled *)
Record adc_inv (idx : N) (V l : cfgmap) (acc : cfgmap * cfgmap) : Prop := {
  ai_nodup : nodup (fst acc);
  ai_upd_ok : keys_ok (fst acc);
  ai_st_ok : keys_ok (snd acc);
  ai_st_nd : nodup (snd acc);
  ai_st_dom : forall p, map_get p (snd acc) = None <-> map_get p V = None;
  ai_miss : forall p, map_get p (fst acc) = None -> map_get p (snd acc) = map_get p V;
  (* provenance: an entry is the request's own value or a stored value marked deleted at this index *)
  ai_prov : forall p u, map_get p (fst acc) = Some u -> In (p, u) l \/ (pv_deleted u = true /\ pv_index u = idx);
  (* own live values are there *)
  ai_own : forall p c, In (p, c) l -> pv_deleted c = false -> map_get p (fst acc) = Some c;
  (* exactly what the request names or cascades to is there *)
  ai_dom : forall p, map_get p (fst acc) <> None <-> In p (map fst l) \/ cascaded V l p
}.

Lemma adc_invariant idx V : keys_ok V -> nodup V ->
  forall l, keys_ok l -> nodup l -> no_overlap l ->
  adc_inv idx V l (fold_left (adc_step idx) l ([], V)).
Proof.
  intros KV NV l. induction l as [|[k c] l IH] using rev_ind; intros KL NL GL.
  - constructor; cbn; try assumption; try discriminate; try tauto.
    intros p. split; [congruence | intros [[]|(kd & d & [] & _)]].
  - rewrite fold_left_app. cbn [fold_left].
    assert (SL : incl l (l ++ [(k, c)])) by apply incl_appl, incl_refl.
    assert (Ek : k = pv_path c) by (apply KL, in_or_app; right; left; reflexivity).
    unfold nodup in NL. rewrite map_app in NL. cbn in NL.
    pose proof (NoDup_remove_2 _ _ _ NL) as Hk. apply NoDup_remove_1 in NL. rewrite app_nil_r in NL, Hk.
    assert (I : adc_inv idx V l (fold_left (adc_step idx) l ([], V))).
    { apply IH; [intros k1 v1 H1; apply KL, SL, H1 | exact NL|].
      intros k1 c1 kd d H1 H2. apply (GL k1 c1 kd d); apply SL; assumption. }
    set (acc := fold_left (adc_step idx) l ([], V)) in *. clearbody acc. clear IH.
    pose proof (fun p => adc_step_upd idx acc k c p (ai_st_ok _ _ _ _ I) (ai_st_nd _ _ _ _ I)) as FU.
    pose proof (fun p => adc_step_store idx acc k c p (ai_st_ok _ _ _ _ I)) as FS.
    destruct (adc_step_wf idx acc (k, c)) as (W1 & W2 & W3 & W4); try apply I.
    rewrite <- Ek in FU, FS.
    constructor; try assumption.
    + intros p. rewrite FS, <- (ai_st_dom _ _ _ _ I p). destruct (map_get p (snd acc)); cbn; split; congruence.
    + intros p H. rewrite FU in H. rewrite FS. deq p k; [discriminate|].
      destruct (map_get p (snd acc)) eqn:G; [destruct (pv_deleted c && is_path_below p k); [discriminate|]|];
        cbn [option_map]; rewrite <- G; apply (ai_miss _ _ _ _ I), H.
    + intros p u H. rewrite FU in H.
      deq p k; [injection H as <-; left; apply in_or_app; right; left; reflexivity|].
      destruct (map_get p (snd acc)); [destruct (pv_deleted c && is_path_below p k); [injection H as <-; right; split; reflexivity|]|];
        (destruct (ai_prov _ _ _ _ I p u H) as [HI|HD]; [left; apply SL, HI | right; exact HD]).
    + intros p c1 HI D1. rewrite FU.
      apply in_app_iff in HI as [HI|[[= <- <-]|[]]]; [|rewrite eqb_str_refl; reflexivity].
      deq p k; [destruct Hk; apply (in_map fst) in HI; exact HI|].
      rewrite (ai_own _ _ _ _ I p c1 HI D1).
      destruct (pv_deleted c) eqn:Dc; [|destruct (map_get p (snd acc)); reflexivity].
      (* an own live value is not below a delete of the request *)
      pose proof (GL p c1 k c (SL _ HI) (in_elt _ _ _) D1 Dc) as B.
      rewrite <- (KL p c1 (SL _ HI)), <- Ek in B. rewrite B. destruct (map_get p (snd acc)); reflexivity.
    + intros p. rewrite FU, map_app, in_app_iff, cascaded_snoc, <- Ek. cbn [map fst In].
      deq p k; [split; [intros _; left; right; left; reflexivity | discriminate]|].
      pose proof (ai_st_dom _ _ _ _ I p) as SD. pose proof (ai_dom _ _ _ _ I p) as D.
      destruct (map_get p (snd acc)); [destruct (pv_deleted c); [destruct (is_path_below p k)|]|]; cbn [andb].
      * split; [intros _; right; right; repeat split; intros HV; apply SD in HV; discriminate HV | discriminate].
      * rewrite or_drop; [exact D | congruence | intros (_ & H2 & _); discriminate H2].
      * rewrite or_drop; [exact D | congruence | intros (H1 & _); discriminate H1].
      * rewrite or_drop; [exact D | congruence | intros (_ & _ & H3); apply H3, SD; reflexivity].
Qed.

(* ------------------------------------------------------------------ the merge refines sequential gNMI (text level) *)
From Coq Require Import Permutation.

Definition cascadedb (V ch : cfgmap) (p : str) : bool :=
  existsb (fun kv => pv_deleted (snd kv) && is_path_below p (pv_path (snd kv))) ch && map_has p V.

Lemma cascadedb_spec V ch p : cascadedb V ch p = true <-> cascaded V ch p.
Proof.
  unfold cascadedb, cascaded, map_has. rewrite andb_true_iff, existsb_exists. split.
  - intros [[[kd d] [HI H]] HV]. cbn in H. apply andb_true_iff in H. destruct H as [H1 H2].
    exists kd, d. repeat split; try assumption. destruct (map_get p V); discriminate.
  - intros [kd [d [HI [H1 [H2 HV]]]]]. split.
    + exists (kd, d). split; [exact HI|]. cbn. rewrite H1, H2. reflexivity.
    + destruct (map_get p V); [reflexivity | congruence].
Qed.

(* effect of one change map on the live leaves, on textual paths: own update -> that value; own delete or a
   delete of an ancestor (strictly beneath, at a path element boundary) -> gone; everything else unchanged *)
Definition spec_live_fun (V ch : cfgmap) (p : str) : option str :=
  match map_get p ch with
  | Some c => live_of c
  | None => if cascadedb V ch p then None else live V p
  end.

Theorem merge_refines_eq idx V ch :
  keys_ok V -> nodup V -> keys_ok ch -> nodup ch -> no_overlap ch ->
  forall p, live (commit_merge idx ch V) p = spec_live_fun V ch p.
Proof.
  intros KV NV KC NC G p. unfold commit_merge. rewrite adc_unfold.
  pose proof (adc_invariant idx V KV NV ch KC NC G) as I.
  set (acc := fold_left (adc_step idx) ch ([], V)) in *.
  rewrite apply_all_live by apply I. unfold spec_live_fun.
  pose proof (ai_dom _ _ _ _ I p) as D.
  destruct (map_get p (fst acc)) as [u|] eqn:Gu.
  - (* an entry of the updated map: the request's own value, or a tombstone where the request has no live value *)
    destruct (ai_prov _ _ _ _ I p u Gu) as [HI|[Du _]]; [rewrite (map_get_in _ _ _ NC HI); reflexivity|].
    assert (LN : live_of u = None) by (unfold live_of; rewrite Du; reflexivity). rewrite LN.
    destruct (map_get p ch) as [c|] eqn:Gc.
    + destruct (pv_deleted c) eqn:Dc; [unfold live_of; rewrite Dc; reflexivity|].
      rewrite (ai_own _ _ _ _ I p c (map_get_some_in _ _ _ Gc) Dc) in Gu. congruence.
    + destruct (cascadedb V ch p) eqn:C; [reflexivity|].
      destruct (proj1 D) as [HK|HC]; [discriminate | apply map_get_in_keys in HK; contradiction|].
      apply cascadedb_spec in HC. congruence.
  - (* p is neither named nor cascaded to: the stored entry is as it was *)
    destruct (map_get p ch) as [c|] eqn:Gc.
    + destruct (proj2 D); [|reflexivity]. left. apply map_get_some_in, (in_map fst) in Gc. exact Gc.
    + destruct (cascadedb V ch p) eqn:C.
      * destruct (proj2 D); [|reflexivity]. right. apply cascadedb_spec, C.
      * unfold live. rewrite (ai_miss _ _ _ _ I p Gu). reflexivity.
Qed.

(* ------------------------------------------------------------------ order independence *)
Lemma map_get_none_notin p m : map_get p m = None -> ~ In p (map fst m).
Proof. intros H HI. apply map_get_in_keys in HI. congruence. Qed.

Lemma nodup_perm m m' : Permutation m m' -> nodup m -> nodup m'.
Proof. intros HP. apply Permutation_NoDup, Permutation_map, HP. Qed.

Lemma map_get_perm p m m' : nodup m -> Permutation m m' -> map_get p m = map_get p m'.
Proof.
  intros ND HP. destruct (map_get p m) as [v|] eqn:G; symmetry.
  - apply map_get_in; [apply (nodup_perm m), ND; exact HP|]. apply (Permutation_in _ HP), map_get_some_in, G.
  - apply map_get_notin. intros HI. apply (map_get_none_notin _ _ G).
    apply (Permutation_in _ (Permutation_sym (Permutation_map fst HP))), HI.
Qed.

(* neither the iteration order of the change map nor that of the stored map matters *)
Theorem merge_order_independent idx V V' ch ch' :
  keys_ok V -> nodup V -> keys_ok ch -> nodup ch -> no_overlap ch ->
  Permutation V V' -> Permutation ch ch' ->
  forall p, live (commit_merge idx ch' V') p = live (commit_merge idx ch V) p.
Proof.
  intros KV NV KC NC G PV PC p.
  assert (IV : incl V' V) by (intros x; apply Permutation_in, Permutation_sym, PV).
  assert (IC : incl ch' ch) by (intros x; apply Permutation_in, Permutation_sym, PC).
  rewrite (merge_refines_eq idx V ch KV NV KC NC G), (merge_refines_eq idx V' ch').
  - assert (EV : forall q, map_get q V' = map_get q V) by (intros q; symmetry; apply map_get_perm; assumption).
    unfold spec_live_fun, cascadedb, map_has, live. rewrite !EV, <- (map_get_perm p ch ch' NC PC).
    destruct (map_get p ch); [reflexivity|].
    replace (existsb _ ch') with (existsb (fun kv => pv_deleted (snd kv) && is_path_below p (pv_path (snd kv))) ch); [reflexivity|].
    apply eq_true_iff_eq. rewrite !existsb_exists.
    split; intros (x & HI & H); exists x; (split; [|exact H]); [apply (Permutation_in _ PC), HI | apply IC, HI].
  - intros k v HI. apply KV, IV, HI.
  - apply (nodup_perm V), NV. exact PV.
  - intros k v HI. apply KC, IC, HI.
  - apply (nodup_perm ch), NC. exact PC.
  - intros k c kd d H1 H2. apply (G k c kd d); apply IC; assumption.
Qed.
