(* Concrete witnesses (vm_compute) of where the faithful model violates property C03, and small general facts. *)
From Coq Require Import List NArith Bool Permutation String.
Local Open Scope string_scope.
From OC Require Import Base.Bytes Model.Merge Model.CfgStore Model.Wildcard Proofs.MergeProofs Proofs.TextPathProofs.
Import ListNotations.
Open Scope N_scope.
Open Scope list_scope.

Definition upd (p v : string) (i : N) : str * path_value := (B p, mkPV (B p) (B v) false i).
Definition del (p : string) (i : N) : str * path_value := (B p, mkPV (B p) [] true i).
Definition s0 : cfg_state := mkCfg [] [] [] [].

(* (i) REPAIRED (3126412): re-creation under a deleted ancestor: /a/b=1 ; delete /a ; /a/b=2 ; /x=3 ; a status
   update.  The re-created value stays readable and the tombstone of /a is gone from the stored map.  (The general
   statement is Proofs/CommitPreserve.v commit_store_refines, which has no guard about stored tombstones.) *)
Definition r1 := set_cycle s0 1 [upd "/a/b" "1" 1].
Definition r2 := set_cycle r1 2 [del "/a" 2].
Definition r3 := set_cycle r2 3 [upd "/a/b" "2" 3].
Definition r4 := set_cycle r3 4 [upd "/x" "3" 4].
Definition r5 := status_update r4.

Lemma recreate_kept_example :
  live (view_values r2) (B "/a/b") = None /\
  live (view_values r3) (B "/a/b") = Some (B "2") /\
  live (view_values r4) (B "/a/b") = Some (B "2") /\
  live (view_values r5) (B "/a/b") = Some (B "2") /\
  map_get (B "/a") (cs_map r3) = None.
Proof. repeat split; vm_compute; reflexivity. Qed.

(* the same below a key-less list name and below a leading subset of the keys of a two-key list *)
Definition q1 := set_cycle s0 1 [upd "/l[k=1]/v" "1" 1; upd "/m[k1=a][k2=b]/v" "1" 1].
Definition q2 := set_cycle q1 2 [del "/l" 2; del "/m[k1=a]" 2].
Definition q3 := set_cycle q2 3 [upd "/l[k=1]/v" "2" 3; upd "/m[k1=a][k2=c]/v" "2" 3].
Definition q4 := set_cycle q3 4 [upd "/x" "3" 4].
Lemma recreate_list_kept_example :
  live (view_values q2) (B "/l[k=1]/v") = None /\
  live (view_values q4) (B "/l[k=1]/v") = Some (B "2") /\
  live (view_values q4) (B "/m[k1=a][k2=c]/v") = Some (B "2") /\
  live (view_values q4) (B "/m[k1=a][k2=b]/v") = None.
Proof. repeat split; vm_compute; reflexivity. Qed.

(* (ii) delete of /a and update of /a/b in one request: the result depends on the iteration order *)
Definition ovV : cfgmap := [upd "/a/b" "1" 1].
Definition ov1 : cfgmap := [del "/a" 2; upd "/a/b" "3" 2].
Definition ov2 : cfgmap := [upd "/a/b" "3" 2; del "/a" 2].
Lemma overlap_order_refuted :
  Permutation ov1 ov2 /\
  live (commit_merge 2 ov1 ovV) (B "/a/b") <> live (commit_merge 2 ov2 ovV) (B "/a/b").
Proof. split; [apply perm_swap | vm_compute; discriminate]. Qed.

(* even in the favourable order the value is lost when the map is stored (the tombstone is applied last) *)
Lemma overlap_store_refuted :
  live (persist_commit ovV 2 ov1) (B "/a/b") = None.
Proof. vm_compute; reflexivity. Qed.

(* the same path deleted and updated in one request: computeChange keeps the delete (gNMI: delete, then update) *)
Lemma same_path_refuted :
  map_get (B "/x") (compute_change [(B "/x", B "2")] [B "/x"]) = Some (mkPV (B "/x") [] true 0).
Proof. vm_compute; reflexivity. Qed.

(* (iii) REPAIRED (6c3f66e): the applied values have their own Atomix map; recording the applied values of a
   lagging transaction does not touch the committed map - for every state, index and change *)
Lemma apply_keeps_committed s idx ch : cs_map (apply_update s idx ch) = cs_map s.
Proof. reflexivity. Qed.
Lemma status_keeps_committed s : cs_map (status_update s) = cs_map s.
Proof. reflexivity. Qed.

Definition a1 := commit_update s0 1 [upd "/x" "1" 1].
Definition a2 := commit_update (status_update a1) 2 [upd "/x" "2" 2].
Definition a3 := apply_update a2 1 [upd "/x" "1" 1].
Lemma alias_repaired_example :
  live (view_values a2) (B "/x") = Some (B "2") /\ live (view_values a3) (B "/x") = Some (B "2").
Proof. split; vm_compute; reflexivity. Qed.

(* a non-trivial input satisfying the hypotheses of merge_refines_eq *)
Definition exV : cfgmap := [upd "/a/b" "1" 1; upd "/a/bc" "2" 1; upd "/a/c/d" "3" 1; upd "/l[k=1]/v" "4" 1; del "/x" 1].
Definition exC : cfgmap := [del "/a/c" 2; upd "/a/b" "5" 2; del "/l" 2; upd "/x" "6" 2].
Definition keys_okb (m : cfgmap) := forallb (fun kv => eqb_str (fst kv) (pv_path (snd kv))) m.
Fixpoint nodupb (l : list str) := match l with [] => true | x :: l' => negb (existsb (eqb_str x) l') && nodupb l' end.
Definition no_overlapb (ch : cfgmap) :=
  forallb (fun c => forallb (fun d => pv_deleted (snd c) || negb (pv_deleted (snd d)) || negb (is_path_below (pv_path (snd c)) (pv_path (snd d)))) ch) ch.

Lemma keys_okb_ok m : keys_okb m = true -> keys_ok m.
Proof.
  unfold keys_okb, keys_ok. rewrite forallb_forall. intros H k v HI. specialize (H _ HI). cbn in H.
  apply eqb_str_eq in H. exact H.
Qed.

Lemma nodupb_ok l : nodupb l = true -> NoDup l.
Proof.
  induction l as [|x l IH]; cbn; intros H; [constructor|].
  apply andb_true_iff in H. destruct H as [H1 H2]. constructor; [|apply IH; exact H2].
  intros HI. apply negb_true_iff in H1. assert (E : existsb (eqb_str x) l = true).
  { apply existsb_exists. exists x. split; [exact HI | apply eqb_str_refl]. }
  congruence.
Qed.

Lemma no_overlapb_ok ch : no_overlapb ch = true -> no_overlap ch.
Proof.
  unfold no_overlapb, no_overlap. rewrite forallb_forall. intros H k c kd d H1 H2 D1 D2.
  specialize (H _ H1). rewrite forallb_forall in H. specialize (H _ H2). cbn in H.
  rewrite D1, D2 in H. cbn in H. apply negb_true_iff in H. exact H.
Qed.

Example merge_refines_example :
  keys_ok exV /\ nodup exV /\ keys_ok exC /\ nodup exC /\ no_overlap exC /\
  live (commit_merge 2 exC exV) (B "/a/b") = Some (B "5") /\
  live (commit_merge 2 exC exV) (B "/a/bc") = Some (B "2") /\
  live (commit_merge 2 exC exV) (B "/a/c/d") = None /\
  live (commit_merge 2 exC exV) (B "/l[k=1]/v") = None /\
  live (commit_merge 2 exC exV) (B "/x") = Some (B "6").
Proof.
  repeat split; try (apply keys_okb_ok; vm_compute; reflexivity); try (apply nodupb_ok; vm_compute; reflexivity);
    try (apply no_overlapb_ok; vm_compute; reflexivity); vm_compute; reflexivity.
Qed.

(* siblings whose names merely share a textual prefix are never "below" *)
Lemma sibling_not_below a c r :
  a <> [] -> a <> [c_slash] -> is_boundary c = false -> is_path_below (a ++ c :: r) a = false.
Proof. intros H1 H2 Hc. rewrite (below_app a c r (conj H1 H2)). exact Hc. Qed.

Lemma child_below a c r :
  a <> [] -> a <> [c_slash] -> is_boundary c = true -> is_path_below (a ++ c :: r) a = true.
Proof. intros H1 H2 Hc. rewrite (below_app a c r (conj H1 H2)). exact Hc. Qed.
