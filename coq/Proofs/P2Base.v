(* Shared proof infrastructure for the protocol model Model/Proto2.v:
   - frame lemmas: what each effect does to each store of the world,
   - the induction principle over reachable worlds,
   - prefix lemmas (a crash executes a prefix of an invocation's effects),
   - what the environment's steps leave alone ([step_cases], [step_txs]),
   - case lemmas for the scans of the transaction reconciler ([phase_scan_cases], [gate_cases]),
   - the tactic [destruct_matches] used to enumerate the branches of a reconciler. *)
From stdpp Require Import gmap.
From RecordUpdate Require Import RecordUpdate.
From Coq Require Import NArith Lia.
From OC Require Import Model.Proto2.
Open Scope N_scope.

Ltac destruct_matches :=
  repeat match goal with
         | |- context [match ?x with _ => _ end] =>
           match type of x with
           | sumbool _ _ => destruct x
           | _ => let E := fresh "E" in destruct x eqn:E
           end
         end.

(* turn the boolean guards collected by [destruct_matches] into propositions *)
Ltac bool_hyps :=
  repeat match goal with
         | H : _ && _ = true |- _ => apply andb_prop in H; destruct H
         | H : _ && _ = false |- _ => apply andb_false_iff in H; destruct H as [H|H]
         | H : negb _ = true |- _ => apply negb_true_iff in H
         | H : negb _ = false |- _ => apply negb_false_iff in H
         | H : (_ =? _) = true |- _ => apply N.eqb_eq in H
         | H : (_ =? _) = false |- _ => apply N.eqb_neq in H
         | H : (_ <? _) = true |- _ => apply N.ltb_lt in H
         | H : (_ <? _) = false |- _ => apply N.ltb_ge in H
         | H : (_ <=? _) = true |- _ => apply N.leb_le in H
         | H : (_ <=? _) = false |- _ => apply N.leb_gt in H
         | H : bool_decide _ = true |- _ => apply bool_decide_eq_true in H
         | H : bool_decide _ = false |- _ => apply bool_decide_eq_false in H
         | H : is_none ?x = true |- _ => destruct x eqn:?; [discriminate H|clear H]
         | H : is_none ?x = false |- _ => destruct x eqn:?; [clear H|discriminate H]
         end.

(* one goal per element of a concrete effect list; elements with another head constructor are dropped *)
Ltac in_cases H :=
  cbn [fst app In] in H;
  repeat match type of H with
         | _ \/ _ => destruct H as [H|H]; [try discriminate H|]
         | False => destruct H
         end.

Section Base.
  Context {V Ch Req D : Type}.
  Context (candidate : V -> Ch -> V) (candidate_rb : V -> Ch -> V) (rollback_of : V -> Ch -> Ch)
          (overlay : V -> V -> V) (commit_merge : N -> N -> V -> V -> Ch -> V)
          (payload : N -> V -> Ch -> option Req) (record_applied : N -> N -> V -> V -> V -> Ch -> V)
          (touched : N -> V -> Ch -> V) (restore : V -> V -> V)
          (resync_payload : V -> list (option Req)) (doc_ok : V -> bool)
          (dev_apply : D -> Req -> D) (stamp : N -> Ch -> Ch) (v_empty : V) (d_empty : D) (ch_empty : Ch).

  Notation world := (@world V Ch Req D).
  Notation eff := (@eff V Ch Req).
  Notation txn := (@txn Ch).
  Notation apply_eff := (@apply_eff V Ch Req D dev_apply d_empty).
  Notation step := (@step V Ch Req D candidate candidate_rb rollback_of overlay commit_merge payload record_applied
                          touched restore resync_payload doc_ok dev_apply stamp v_empty d_empty ch_empty).
  Notation run := (@run V Ch Req D candidate candidate_rb rollback_of overlay commit_merge payload record_applied
                        touched restore resync_payload doc_ok dev_apply stamp v_empty d_empty ch_empty).
  Notation reach := (@reach V Ch Req D candidate candidate_rb rollback_of overlay commit_merge payload record_applied
                            touched restore resync_payload doc_ok dev_apply stamp v_empty d_empty ch_empty).

  (* by cases on the effect and on the lookup or answer that its branch of [apply_eff] tests *)
  Ltac eff_cases e := destruct e as [| | | | | | | | | []]; cbn; repeat case_match; reflexivity.

  Lemma txs_apply_eff (w : world) (e : eff) :
    txs (apply_eff w e) = match e with EPutTx i T => <[i := T]> (txs w) | _ => txs w end.
  Proof. eff_cases e. Qed.

  Lemma props_apply_eff (w : world) (e : eff) :
    props (apply_eff w e) =
    match e with
    | ECreateProp k p => match props w !! k with Some _ => props w | None => <[k := p]> (props w) end
    | EPutProp k p => <[k := p]> (props w)
    | _ => props w
    end.
  Proof. eff_cases e. Qed.

  Lemma cfgs_apply_eff (w : world) (e : eff) :
    cfgs (apply_eff w e) =
    match e with
    | ECreateCfg t c => match cfgs w !! t with Some _ => cfgs w | None => <[t := c]> (cfgs w) end
    | EPutCfg t c => match cfgs w !! t with
                     | Some c0 => <[t := c <| c_values := c_values c0 |> <| c_avalues := c_avalues c0 |> ]> (cfgs w)
                     | None => cfgs w end
    | EPutValues t v => match cfgs w !! t with Some c0 => <[t := c0 <| c_values := v |> ]> (cfgs w) | None => cfgs w end
    | EPutAValues t v => match cfgs w !! t with Some c0 => <[t := c0 <| c_avalues := v |> ]> (cfgs w) | None => cfgs w end
    | _ => cfgs w
    end.
  Proof. eff_cases e. Qed.

  Lemma rels_apply_eff (w : world) (e : eff) :
    rels (apply_eff w e) =
    match e with
    | ERelCreate c t => match rels w !! c with Some _ => rels w | None => <[c := (t, true)]> (rels w) end
    | ERelDelete c => delete c (rels w)
    | _ => rels w
    end.
  Proof. eff_cases e. Qed.

  Lemma conns_apply_eff (w : world) (e : eff) : conns (apply_eff w e) = conns w.
  Proof. eff_cases e. Qed.

  Lemma targets_apply_eff (w : world) (e : eff) : targets (apply_eff w e) = targets w.
  Proof. eff_cases e. Qed.

  Lemma next_index_apply_eff (w : world) (e : eff) : next_index (apply_eff w e) = next_index w.
  Proof. eff_cases e. Qed.

  Lemma devlog_apply_eff (w : world) (e : eff) :
    devlog (apply_eff w e) = match e with EDev ev => devlog w ++ [ev] | _ => devlog w end.
  Proof. eff_cases e. Qed.

  Lemma reach_init : reach init.
  Proof. exists []. reflexivity. Qed.

  Lemma reach_step (w : world) l : reach w -> reach (step w l).
  Proof.
    intros [ls ->]. exists (ls ++ [l]). unfold Proto2.run. rewrite fold_left_app. reflexivity.
  Qed.

  Lemma reach_ind (I : world -> Prop) :
    I init -> (forall w l, reach w -> I w -> I (step w l)) -> forall w, reach w -> I w.
  Proof.
    intros Hi Hs w [ls ->]. induction ls as [|l ls IH] using rev_ind.
    - exact Hi.
    - unfold Proto2.run in *. rewrite fold_left_app. cbn. apply Hs; [|exact IH].
      exists ls. reflexivity.
  Qed.

  (* [I] survives every prefix of [effs] when each effect preserves it in the world it is applied to *)
  Fixpoint chain (I : world -> Prop) (w : world) (effs : list eff) : Prop :=
    match effs with
    | [] => True
    | e :: r => I (apply_eff w e) /\ chain I (apply_eff w e) r
    end.

  Lemma chain_prefix (I : world -> Prop) (effs : list eff) : forall (w : world) (k : nat),
    I w -> chain I w effs -> I (fold_left apply_eff (firstn k effs) w).
  Proof.
    induction effs as [|e r IH]; intros w k Hw Hc.
    - rewrite firstn_nil. exact Hw.
    - destruct k as [|k]; [exact Hw|]. cbn. destruct Hc as [He Hr]. apply IH; assumption.
  Qed.

  Lemma chain_app (I : world -> Prop) (a b : list eff) : forall (w : world),
    chain I w a -> chain I (fold_left apply_eff a w) b -> chain I w (a ++ b).
  Proof.
    induction a as [|e r IH]; intros w Ha Hb; cbn in *; [exact Hb|].
    destruct Ha as [He Hr]. split; [exact He|]. apply IH; assumption.
  Qed.
  Lemma chain_one (I : world -> Prop) (w : world) e : I (apply_eff w e) -> chain I w [e].
  Proof. intros H. split; [exact H|exact Logic.I]. Qed.

  Lemma prefix_rel (es : list eff) (R : world -> world -> Prop) :
    (forall w, R w w) -> (forall w e w', In e es -> R (apply_eff w e) w' -> R w w') ->
    forall (k : nat) w, R w (fold_left apply_eff (firstn k es) w).
  Proof.
    intros Hrefl. induction es as [|e r IH]; intros Hstep k w.
    - rewrite firstn_nil. apply Hrefl.
    - destruct k as [|k]; [apply Hrefl|]. cbn [firstn fold_left]. apply (Hstep _ e); [left; reflexivity|].
      apply IH. intros w0 e0 w' Hin. apply Hstep. right. exact Hin.
  Qed.

  Lemma step_cases (w : world) l :
    (exists c k o, l = LRec c k o) \/
    (cfgs (step w l) = cfgs w /\ props (step w l) = props w /\ devlog (step w l) = devlog w).
  Proof.
    destruct l as [| |c k o|c t| |c t| | |]; cbn [Proto2.step]; [| |left; eauto| | | | | |]; right;
      try destruct (conns w !! c); try destruct (rels w !! c); repeat split.
  Qed.

  (* only a reconcile invocation and the arrival of a new transaction touch the transaction store *)
  Lemma step_txs (w : world) l :
    (exists c n o, l = LRec c n o) \/ (txs (step w l) = txs w /\ next_index (step w l) = next_index w) \/
    exists T, t_init T = None /\ t_abort T = None /\
              txs (step w l) = <[next_index w := T]> (txs w) /\ next_index (step w l) = next_index w + 1.
  Proof.
    destruct l as [| |c n o|c t| |c t| | |]; cbn [Proto2.step];
      [right; right; eexists (new_txn _ _ _); cbn; auto..|left; eauto| | | | | |];
      try destruct (conns w !! c); try destruct (rels w !! c); auto.
  Qed.

  Lemma is_none_true {A} (o : option A) : is_none o = true -> o = None.
  Proof. destruct o; [discriminate|reflexivity]. Qed.

  Lemma scan_inr (w : world) i tg f t p :
    scan_props w i tg f = Some (inr (t, p)) -> In t tg /\ props w !! (t, i) = Some p /\ f p = true.
  Proof.
    induction tg as [|t0 ts IH]; cbn; [discriminate|].
    destruct (props w !! (t0, i)) as [p0|] eqn:Hp; [|discriminate].
    destruct (f p0) eqn:Hf.
    - intros [= <- <-]. auto.
    - intros H. destruct (IH H) as (A & B & C). auto.
  Qed.

  Lemma scan_props_inr (w : world) i tg f t p :
    scan_props w i tg f = Some (inr (t, p)) -> props w !! (t, i) = Some p /\ f p = true.
  Proof. intros H%scan_inr. exact (proj2 H). Qed.

  Lemma scan_inl (w : world) i tg f u :
    scan_props w i tg f = Some (inl u) -> exists t, In t tg /\ props w !! (t, i) = None.
  Proof.
    induction tg as [|t0 ts IH]; cbn; [discriminate|].
    destruct (props w !! (t0, i)) as [p|] eqn:E; [|eauto].
    destruct (f p); [discriminate|]. intros H. destruct (IH H) as (t & Hin & Hn). eauto.
  Qed.

  Lemma scan_none (w : world) i tg f :
    scan_props w i tg f = None -> forall t, In t tg -> exists p, props w !! (t, i) = Some p /\ f p = false.
  Proof.
    induction tg as [|t0 ts IH]; cbn; [intros _ t []|].
    destruct (props w !! (t0, i)) as [p0|] eqn:Hp; [|discriminate].
    destruct (f p0) eqn:Hf; [discriminate|].
    intros H t [<-|Hin]; eauto.
  Qed.

  Lemma all_props_true (w : world) i tg f :
    all_props w i tg f = Some true -> forall t, In t tg -> exists p, props w !! (t, i) = Some p /\ f p = true.
  Proof.
    unfold all_props. induction tg as [|t0 ts IH]; cbn [foldr]; [intros _ t []|].
    destruct (foldr _ _ ts) as [b|] eqn:Ha; [|discriminate].
    destruct (props w !! (t0, i)) as [p0|] eqn:Hp; [|discriminate].
    intros [= Hb]. apply andb_prop in Hb. destruct Hb as [-> Hf].
    intros t [<-|Hin]; eauto.
  Qed.

  (* the four outcomes of a phase scan, with what the scan has established in each *)
  Lemma phase_scan_cases (Q : list eff -> Prop) (w : world) i T tg get start stop on_failed on_all_done :
    Q [] ->
    (forall t p, In t tg -> props w !! (t, i) = Some p -> get p = None -> Q [EPutProp (t, i) (start p)]) ->
    (forall t p, In t tg -> props w !! (t, i) = Some p -> stop = true -> get p = Some Failed ->
       Q [EPutTx i (on_failed p)]) ->
    ((forall t, In t tg -> exists p, props w !! (t, i) = Some p /\
                                     (get p = Some Done \/ stop = false /\ get p = Some Failed)) ->
     Q [EPutTx i on_all_done]) ->
    Q (fst (phase_scan w i T tg get start stop on_failed on_all_done)).
  Proof.
    intros Hnil Hstart Hfail Hdone. unfold phase_scan.
    destruct (scan_props w i tg _) as [[u|[t p]]|] eqn:Hscan; [exact Hnil| |].
    - apply scan_inr in Hscan. destruct Hscan as (Hin & Hp & Hf).
      destruct (is_none (get p)) eqn:Hn; cbn [fst]; [apply is_none_true in Hn; auto|].
      cbn in Hf. apply andb_prop in Hf. destruct Hf as [Hs Hf]. apply bool_decide_eq_true in Hf. eauto.
    - destruct (all_props w i tg _) as [[|]|] eqn:Ha; cbn [fst default]; try exact Hnil. apply Hdone. intros t Hin.
      destruct (all_props_true _ _ _ _ Ha _ Hin) as (p & Hp & Hnd).
      destruct (scan_none _ _ _ _ Hscan _ Hin) as (p' & Hp' & Hnf). rewrite Hp in Hp'. injection Hp' as <-.
      exists p. split; [exact Hp|].
      apply negb_true_iff, bool_decide_eq_false in Hnd. apply orb_false_elim in Hnf. destruct Hnf as [Hnn Hnf].
      destruct (get p) as [[]|]; try discriminate Hnn; try congruence; auto.
      right. destruct stop; [|auto]. cbn in Hnf. apply bool_decide_eq_false in Hnf. congruence.
  Qed.

  Lemma gate_cases (Q : list eff -> Prop) (w : world) i (T : txn) tg need next r :
    Q [] -> Q [EPutTx i next] -> Q (fst (gate w i T tg need next r)).
  Proof.
    intros Hnil Hput. unfold gate. destruct (all_props w i tg _); [|exact Hnil].
    destruct (blocked_by_prev w i tg need); assumption.
  Qed.
End Base.
