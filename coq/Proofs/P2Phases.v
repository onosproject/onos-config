(* Phase invariants of the v2 protocol model (all schedules, all crash prefixes):
     - a transaction's phases are well formed (Validate needs Initialize done, Commit needs Validate done, Apply needs
       Commit done, Abort excludes Commit and Apply, Initialize is done only with a proposal list),
     - every phase of a proposal is backed by the same phase of its transaction,
   hence no transaction ever has one proposal committing and another aborting (C01). *)
From stdpp Require Import gmap.
From RecordUpdate Require Import RecordUpdate.
From Coq Require Import NArith Lia.
From OC Require Import Model.Proto2 Proofs.P2Base Proofs.P2_Cursor.
Open Scope N_scope.

Section Phases.
  Context {V Ch Req D : Type}.
  Context (candidate : V -> Ch -> V) (candidate_rb : V -> Ch -> V) (rollback_of : V -> Ch -> Ch)
          (overlay : V -> V -> V) (commit_merge : N -> N -> V -> V -> Ch -> V)
          (payload : N -> V -> Ch -> option Req) (record_applied : N -> N -> V -> V -> V -> Ch -> V)
          (touched : N -> V -> Ch -> V) (restore : V -> V -> V)
          (resync_payload : V -> list (option Req)) (doc_ok : V -> bool)
          (dev_apply : D -> Req -> D) (stamp : N -> Ch -> Ch) (v_empty : V) (d_empty : D) (ch_empty : Ch).

  Notation world := (@world V Ch Req D).
  Notation eff := (@eff V Ch Req).
  Notation txn := (@txn Ch).
  Notation prop := (@prop Ch).
  Notation apply_eff := (@apply_eff V Ch Req D dev_apply d_empty).
  Notation rec_tx := (@rec_tx V Ch Req D stamp).
  Notation rec_prop := (@rec_prop V Ch Req D candidate candidate_rb rollback_of overlay commit_merge payload record_applied
                                  touched restore doc_ok v_empty d_empty ch_empty).
  Notation reconcile := (@reconcile V Ch Req D candidate candidate_rb rollback_of overlay commit_merge payload record_applied
                                    touched restore resync_payload doc_ok stamp v_empty d_empty ch_empty).
  Notation step := (@step V Ch Req D candidate candidate_rb rollback_of overlay commit_merge payload record_applied
                          touched restore resync_payload doc_ok dev_apply stamp v_empty d_empty ch_empty).
  Notation reach := (@reach V Ch Req D candidate candidate_rb rollback_of overlay commit_merge payload record_applied
                            touched restore resync_payload doc_ok dev_apply stamp v_empty d_empty ch_empty).

  Definition some {A} (o : option A) : bool := negb (is_none o).
  Definition is_ph (o : option ph) (p : ph) : bool := bool_decide (o = Some p).
  Definition imp (a b : bool) : bool := negb a || b.

  (* a boolean, so that each instance is decided by computation ([twrite_wf], [rec_tx_J]) *)
  Definition wfb (i v c a ab : option ph) (noprops : bool) : bool :=
    imp (some v) (is_ph i Done) &&
    imp (some c) (is_ph v Done) &&
    imp (some a) (is_ph c Done) &&
    imp (some ab) (is_none c && is_none a) &&
    imp noprops (negb (is_ph i Done)).
  Definition tx_wf (T : txn) : Prop :=
    wfb (t_init T) (t_validate T) (t_commit T) (t_apply T) (t_abort T) (is_none (t_props T)) = true.

  Definition backed (tm : gmap N txn) (k : N * N) (P : prop) : Prop :=
    (is_Some (p_validate P) \/ is_Some (p_commit P) \/ is_Some (p_abort P) \/ is_Some (p_apply P) ->
     exists T, tm !! k.2 = Some T /\
               (is_Some (p_validate P) -> is_Some (t_validate T)) /\
               (is_Some (p_commit P) -> is_Some (t_commit T)) /\
               (is_Some (p_abort P) -> is_Some (t_abort T)) /\
               (is_Some (p_apply P) -> is_Some (t_apply T))).

  Record J (w : world) : Prop := {
    j_tx : forall i T, txs w !! i = Some T -> tx_wf T;
    j_back : forall k P, props w !! k = Some P -> backed (txs w) k P;
    j_fresh : forall i, next_index w <= i -> txs w !! i = None }.

  Definition growsb (v c ab a v' c' ab' a' : option ph) : bool :=
    imp (some v) (some v') && imp (some c) (some c') && imp (some ab) (some ab') && imp (some a) (some a').
  Definition tx_grows (T T' : txn) : Prop :=
    growsb (t_validate T) (t_commit T) (t_abort T) (t_apply T) (t_validate T') (t_commit T') (t_abort T') (t_apply T') = true.

  Lemma some_is_Some {A} (o : option A) : some o = true <-> is_Some o.
  Proof. destruct o; cbn; [split; eauto|split; [discriminate|intros [? [=]]]]. Qed.

  Lemma imp_true a b : imp a b = true -> a = true -> b = true.
  Proof. intros H ->. exact H. Qed.

  Lemma wfb_spec i v c a ab np : wfb i v c a ab np = true ->
    (is_Some v -> i = Some Done) /\ (is_Some c -> v = Some Done) /\ (is_Some a -> c = Some Done) /\
    (is_Some ab -> c = None /\ a = None) /\ (np = true -> i <> Some Done).
  Proof.
    unfold wfb, is_ph. intros H. repeat (apply andb_prop in H; destruct H as [H ?]).
    split; [|split; [|split; [|split]]]; try (intros Hs%some_is_Some; eapply bool_decide_eq_true, imp_true; eassumption).
    - intros Hs%some_is_Some. eapply imp_true, andb_prop in Hs as [Hc Ha]; [|eassumption].
      split; apply is_none_true; assumption.
    - intros Hn Hi. eapply imp_true in Hn; [|eassumption]. rewrite Hi in Hn. discriminate Hn.
  Qed.

  Lemma tx_grows_spec (T T' : txn) : tx_grows T T' ->
    (is_Some (t_validate T) -> is_Some (t_validate T')) /\
    (is_Some (t_commit T) -> is_Some (t_commit T')) /\
    (is_Some (t_abort T) -> is_Some (t_abort T')) /\
    (is_Some (t_apply T) -> is_Some (t_apply T')).
  Proof.
    unfold tx_grows, growsb. intros H. repeat (apply andb_prop in H; destruct H as [H ?]).
    repeat split; intros Hs%some_is_Some; eapply some_is_Some, imp_true; eassumption.
  Qed.

  Lemma backed_imp (tm : gmap N txn) t i (T : txn) (p : prop) :
    backed tm (t, i) p -> tm !! i = Some T ->
    (is_Some (p_validate p) -> is_Some (t_validate T)) /\ (is_Some (p_commit p) -> is_Some (t_commit T)) /\
    (is_Some (p_abort p) -> is_Some (t_abort T)) /\ (is_Some (p_apply p) -> is_Some (t_apply T)).
  Proof.
    intros Hb HT. repeat split; intros Hs; destruct Hb as (T0 & HT0 & B1 & B2 & B3 & B4); auto;
      cbn in HT0; rewrite HT in HT0; injection HT0 as <-; auto.
  Qed.

  Lemma backed_grows tm i T T' k P :
    tm !! i = Some T -> tx_grows T T' -> backed tm k P -> backed (<[i := T']> tm) k P.
  Proof.
    intros HT Hg Hb Hs. destruct (Hb Hs) as (T0 & HT0 & H1 & H2 & H3 & H4).
    destruct (decide (i = k.2)) as [->|Hne].
    - rewrite HT in HT0. injection HT0 as <-. exists T'. rewrite lookup_insert.
      destruct (tx_grows_spec _ _ Hg) as (G1 & G2 & G3 & G4). repeat split; auto.
    - exists T0. rewrite lookup_insert_ne by exact Hne. repeat split; auto.
  Qed.

  Lemma J_put_tx (w : world) i T T' :
    J w -> txs w !! i = Some T -> tx_wf T' -> tx_grows T T' -> J (apply_eff w (EPutTx i T')).
  Proof.
    intros [Htx Hb Hf] HT Hwf Hg. split; cbn.
    - intros j T0 [[<- <-]|[_ H]]%lookup_insert_Some; [exact Hwf|exact (Htx _ _ H)].
    - intros k P HP. eapply backed_grows; eauto.
    - intros j Hj. apply lookup_insert_None. split; [auto|]. intros <-. rewrite (Hf _ Hj) in HT. discriminate.
  Qed.

  Lemma J_put_prop (w : world) k P' :
    J w -> backed (txs w) k P' -> J (apply_eff w (EPutProp k P')).
  Proof.
    intros [Htx Hb Hf] Hb'. split; cbn; [exact Htx| |exact Hf].
    intros k0 P0 [[<- <-]|[_ H]]%lookup_insert_Some; [exact Hb'|exact (Hb _ _ H)].
  Qed.

  Lemma backed_none tm k (P : prop) :
    p_validate P = None -> p_commit P = None -> p_abort P = None -> p_apply P = None -> backed tm k P.
  Proof. intros H1 H2 H3 H4 Hs. rewrite H1, H2, H3, H4 in Hs. destruct Hs as [[? [=]]|[[? [=]]|[[? [=]]|[? [=]]]]]. Qed.

  Lemma J_create_prop (w : world) k P' :
    J w -> p_validate P' = None -> p_commit P' = None -> p_abort P' = None -> p_apply P' = None ->
    J (apply_eff w (ECreateProp k P')).
  Proof.
    intros HJ H1 H2 H3 H4. cbn. destruct (props w !! k) eqn:Hk; [exact HJ|].
    apply (J_put_prop w k P' HJ). apply backed_none; assumption.
  Qed.

  Definition tp_neutral (e : eff) : Prop :=
    match e with EPutTx _ _ | ECreateProp _ _ | EPutProp _ _ => False | _ => True end.

  Lemma J_env (w w' : world) :
    txs w' = txs w -> props w' = props w -> next_index w' = next_index w -> J w -> J w'.
  Proof. intros Ht Hp Hn [Htx Hb Hf]. split; rewrite ?Ht, ?Hp, ?Hn; assumption. Qed.

  Lemma neutral_stores (w : world) e : tp_neutral e -> txs (apply_eff w e) = txs w /\ props (apply_eff w e) = props w.
  Proof. intros Hn. rewrite txs_apply_eff, props_apply_eff. destruct e; try (split; reflexivity); destruct Hn. Qed.

  Lemma J_neutral (w : world) e : tp_neutral e -> J w -> J (apply_eff w e).
  Proof. intros [Ht Hp]%(neutral_stores w). apply J_env; [exact Ht|exact Hp|apply next_index_apply_eff]. Qed.

  Lemma backed_start (w : world) t i (T : txn) (P P' : prop) :
    txs w !! i = Some T -> backed (txs w) (t, i) P ->
    (is_Some (p_validate P') -> is_Some (p_validate P) \/ is_Some (t_validate T)) ->
    (is_Some (p_commit P') -> is_Some (p_commit P) \/ is_Some (t_commit T)) ->
    (is_Some (p_abort P') -> is_Some (p_abort P) \/ is_Some (t_abort T)) ->
    (is_Some (p_apply P') -> is_Some (p_apply P) \/ is_Some (t_apply T)) ->
    backed (txs w) (t, i) P'.
  Proof.
    intros HT Hb H1 H2 H3 H4 _. exists T. split; [exact HT|].
    destruct (backed_imp _ _ _ _ _ Hb HT) as (B1 & B2 & B3 & B4).
    repeat split; intros Hs; [destruct (H1 Hs)|destruct (H2 Hs)|destruct (H3 Hs)|destruct (H4 Hs)]; auto.
  Qed.

  Lemma backed_same (tm : gmap N txn) k (P P' : prop) :
    backed tm k P ->
    (is_Some (p_validate P') -> is_Some (p_validate P)) ->
    (is_Some (p_commit P') -> is_Some (p_commit P)) ->
    (is_Some (p_abort P') -> is_Some (p_abort P)) ->
    (is_Some (p_apply P') -> is_Some (p_apply P)) ->
    backed tm k P'.
  Proof.
    intros Hb H1 H2 H3 H4 Hs. destruct Hb as (T & HT & G1 & G2 & G3 & G4); [destruct Hs as [Hs|[Hs|[Hs|Hs]]]; auto|].
    exists T. repeat split; auto.
  Qed.

  Definition phases (T : txn) (i v c a ab : option ph) : Prop :=
    t_init T = i /\ t_validate T = v /\ t_commit T = c /\ t_apply T = a /\ t_abort T = ab.

  (* a phase is started on a proposal that does not have it, while the transaction is in that phase *)
  Inductive pstart (T : txn) (p : prop) : prop -> Prop :=
  | ps_validate : phases T (Some Done) (Some Doing) None None None -> p_validate p = None ->
      pstart T p (p <| p_validate := Some Doing |>)
  | ps_commit : phases T (Some Done) (Some Done) (Some Doing) None None -> p_commit p = None ->
      pstart T p (p <| p_commit := Some Doing |>)
  | ps_apply : phases T (Some Done) (Some Done) (Some Done) (Some Doing) None -> p_apply p = None ->
      pstart T p (p <| p_apply := Some Doing |>)
  | ps_abort : t_abort T = Some Doing -> t_commit T = None -> t_apply T = None -> p_abort p = None ->
      pstart T p (p <| p_abort := Some Doing |>).

  (* every listed proposal exists and has finished the phase [get]; [stop] says that a failure would have been
     acted upon before *)
  Definition all_done (w : world) (i : N) (T : txn) (get : prop -> option ph) (stop : bool) : Prop :=
    forall t, In t (default [] (t_props T)) ->
      exists p, props w !! (t, i) = Some p /\ (get p = Some Done \/ stop = false /\ get p = Some Failed).

  (* the overwrites of a transaction record that keep its details and its proposal list *)
  Inductive twrite (w : world) (i : N) (T : txn) : txn -> Prop :=
  | tw_init : phases T None None None None None -> twrite w i T (T <| t_init := Some Doing |>)
  | tw_init_fail f : phases T (Some Doing) None None None None ->
      twrite w i T (T <| t_state := TFailed |> <| t_failure := Some f |> <| t_abort := Some Doing |> <| t_init := Some Failed |>)
  | tw_init_done : phases T (Some Doing) None None None None -> is_Some (t_props T) -> all_done w i T p_init false ->
      twrite w i T (T <| t_init := Some Done |>)
  | tw_validate : phases T (Some Done) None None None None -> twrite w i T (T <| t_validate := Some Doing |>)
  | tw_validate_fail t p : phases T (Some Done) (Some Doing) None None None ->
      In t (default [] (t_props T)) -> props w !! (t, i) = Some p -> p_validate p = Some Failed ->
      twrite w i T (T <| t_state := TFailed |> <| t_failure := p_vfail p |> <| t_abort := Some Doing |> <| t_validate := Some Failed |>)
  | tw_validate_done : phases T (Some Done) (Some Doing) None None None -> all_done w i T p_validate true ->
      twrite w i T (T <| t_state := TValidated |> <| t_validate := Some Done |>)
  | tw_commit : phases T (Some Done) (Some Done) None None None -> twrite w i T (T <| t_commit := Some Doing |>)
  | tw_commit_done : phases T (Some Done) (Some Done) (Some Doing) None None -> all_done w i T p_commit false ->
      twrite w i T (T <| t_state := TCommitted |> <| t_commit := Some Done |>)
  | tw_apply : phases T (Some Done) (Some Done) (Some Done) None None -> twrite w i T (T <| t_apply := Some Doing |>)
  | tw_apply_fail t p : phases T (Some Done) (Some Done) (Some Done) (Some Doing) None ->
      In t (default [] (t_props T)) -> props w !! (t, i) = Some p -> p_apply p = Some Failed ->
      twrite w i T (T <| t_state := TFailed |> <| t_failure := p_afail p |> <| t_apply := Some Failed |>)
  | tw_apply_done : phases T (Some Done) (Some Done) (Some Done) (Some Doing) None -> all_done w i T p_apply true ->
      twrite w i T (T <| t_state := TApplied |> <| t_apply := Some Done |>)
  | tw_abort_done : t_abort T = Some Doing -> t_commit T = None -> t_apply T = None -> all_done w i T p_abort false ->
      twrite w i T (T <| t_abort := Some Done |>).

  (* One pass over the branches of [rec_tx].  The match gives the phases it tests; the earlier phases of a well-formed
     record follow from [wfb_spec]. *)
  Lemma rec_tx_cases (Q : list eff -> Prop) (w : world) i :
    (forall T, txs w !! i = Some T -> tx_wf T) ->
    Q [] ->
    (forall T t p P', txs w !! i = Some T -> In t (default [] (t_props T)) -> props w !! (t, i) = Some p ->
       pstart T p P' -> Q [EPutProp (t, i) P']) ->
    (forall T T', txs w !! i = Some T -> twrite w i T T' -> Q [EPutTx i T']) ->
    (forall T chs, txs w !! i = Some T -> phases T (Some Doing) None None None None -> t_props T = None ->
       t_details T = TChange chs ->
       let chs' := map (fun tc => match props w !! (fst tc, i) with
                                  | Some _ => tc
                                  | None => (fst tc, stamp i (snd tc)) end) chs in
       Q (create_props w i (map (fun tc => (fst tc, new_change_prop (snd tc))) chs')
            ++ [EPutTx i (T <| t_details := TChange chs' |> <| t_props := Some (map fst chs) |>)])) ->
    (forall T ri R chs, txs w !! i = Some T -> phases T (Some Doing) None None None None -> t_props T = None ->
       t_details T = TRollback ri -> txs w !! ri = Some R -> t_details R = TChange chs ->
       Q (create_props w i (map (fun tc => (fst tc, new_rollback_prop ri)) chs)
            ++ [EPutTx i (T <| t_props := Some (map fst chs) |>)])) ->
    Q (fst (rec_tx w i)).
  Proof.
    intros Hwf Hnil Hst Hwr Hch Hrb. unfold Proto2.rec_tx, Proto2.fail_init.
    destruct (txs w !! i) as [T|]; [|exact Hnil].
    destruct (wfb_spec _ _ _ _ _ _ (Hwf _ eq_refl)) as (S1 & S2 & S3 & S4 & S5).
    destruct (t_apply T) as [a|] eqn:Ea.
    { destruct a; try exact Hnil.
      assert (Ec : t_commit T = Some Done) by (apply S3; eauto).
      assert (Ev : t_validate T = Some Done) by (apply S2; rewrite Ec; eauto).
      assert (Ei : t_init T = Some Done) by (apply S1; rewrite Ev; eauto).
      assert (Eb : t_abort T = None) by (apply eq_None_not_Some; intros [_ [=]]%S4).
      assert (Hph : phases T (Some Done) (Some Done) (Some Done) (Some Doing) None) by (repeat split; assumption).
      destruct (scan_props w i _ (fun p => is_none (p_apply p))) as [[u|[t p]]|] eqn:Hsc; [exact Hnil| |].
      - apply scan_inr in Hsc. destruct Hsc as (Hin & Hp & Hf%is_none_true). eauto using ps_apply.
      - apply phase_scan_cases; [exact Hnil|eauto using ps_apply|eauto using tw_apply_fail|eauto using tw_apply_done]. }
    destruct (t_abort T) as [ab|] eqn:Eb.
    { destruct ab; try exact Hnil. destruct S4 as [Ec _]; [eauto|].
      apply phase_scan_cases; [exact Hnil|eauto using ps_abort|discriminate|eauto using tw_abort_done]. }
    destruct (t_commit T) as [c|] eqn:Ec.
    { assert (Ev : t_validate T = Some Done) by (apply S2; eauto).
      assert (Ei : t_init T = Some Done) by (apply S1; rewrite Ev; eauto).
      destruct c; try exact Hnil.
      - assert (Hph : phases T (Some Done) (Some Done) (Some Doing) None None) by (repeat split; assumption).
        apply phase_scan_cases; [exact Hnil|eauto using ps_commit|discriminate|eauto using tw_commit_done].
      - apply gate_cases; [exact Hnil|]. apply (Hwr T); [reflexivity|]. apply tw_apply. repeat split; assumption. }
    destruct (t_validate T) as [v|] eqn:Ev.
    { assert (Ei : t_init T = Some Done) by (apply S1; eauto).
      destruct v; try exact Hnil.
      - assert (Hph : phases T (Some Done) (Some Doing) None None None) by (repeat split; assumption).
        apply phase_scan_cases;
          [exact Hnil|eauto using ps_validate|eauto using tw_validate_fail|eauto using tw_validate_done].
      - apply gate_cases; [exact Hnil|]. apply (Hwr T); [reflexivity|]. apply tw_commit. repeat split; assumption. }
    destruct (t_init T) as [ini|] eqn:Ei.
    2:{ apply (Hwr T); [reflexivity|]. apply tw_init. repeat split; assumption. }
    destruct ini; try exact Hnil.
    - assert (Hph : phases T (Some Doing) None None None None) by (repeat split; assumption).
      destruct (match txs w !! (i - 1) with Some P => _ | None => false end); [exact Hnil|].
      destruct (t_props T) as [tg'|] eqn:Ep.
      + destruct (all_props w i tg' _) as [[|]|] eqn:Hall; try exact Hnil.
        apply (Hwr T); [reflexivity|]. apply tw_init_done; [exact Hph|rewrite Ep; eauto|].
        unfold all_done. rewrite Ep. intros t Hin. destruct (all_props_true _ _ _ _ Hall _ Hin) as (p & Hp & Hnd).
        exists p. split; [exact Hp|]. apply negb_true_iff, orb_false_elim in Hnd. destruct Hnd as [Hnn Hnd].
        apply bool_decide_eq_false in Hnd. destruct (p_init p) as [[]|]; try discriminate Hnn; try congruence; auto.
      + destruct (t_details T) as [chs|ri] eqn:Ed; [apply (Hch T); auto|].
        destruct (txs w !! ri) as [R|] eqn:HR; [|eauto using tw_init_fail].
        destruct (t_details R) as [chs|rj] eqn:EdR; [apply (Hrb T ri R); auto|eauto using tw_init_fail].
    - apply gate_cases; [exact Hnil|]. apply (Hwr T); [reflexivity|]. apply tw_validate. repeat split; assumption.
  Qed.

  Lemma pstart_backed (w : world) t i (T : txn) (p P' : prop) :
    txs w !! i = Some T -> backed (txs w) (t, i) p -> pstart T p P' -> backed (txs w) (t, i) P'.
  Proof.
    intros HT Hb Hs. apply (backed_start w t i T p P' HT Hb); destruct Hs; cbn; auto;
      intros _; right; repeat match goal with H : phases _ _ _ _ _ _ |- _ => destruct H as (? & ? & ? & ? & ?) end; eauto.
  Qed.

  Lemma twrite_wf (w : world) i (T T' : txn) : twrite w i T T' -> tx_wf T -> tx_wf T' /\ tx_grows T T'.
  Proof.
    unfold tx_wf, tx_grows. intros Htw Hwf. destruct Htw; cbn;
      repeat match goal with
             | H : phases _ _ _ _ _ _ |- _ => destruct H as (E1 & E2 & E3 & E4 & E5); rewrite E1, E2, E3, E4, E5 in *
             | H : is_Some _ |- _ => destruct H as [? E]; rewrite E in *
             | H : _ T = _ |- _ => rewrite H in *
             end; try (split; [exact Hwf|destruct (t_validate T) as [[]|]; reflexivity]);
      destruct (t_props T); try discriminate Hwf; split; reflexivity.
  Qed.

  Lemma create_props_J (i : N) (l : list (N * prop)) (w0 : world) T' (T : txn) :
    Forall (fun tp => p_validate tp.2 = None /\ p_commit tp.2 = None /\ p_abort tp.2 = None /\ p_apply tp.2 = None) l ->
    tx_wf T' -> tx_grows T T' ->
    forall w : world, J w -> txs w !! i = Some T ->
    chain dev_apply d_empty J w (create_props w0 i l ++ [EPutTx i T']).
  Proof.
    intros Hl Hw Hg. induction Hl as [|[t p] l (H1 & H2 & H3 & H4) _ IH]; intros w HJ HT.
    - apply chain_one. eapply J_put_tx; eauto.
    - cbn [create_props flat_map]. fold (create_props w0 i l).
      destruct (props w0 !! ((t, p).1, i)); cbn [app]; [apply IH; auto|].
      assert (HJ' : J (apply_eff w (ECreateProp ((t, p).1, i) (t, p).2))) by (apply J_create_prop; assumption).
      split; [exact HJ'|]. apply IH; auto. rewrite txs_apply_eff. exact HT.
  Qed.

  Lemma rec_tx_J (w : world) i : J w -> chain dev_apply d_empty J w (fst (rec_tx w i)).
  Proof.
    intros HJ. apply rec_tx_cases; [apply (j_tx _ HJ)|exact I|..].
    - intros T t p P' HT _ Hp Hs. apply chain_one, J_put_prop; [exact HJ|].
      eapply pstart_backed; eauto. eapply (j_back _ HJ); eauto.
    - intros T T' HT Htw. destruct (twrite_wf _ _ _ _ Htw (j_tx _ HJ _ _ HT)). apply chain_one. eapply J_put_tx; eauto.
    - intros T chs HT (Ei & Ev & Ec & Ea & Eb) _ _ chs'. apply (create_props_J i _ w _ T); auto.
      + apply Forall_map, Forall_true. intros tc. cbn. auto.
      + unfold tx_wf. cbn. rewrite Ei, Ev, Ec, Ea, Eb. reflexivity.
      + unfold tx_grows. cbn. rewrite Ev, Ec, Ea, Eb. reflexivity.
    - intros T ri R chs HT (Ei & Ev & Ec & Ea & Eb) _ _ _ _. apply (create_props_J i _ w _ T); auto.
      + apply Forall_map, Forall_true. intros tc. cbn. auto.
      + unfold tx_wf. cbn. rewrite Ei, Ev, Ec, Ea, Eb. reflexivity.
      + unfold tx_grows. cbn. rewrite Ev, Ec, Ea, Eb. reflexivity.
  Qed.

  Definition prop_ok (tm : gmap N txn) (e : eff) : Prop :=
    tp_neutral e \/ exists k P', e = EPutProp k P' /\ backed tm k P'.

  Lemma chain_props (effs : list eff) : forall w : world, J w -> Forall (prop_ok (txs w)) effs -> chain dev_apply d_empty J w effs.
  Proof.
    induction effs as [|e r IH]; intros w HJ Hf; [exact I|].
    inversion Hf as [|? ? He Hr]; subst. cbn.
    assert (HJ' : J (apply_eff w e)).
    { destruct He as [Hn|(k & P' & -> & Hb)]; [apply J_neutral; assumption|apply J_put_prop; assumption]. }
    split; [exact HJ'|]. apply IH; [exact HJ'|].
    assert (Ht : txs (apply_eff w e) = txs w).
    { destruct He as [Hn|(k & P' & -> & Hb)]; [apply neutral_stores; exact Hn|reflexivity]. }
    rewrite Ht. exact Hr.
  Qed.

  Lemma prop_write_backed (w : world) t i k (P P' : prop) tm : prop_write w t i k P P' -> backed tm k P -> backed tm k P'.
  Proof.
    intros Hpw Hb. destruct Hpw; apply (backed_same tm _ _ _ Hb); cbn; intros Hs; try exact Hs;
      repeat match goal with H : _ = Some _ |- _ => rewrite H end; eauto.
  Qed.

  Lemma rec_prop_J (o : oracle) (w : world) k : J w -> chain dev_apply d_empty J w (fst (rec_prop o w k)).
  Proof.
    intros HJ. apply chain_props; [exact HJ|]. apply List.Forall_forall. intros e He. destruct k as [t i].
    apply rec_prop_eff in He. destruct He as [| | | | |k P P' HP Hpw]; try (left; exact I).
    right. exists k, P'. split; [reflexivity|]. eapply prop_write_backed; [exact Hpw|]. exact (j_back _ HJ _ _ HP).
  Qed.

  Lemma neutral_chain (effs : list eff) (w : world) : J w -> Forall tp_neutral effs -> chain dev_apply d_empty J w effs.
  Proof.
    intros HJ Hf. apply chain_props; [exact HJ|]. eapply Forall_impl; [exact Hf|]. intros e He. left. exact He.
  Qed.

  Lemma side_neutral e : cfg_side e -> tp_neutral e.
  Proof. destruct e; cbn; auto. Qed.

  Lemma J_new_tx (w : world) (T : txn) :
    J w -> tx_wf T ->
    J (w <| txs := <[next_index w := T]> (txs w) |> <| next_index := next_index w + 1 |>).
  Proof.
    intros [Htx Hb Hf] Hwf. split; cbn.
    - intros j T0 [[<- <-]|[_ H]]%lookup_insert_Some; [exact Hwf|exact (Htx _ _ H)].
    - intros k P HP Hs. destruct (Hb k P HP Hs) as (T0 & HT0 & Hr). exists T0. split; [|exact Hr].
      rewrite lookup_insert_ne; [exact HT0|]. intros He. rewrite <- He, Hf in HT0 by lia. discriminate.
    - intros j Hj. rewrite lookup_insert_ne by lia. apply Hf. lia.
  Qed.

  Lemma step_J (w : world) l : J w -> J (step w l).
  Proof.
    intros HJ. destruct l as [chs sy se|ri|c k o|c t|c|c t|t p|t|t]; cbn [Proto2.step].
    1,2: apply J_new_tx; [exact HJ|reflexivity].
    1: { apply chain_prefix; [exact HJ|]. destruct c as [i|kk|t|t|cc]; cbn [Proto2.reconcile].
         - apply rec_tx_J. exact HJ.
         - apply rec_prop_J. exact HJ.
         - apply neutral_chain; [exact HJ|]. eapply Forall_impl; [apply rec_cfg_side|apply side_neutral].
         - apply neutral_chain; [exact HJ|]. eapply Forall_impl; [apply rec_master_side|apply side_neutral].
         - apply neutral_chain; [exact HJ|]. eapply Forall_impl; [apply rec_conn_side|apply side_neutral]. }
    (* the labels of the environment leave the stores of J alone *)
    all: try (destruct (conns w !! c); [exact HJ|]); try (destruct (rels w !! c); [exact HJ|]).
    all: eapply J_env; [..|exact HJ]; reflexivity.
  Qed.

  Lemma J_init : J (@init V Ch Req D).
  Proof.
    split; cbn.
    - intros i T H. rewrite lookup_empty in H. discriminate.
    - intros k P H. rewrite lookup_empty in H. discriminate.
    - intros i _. apply lookup_empty.
  Qed.

  Theorem J_reach (w : world) : reach w -> J w.
  Proof.
    apply (reach_ind candidate candidate_rb rollback_of overlay commit_merge payload record_applied touched restore
                     resync_payload doc_ok dev_apply stamp v_empty d_empty ch_empty J).
    - exact J_init.
    - intros w0 l _ HJ. apply step_J. exact HJ.
  Qed.

  (* C01: no transaction ever has a proposal in its Commit phase and another one in its Abort phase *)
  Theorem no_mixed_commit_abort (w : world) i t t' (P Q : prop) :
    reach w -> props w !! (t, i) = Some P -> props w !! (t', i) = Some Q ->
    ~ (is_Some (p_commit P) /\ is_Some (p_abort Q)).
  Proof.
    intros Hr HP HQ [Hc Ha]. pose proof (J_reach w Hr) as HJ.
    destruct (j_back _ HJ _ _ HP) as (T & HT & _ & Hc' & _); [tauto|].
    destruct (j_back _ HJ _ _ HQ) as (T' & HT' & _ & _ & Ha' & _); [tauto|].
    cbn in HT, HT'. rewrite HT in HT'. injection HT' as <-.
    pose proof (j_tx _ HJ _ _ HT) as Hwf. unfold tx_wf, wfb, imp in Hwf.
    apply some_is_Some in Hc'; [|exact Hc]. apply some_is_Some in Ha'; [|exact Ha].
    unfold some in *. destruct (t_commit T), (t_abort T); cbn in *; try discriminate.
    repeat (apply andb_prop in Hwf; destruct Hwf as [Hwf ?]). discriminate.
  Qed.
End Phases.
