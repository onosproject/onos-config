(* C04, concrete pure layer: basic facts about the association lists, paths, Go-map orders and sorting of
   Model/P2Pure.v, for ALL values.  Stdlib only. *)
From Coq Require Import List PeanoNat NArith Bool Lia Permutation Sorted.
From OC Require Import Base.Bytes Model.P2Pure Proofs.P2PureApplyDefs.
Import ListNotations.
Open Scope N_scope.

Ltac deq a b :=
  let E := fresh "E" in
  destruct (eqb_str a b) eqn:E; [apply eqb_str_eq in E | apply eqb_str_neq in E].

(* an invariant of a left fold that may speak of the part of the list already consumed *)
Lemma fold_left_prefix {A B} (f : A -> B -> A) (I : list B -> A -> Prop) l :
  (forall l1 x l2 a, l = l1 ++ x :: l2 -> I l1 a -> I (l1 ++ [x]) (f a x)) -> forall a, I [] a -> I l (fold_left f l a).
Proof.
  intros Hstep. enough (H : forall l2 l1 a, l = l1 ++ l2 -> I l1 a -> I l (fold_left f l2 a)) by (intros a; apply (H l []); reflexivity).
  induction l2 as [|x l2 IH]; intros l1 a Hl Ha; cbn [fold_left].
  - rewrite app_nil_r in Hl. subst l1. exact Ha.
  - apply (IH (l1 ++ [x])); [rewrite <- app_assoc; exact Hl|exact (Hstep l1 x l2 a Hl Ha)].
Qed.

(** * Association lists *)
Definition ND (m : cmap) : Prop := NoDup (map fst m).

Lemma nodup_keys_ND m : nodup_keys m = true <-> ND m.
Proof.
  unfold ND. induction m as [|[k v] m IH]; cbn; [split; [constructor|reflexivity]|].
  rewrite andb_true_iff, negb_true_iff, IH, NoDup_cons_iff, <- not_true_iff_false.
  assert (existsb (fun kv => eqb_str k (fst kv)) m = true <-> In k (map fst m)) as ->; [|reflexivity].
  rewrite existsb_exists, in_map_iff. split; intros ([k' v'] & H1 & H2); exists (k', v'); cbn in *.
  - apply eqb_str_eq in H2. auto.
  - subst k'. split; [exact H2|apply eqb_str_refl].
Qed.

Lemma lookup_in k v m : lookup k m = Some v -> In (k, v) m.
Proof.
  induction m as [|[k0 v0] m IH]; cbn; [discriminate|]. deq k k0.
  - intros [= ->]. left. subst. reflexivity.
  - intros H. right. auto.
Qed.

Lemma lookup_none k m : lookup k m = None <-> ~ In k (map fst m).
Proof.
  induction m as [|[k0 v0] m IH]; cbn; [tauto|]. deq k k0.
  - split; [discriminate|]. intros H. exfalso. apply H. left. auto.
  - rewrite IH. split; [intros H [H1|H1]; [congruence|auto]|tauto].
Qed.

Lemma ND_cons k v m : ND ((k, v) :: m) <-> lookup k m = None /\ ND m.
Proof. unfold ND. cbn. rewrite NoDup_cons_iff, lookup_none. tauto. Qed.

Lemma lookup_some_key k v m : lookup k m = Some v -> In k (map fst m).
Proof. intros H. apply lookup_in in H. apply in_map_iff. exists (k, v). auto. Qed.

Lemma in_lookup k v m : ND m -> In (k, v) m -> lookup k m = Some v.
Proof.
  induction m as [|[k0 v0] m IH]; cbn; [tauto|]. intros Hn. apply ND_cons in Hn. destruct Hn as [Hnot Hnd].
  intros [[= -> ->]|Hin].
  - rewrite eqb_str_refl. reflexivity.
  - deq k k0; [|auto]. subst k0. rewrite (IH Hnd Hin) in Hnot. discriminate.
Qed.

Lemma key_lookup k m : In k (map fst m) -> exists v, lookup k m = Some v.
Proof. intros H. destruct (lookup k m) eqn:E; [eauto|]. apply lookup_none in E. contradiction. Qed.

Lemma lookup_map_repl k' k (v : pv) (m : cmap) :
  lookup k' (map (fun kv => if eqb_str k (fst kv) then (k, v) else kv) m) =
  if eqb_str k' k then match lookup k m with Some _ => Some v | None => None end else lookup k' m.
Proof.
  induction m as [|[k0 v0] m IH]; cbn; [destruct (eqb_str k' k); reflexivity|].
  deq k k0; cbn.
  - subst k0. rewrite IH. destruct (eqb_str k' k); reflexivity.
  - rewrite IH. deq k' k0; [|reflexivity]. subst k0. deq k' k; [congruence|reflexivity].
Qed.

Lemma lookup_app k m1 m2 : lookup k (m1 ++ m2) = match lookup k m1 with Some v => Some v | None => lookup k m2 end.
Proof. induction m1 as [|[k0 v0] m1 IH]; cbn; [reflexivity|]. destruct (eqb_str k k0); auto. Qed.

Lemma lookup_insert k' k v m : lookup k' (insert k v m) = if eqb_str k' k then Some v else lookup k' m.
Proof.
  unfold insert. destruct (lookup k m) eqn:E.
  - rewrite lookup_map_repl, E. reflexivity.
  - rewrite lookup_app. cbn. deq k' k.
    + subst. rewrite E. reflexivity.
    + destruct (lookup k' m); reflexivity.
Qed.

Lemma keys_map_repl k (v : pv) (m : cmap) : map fst (map (fun kv => if eqb_str k (fst kv) then (k, v) else kv) m) = map fst m.
Proof.
  induction m as [|[k0 v0] m IH]; cbn; [reflexivity|]. rewrite IH. deq k k0; cbn; congruence.
Qed.

Lemma keys_insert k v m x : In x (map fst (insert k v m)) <-> x = k \/ In x (map fst m).
Proof.
  unfold insert. destruct (lookup k m) eqn:E.
  - rewrite keys_map_repl. split; [auto|]. intros [->|H]; [eapply lookup_some_key; eauto|exact H].
  - rewrite map_app, in_app_iff. cbn. split; [intros [H|[H|[]]]; auto|intros [H|H]; auto].
Qed.

Lemma ND_insert k v m : ND m -> ND (insert k v m).
Proof.
  unfold ND, insert. intros Hn. destruct (lookup k m) eqn:E.
  - rewrite keys_map_repl. exact Hn.
  - rewrite map_app. cbn. apply lookup_none in E.
    apply (Permutation_NoDup (l := k :: map fst m)); [apply Permutation_cons_append|]. constructor; assumption.
Qed.

Lemma In_insert x k v m : In x (insert k v m) -> x = (k, v) \/ In x m.
Proof.
  unfold insert. destruct (lookup k m).
  - intros H. apply in_map_iff in H. destruct H as (y & <- & Hy). destruct (eqb_str k (fst y)); auto.
  - intros H. apply in_app_iff in H. destruct H as [H|[H|[]]]; auto.
Qed.

Lemma In_remove x k m : In x (remove k m) -> In x m.
Proof.
  induction m as [|[k0 v0] m IH]; cbn; [tauto|]. deq k k0; cbn; [auto|]. intros [H|H]; auto.
Qed.

Lemma lookup_remove k' k m : ND m -> lookup k' (remove k m) = if eqb_str k' k then None else lookup k' m.
Proof.
  induction m as [|[k0 v0] m IH]; cbn; [destruct (eqb_str k' k); reflexivity|].
  intros Hn. apply ND_cons in Hn. destruct Hn as [Hnot Hnd]. deq k k0; cbn.
  - subst k0. deq k' k; [subst k'; exact Hnot|reflexivity].
  - rewrite (IH Hnd). deq k' k0; [|reflexivity]. subst k0. deq k' k; [congruence|reflexivity].
Qed.

Lemma ND_remove k m : ND m -> ND (remove k m).
Proof.
  induction m as [|[k0 v0] m IH]; cbn; [auto|]. intros Hn. apply ND_cons in Hn. destruct Hn as [Hnot Hnd].
  deq k k0; cbn; [exact Hnd|]. apply ND_cons. split; [|auto]. rewrite (lookup_remove k0 k m Hnd), Hnot.
  destruct (eqb_str k0 k); reflexivity.
Qed.

(* key = path, proper *)
Definition KO (m : cmap) : Prop := forall k v, In (k, v) m -> k = pv_path v /\ proper k = true.

Lemma keys_ok_KO m : keys_ok m = true <-> KO m.
Proof.
  unfold keys_ok, KO. rewrite forallb_forall. split.
  - intros H k v Hin. specialize (H _ Hin). cbn in H. apply andb_true_iff in H. destruct H as [H1 H2].
    apply eqb_str_eq in H1. auto.
  - intros H [k v] Hin. destruct (H _ _ Hin) as [H1 H2]. cbn. rewrite H2, <- H1, eqb_str_refl. reflexivity.
Qed.

Definition WF (m : cmap) : Prop := ND m /\ KO m.
Lemma wfk_WF m : wfk m = true <-> WF m.
Proof. unfold wfk, WF. rewrite andb_true_iff, nodup_keys_ND, keys_ok_KO. tauto. Qed.

Lemma KO_lookup m k v : KO m -> lookup k m = Some v -> pv_path v = k /\ proper k = true.
Proof. intros H E. apply lookup_in in E. destruct (H _ _ E). split; congruence. Qed.

Lemma KO_insert k v m : KO m -> k = pv_path v -> proper k = true -> KO (insert k v m).
Proof. intros H E P k' v' Hin. apply In_insert in Hin. destruct Hin as [[= -> ->]|Hin]; [auto|apply H; exact Hin]. Qed.

Lemma KO_remove k m : KO m -> KO (remove k m).
Proof. intros H k' v' Hin. apply H. eapply In_remove; eauto. Qed.

Lemma WF_nil : WF [].
Proof. split; [constructor|intros k v []]. Qed.

(** * Paths *)
Definition bnd (c : N) : bool := (c =? c_slash) || (c =? c_lbr).
(* [p] lies strictly beneath [a], at an element boundary *)
Definition Below (p a : str) : Prop := exists c r, bnd c = true /\ p = a ++ c :: r.

Lemma proper_ne a : proper a = true -> a <> [] /\ a <> [c_slash].
Proof.
  unfold proper. rewrite andb_true_iff, !negb_true_iff, !eqb_str_neq. tauto.
Qed.

Lemma below_spec p a : proper a = true -> (is_path_below p a = true <-> Below p a).
Proof.
  intros Hp. destruct (proper_ne _ Hp) as [H1 H2]. unfold is_path_below.
  apply eqb_str_neq in H1. apply eqb_str_neq in H2. rewrite H1, H2. cbn [orb]. split.
  - intros H. apply andb_true_iff in H. destruct H as [H Hc]. apply andb_true_iff in H. destruct H as [Hl Hpre].
    apply prefixb_spec in Hpre. destruct Hpre as [s ->].
    rewrite nth_error_app2 in Hc by lia. rewrite Nat.sub_diag in Hc. destruct s as [|c r]; [discriminate Hc|].
    exists c, r. split; [exact Hc|reflexivity].
  - intros (c & r & Hc & ->). rewrite prefixb_app, nth_error_app2 by lia. rewrite Nat.sub_diag. cbn [nth_error].
    unfold bnd in Hc. rewrite Hc, andb_true_r, andb_true_r. apply N.ltb_lt. rewrite app_length. cbn. lia.
Qed.

Lemma Below_trans p a b : Below p a -> Below a b -> Below p b.
Proof.
  intros (c & r & Hc & ->) (c' & r' & Hc' & ->). exists c', (r' ++ c :: r). split; [exact Hc'|].
  rewrite <- app_assoc. reflexivity.
Qed.

Lemma Below_len p a : Below p a -> (length a < length p)%nat.
Proof. intros (c & r & _ & ->). rewrite app_length. cbn. lia. Qed.

Lemma Below_irrefl a : ~ Below a a.
Proof. intros H. apply Below_len in H. lia. Qed.

Lemma Below_cmp p a b : Below p a -> Below p b -> a = b \/ Below a b \/ Below b a.
Proof.
  intros (c & r & Hc & ->) (c' & r' & Hc' & E). apply app_eq_app in E. destruct E as (l & [[E1 E2]|[E1 E2]]).
  - destruct l as [|x l]; [left; rewrite app_nil_r in E1; exact E1|]. right. left.
    cbn in E2. injection E2 as E2 _. subst x. exists c', l. auto.
  - destruct l as [|x l]; [left; rewrite app_nil_r in E1; auto|]. right. right.
    cbn in E2. injection E2 as E2 _. subst x. exists c, l. auto.
Qed.

Lemma Below_proper p a : Below p a -> a <> [] -> proper p = true.
Proof.
  intros (c & r & _ & ->) Hne. unfold proper. rewrite andb_true_iff, !negb_true_iff, !eqb_str_neq.
  destruct a as [|x a]; [contradiction|]. split; [discriminate|]. destruct a; discriminate.
Qed.

Lemma bp_S i p : boundary_prefixes (S i) p =
  match i with
  | O => []
  | _ => match nth_error p i with
         | Some c => if bnd c then firstn i p :: boundary_prefixes i p else boundary_prefixes i p
         | None => boundary_prefixes i p
         end
  end.
Proof. reflexivity. Qed.

Lemma bp_in n p a :
  In a (boundary_prefixes n p) <->
  exists i c, (1 <= i < n)%nat /\ nth_error p i = Some c /\ bnd c = true /\ a = firstn i p.
Proof.
  induction n as [|i IH]; [cbn; split; [intros []|intros (i & c & H & _); lia]|].
  rewrite bp_S. destruct i as [|i']; [split; [intros []|intros (i & c & H & _); lia]|]. remember (S i') as i eqn:Ei.
  transitivity ((exists c, nth_error p i = Some c /\ bnd c = true /\ a = firstn i p) \/ In a (boundary_prefixes i p)).
  - destruct (nth_error p i) as [c|]; [destruct (bnd c) eqn:Eb|]; cbn [In].
    + split; [intros [<-|H]; eauto|intros [(c0 & [= <-] & _ & ->)|H]; auto].
    + split; [auto|intros [(c0 & [= <-] & Hb & _)|H]; [congruence|exact H]].
    + split; [auto|intros [(c0 & Hc & _)|H]; [discriminate|exact H]].
  - rewrite IH. split.
    + intros [(c & H)|(j & c & Hj & H)]; [exists i, c|exists j, c]; (split; [lia|exact H]).
    + intros (j & c & Hj & H). destruct (Nat.eq_dec j i) as [->|Hne]; [left; exists c; exact H|].
      right. exists j, c. split; [lia|exact H].
Qed.

Lemma ancestors_spec p a : In a (ancestors p) <-> a <> [] /\ Below p a.
Proof.
  unfold ancestors. rewrite bp_in. split.
  - intros (i & c & Hi & Hn & Hb & ->). apply nth_error_split in Hn. destruct Hn as (l1 & l2 & -> & Hl).
    rewrite firstn_app, Hl, Nat.sub_diag. cbn [firstn]. rewrite app_nil_r. rewrite <- Hl, firstn_all. split.
    + destruct l1; [cbn in Hl; lia|discriminate].
    + exists c, l2. auto.
  - intros (Hne & c & r & Hb & ->). exists (length a), c. split.
    + rewrite app_length. cbn. destruct a; [contradiction|cbn; lia].
    + split; [rewrite nth_error_app2, Nat.sub_diag by lia; reflexivity|]. split; [exact Hb|].
      rewrite firstn_app, Nat.sub_diag, firstn_all. cbn. rewrite app_nil_r. reflexivity.
Qed.

Lemma ancestors_below p a : proper a = true -> (In a (ancestors p) <-> is_path_below p a = true).
Proof.
  intros Hp. rewrite ancestors_spec, (below_spec _ _ Hp). destruct (proper_ne _ Hp). tauto.
Qed.

Lemma existsb_eqb_in k A : existsb (eqb_str k) A = true <-> In k A.
Proof.
  rewrite existsb_exists. split; [intros (x & Hx & E); apply eqb_str_eq in E; subst; exact Hx|].
  intros H. exists k. split; [exact H|apply eqb_str_refl].
Qed.

Lemma existsb_ancestors p a : proper a = true -> existsb (eqb_str a) (ancestors p) = is_path_below p a.
Proof. intros Hp. apply eq_true_iff_eq. rewrite existsb_eqb_in. apply ancestors_below. exact Hp. Qed.

Lemma is_path_below_trans p a b :
  proper a = true -> proper b = true -> is_path_below p a = true -> is_path_below a b = true -> is_path_below p b = true.
Proof. intros Ha Hb. rewrite !below_spec by assumption. apply Below_trans. Qed.

Lemma below_deleted_spec p dels :
  (forall d, In d dels -> proper d = true) -> below_deleted p dels = existsb (fun d => is_path_below p d) dels.
Proof.
  intros H. unfold below_deleted.
  assert (E1 : existsb (fun d => eqb_str d [c_slash] || eqb_str d []) dels = false).
  { destruct (existsb _ dels) eqn:E; [|reflexivity]. apply existsb_exists in E. destruct E as (d & Hd & E).
    destruct (proper_ne _ (H _ Hd)) as [H1 H2]. apply eqb_str_neq in H1. apply eqb_str_neq in H2. rewrite H1, H2 in E. discriminate. }
  rewrite E1, andb_false_r. cbn [orb]. clear E1. induction dels as [|d dels IH]; cbn; [reflexivity|].
  rewrite IH by (intros; apply H; right; assumption). f_equal.
  destruct (proper_ne _ (H d (or_introl eq_refl))) as [H1 H2]. apply eqb_str_neq in H1. apply eqb_str_neq in H2.
  rewrite H1, H2. reflexivity.
Qed.

(** * Go map orders: [permute] is a permutation *)
Lemma take_nth_perm {A} (n : nat) (l : list A) x r : take_nth n l = Some (x, r) -> Permutation l (x :: r).
Proof.
  revert n x r. induction l as [|y l IH]; intros n x r; [destruct n; discriminate|]. destruct n as [|n]; cbn.
  - intros [= -> ->]. reflexivity.
  - destruct (take_nth n l) as [[z r']|] eqn:E; [|discriminate]. intros [= -> <-].
    rewrite (IH _ _ _ E). apply perm_swap.
Qed.

Lemma permute_fuel_perm {A} (f : nat) : forall (n : N) (l : list A), Permutation (permute_fuel f n l) l.
Proof.
  induction f as [|f IH]; intros n l; cbn; [reflexivity|]. destruct l as [|y l]; [reflexivity|].
  destruct (take_nth _ (y :: l)) as [[x r]|] eqn:E; [|reflexivity].
  apply take_nth_perm in E. apply Permutation_sym in E. eapply perm_trans; [|exact E]. constructor. apply IH.
Qed.

Lemma permute_perm {A} (n : N) (l : list A) : Permutation (permute n l) l.
Proof. apply permute_fuel_perm. Qed.

(** * Sorting by a string key: the insertion sort of Base/Bytes.v under [ltb_str] on the keys *)
Section KSort.
  Context {A : Type} (key : A -> str).
  Definition kltb (a b : A) : bool := ltb_str (key a) (key b).
  Definition klt (a b : A) : Prop := ltb_str (key a) (key b) = true.

  Lemma insert_sorted_klt x l :
    StronglySorted klt l -> (forall y, In y l -> key y <> key x) -> StronglySorted klt (Bytes.insert_sorted kltb x l).
  Proof.
    induction l as [|y l IH]; intros Hs Hne; cbn; [constructor; constructor|].
    inversion Hs as [|? ? Hs' Hf]; subst. destruct (kltb x y) eqn:E.
    - constructor; [exact Hs|]. constructor; [exact E|]. rewrite Forall_forall in *. intros z Hz.
      unfold klt. eapply ltb_str_trans; [exact E|apply Hf; exact Hz].
    - constructor; [apply IH; [exact Hs'|intros; apply Hne; right; assumption]|].
      rewrite Forall_forall in *. intros z Hz. apply (Permutation_in _ (Permutation_sym (insert_sorted_perm kltb x l))) in Hz.
      destruct Hz as [<-|Hz]; [|auto].
      unfold klt. destruct (ltb_str (key y) (key x)) eqn:E2; [reflexivity|]. exfalso.
      apply (Hne y (or_introl eq_refl)). symmetry. apply ltb_str_total; assumption.
  Qed.

  Lemma isort_klt l : NoDup (map key l) -> StronglySorted klt (isort kltb l).
  Proof.
    induction l as [|x l IH]; cbn; intros Hn; [constructor|]. inversion Hn as [|? ? Hnot Hnd]; subst.
    apply insert_sorted_klt; [auto|]. intros y Hy E. apply Hnot. rewrite <- E. apply in_map. apply (isort_in kltb l y). exact Hy.
  Qed.

  Lemma klt_irrefl a : ~ klt a a.
  Proof. unfold klt. rewrite ltb_str_irrefl. discriminate. Qed.

  Lemma ksorted_ext l1 : forall l2,
    StronglySorted klt l1 -> StronglySorted klt l2 -> (forall x, In x l1 <-> In x l2) -> l1 = l2.
  Proof.
    induction l1 as [|a l1 IH]; intros l2 S1 S2 H.
    - destruct l2 as [|b l2]; [reflexivity|]. exfalso. apply (H b). left. reflexivity.
    - destruct l2 as [|b l2]; [exfalso; apply (H a); left; reflexivity|].
      inversion S1 as [|? ? S1' F1]; subst. inversion S2 as [|? ? S2' F2]; subst. rewrite Forall_forall in F1, F2.
      assert (Hab : a = b).
      { destruct (proj1 (H a) (or_introl eq_refl)) as [Hx|Hx]; [auto|].
        destruct (proj2 (H b) (or_introl eq_refl)) as [Hy|Hy]; [auto|].
        exfalso. apply (klt_irrefl a). unfold klt. eapply ltb_str_trans; [apply F1; exact Hy|apply F2; exact Hx]. }
      subst b. f_equal. apply IH; [assumption..|]. intros x. split; intros Hx.
      + destruct (proj1 (H x) (or_intror Hx)) as [<-|Hy]; [|exact Hy]. exfalso. apply (klt_irrefl a). apply F1. exact Hx.
      + destruct (proj2 (H x) (or_intror Hx)) as [<-|Hy]; [|exact Hy]. exfalso. apply (klt_irrefl a). apply F2. exact Hx.
  Qed.

  Lemma ksorted_filter f l : StronglySorted klt l -> StronglySorted klt (filter f l).
  Proof.
    induction l as [|x l IH]; cbn; intros Hs; [constructor|]. inversion Hs as [|? ? Hs' Hf]; subst.
    destruct (f x); [|auto]. constructor; [auto|]. rewrite Forall_forall in *. intros y Hy. apply Hf.
    apply filter_In in Hy. tauto.
  Qed.
End KSort.

Lemma ksorted_map {A B} (ka : A -> str) (kb : B -> str) (g : A -> B) l :
  (forall a, kb (g a) = ka a) -> StronglySorted (klt ka) l -> StronglySorted (klt kb) (map g l).
Proof.
  intros Hk. induction l as [|x l IH]; cbn; intros Hs; [constructor|]. inversion Hs as [|? ? Hs' Hf]; subst.
  constructor; [auto|]. rewrite Forall_forall in *. intros y Hy. apply in_map_iff in Hy. destruct Hy as (z & <- & Hz).
  unfold klt. rewrite !Hk. apply Hf. exact Hz.
Qed.

Lemma ksorted_nodup {A} (key : A -> str) l : StronglySorted (klt key) l -> NoDup (map key l).
Proof.
  induction 1 as [|a l Hs IH Hf]; cbn; constructor; [|exact IH]. intros Hin. apply in_map_iff in Hin.
  destruct Hin as (y & E & Hy). rewrite Forall_forall in Hf. specialize (Hf y Hy). unfold klt in Hf.
  rewrite E, ltb_str_irrefl in Hf. discriminate.
Qed.

Lemma sort_pvs_isort l : sort_pvs l = isort (kltb pv_path) l.
Proof.
  induction l as [|x l IH]; [reflexivity|]. unfold sort_pvs in *. cbn. rewrite IH.
  generalize (isort (kltb pv_path) l). intros s. induction s as [|y s IHs]; cbn; [reflexivity|]. rewrite IHs. reflexivity.
Qed.

Lemma abs_dev_isort d : abs_dev d = isort (kltb fst) d.
Proof.
  induction d as [|x l IH]; [reflexivity|]. unfold abs_dev in *. cbn. rewrite IH.
  generalize (isort (kltb fst) l). intros s. induction s as [|y s IHs]; cbn; [reflexivity|]. rewrite IHs. reflexivity.
Qed.
