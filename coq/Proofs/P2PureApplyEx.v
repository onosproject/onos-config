(* C04: the well-formedness premises of Proofs/P2PureApplyInst.v are satisfiable along non-trivial runs of the
   executable instance: a boolean checker for "every step of the run is allowed and well-formed" (sound for crun_wf),
   evaluated on (1) the lagging-delete scenario of finding F-23 in every Go map order, (2) a run with a cascading
   delete, a re-creation beneath the tombstones, a rollback of the last change, a connection loss and the re-push in
   a new term.  The agreement at the end of each run then follows from the THEOREM converged_inst (not from
   computing the final world). *)
From stdpp Require Import gmap.
From RecordUpdate Require Import RecordUpdate.
From Coq Require Import NArith Lia.
From OC Require Import Base.Bytes Model.P2Pure Model.Proto2 Model.P2Inst Proofs.P2Base Proofs.P2_Cursor Proofs.P2_Converge
     Proofs.P2_ConvergeEx.
From OC Require Import Proofs.P2PureApplyDefs Proofs.P2PureApplyInst.
Open Scope N_scope.

Definition wf_step_b (w : Wd) (t : N) (l : Label) : bool :=
  match cfgs w !! t with
  | None => true
  | Some C =>
    wfk (c_ainline C) && wfk (c_avalues C) &&
    match l with
    | LRec (CtlProp (t', i)) _ _ =>
      if t' =? t then match props w !! (t, i) with
                      | Some P => wf_apply (c_ainline C) (c_avalues C) (rb_change nil P)
                      | None => true
                      end
      else true
    | LRec (CtlCfg t') _ _ => if t' =? t then no_live_below (aview overlay C) else true
    | _ => true
    end
  end.

Lemma wf_step_b_sound (w : Wd) t (l : Label) : wf_step_b w t l = true -> wf_step w t l.
Proof.
  unfold wf_step_b, wf_step. intros H C HC. rewrite HC in H. apply andb_true_iff in H. destruct H as [H H3].
  apply andb_true_iff in H. destruct H as [H1 H2]. split; [exact H1|]. split; [exact H2|].
  destruct l as [| |[|[t' i]|t'| |] k o| | | | | |]; try exact I.
  - intros ->. rewrite N.eqb_refl in H3. intros C0 P HC0 HP. rewrite HC in HC0. injection HC0 as <-.
    (* the two lookups differ in the spelling of cmap *)
    unfold cmap in HP, H3. rewrite HP in H3. exact H3.
  - intros ->. rewrite N.eqb_refl in H3. exact H3.
Qed.

Definition allowed_b (t : N) (w : Wd) (l : Label) : bool :=
  match l with LRec c k o => Nat.leb (length (fst (p2_reconcile o w c))) k | _ => true end &&
  match l with LDevRestart t' => negb (t' =? t) | LTarget t' p => negb ((t' =? t) && p) | _ => true end &&
  wf_step_b w t l.

Lemma allowed_b_sound t (w : Wd) (l : Label) : allowed_b t w l = true -> allowed_wf t w l.
Proof.
  unfold allowed_b, allowed_wf. intros H. apply andb_true_iff in H. destruct H as [H H3].
  apply andb_true_iff in H. destruct H as [H1 H2]. split; [|split; [|split]].
  - destruct l; try exact I. cbn [complete]. apply Nat.leb_le. exact H1.
  - intros ->. rewrite N.eqb_refl in H2. discriminate.
  - intros ->. rewrite N.eqb_refl in H2. discriminate.
  - apply wf_step_b_sound. exact H3.
Qed.

Fixpoint run_ok (t : N) (ls : list Label) (w : Wd) : bool :=
  match ls with [] => true | l :: r => allowed_b t w l && run_ok t r (p2_step w l) end.

Lemma run_ok_crun_wf t (ls : list Label) : forall w0 w : Wd,
  crun_wf t w0 w -> run_ok t ls w = true -> crun_wf t w0 (fold_left p2_step ls w).
Proof.
  induction ls as [|l ls IH]; intros w0 w Hrun H; cbn [fold_left]; [exact Hrun|].
  cbn [run_ok] in H. apply andb_true_iff in H. destruct H as [H1 H2]. apply IH; [|exact H2].
  apply (crun_wf_step t w0 w l Hrun). apply allowed_b_sound. exact H1.
Qed.

(* from a converged start, a checked run ends in a world where SYNCHRONIZED in the current term means agreement *)
Theorem checked_run_agrees t (ls0 ls : list Label) (C' : Cfg) :
  i_conv (x_run ls0) t -> run_ok t ls (x_run ls0) = true ->
  cfgs (x_run (ls0 ++ ls)) !! t = Some C' -> c_state C' = CSynchronized -> c_aterm C' = c_term C' ->
  i_agrees (x_run (ls0 ++ ls)) t.
Proof.
  intros Hc Hok. unfold x_run at 1 2. rewrite fold_left_app. fold (x_run ls0).
  apply (converged_inst (x_run ls0) (fold_left p2_step ls (x_run ls0)) t C'); [apply x_run_reach|exact Hc|].
  apply run_ok_crun_wf; [apply crun_wf_refl|exact Hok].
Qed.

(** * (1) the lagging delete (finding F-23, repaired), every Go map order of the recording *)
(* the first 23 labels (target, connection, the first change, four rounds with the OK oracle) create the configuration *)
Definition lag_start : list Label := firstn 23 (l_lag_c (x_oracle_ord 0)).
Definition lag_rest (o : oracle) : list Label := skipn 23 (l_lag_c o).

Example lag_split : Forall (fun ord => l_lag_c (x_oracle_ord ord) = lag_start ++ lag_rest (x_oracle_ord ord)) ords6.
Proof.
  (* the first 23 labels lie in l_lag_a, where the oracle of the order does not occur *)
  apply List.Forall_forall. intros ord _. unfold lag_rest.
  rewrite <- (List.firstn_skipn 23 (l_lag_c (x_oracle_ord ord))) at 1. reflexivity.
Qed.

Example lag_start_conv : i_conv (x_run lag_start) 1.
Proof.
  eexists. split; [vm_compute; reflexivity|]. split; [vm_compute; discriminate|]. split; [intros _; vm_compute; reflexivity|].
  left. eexists. split; vm_compute; reflexivity.
Qed.

Example lag_run_wf : Forall (fun ord => run_ok 1 (lag_rest (x_oracle_ord ord)) (x_run lag_start) = true) ords6.
Proof. repeat (apply List.Forall_cons; [vm_compute; reflexivity|]). apply List.Forall_nil. Qed.

(** * (2) cascade, re-creation beneath tombstones, rollback, new term *)
(* /a/b = 1, /a/c = 2 | delete /a | /a/b/d = 3 (beneath the tombstones of /a and /a/b) | rollback of the last change |
   connection lost and replaced: re-push in term 2 *)
Definition big_start : list Label :=
  [LTarget 1 false; LConnUp 10 1; LChange [(1, x_ch "/a/b" "1" ++ x_ch "/a/c" "2")] true false] ++ x_rounds 4 (x_oracle COk) 10 1 [1].
Definition big_rest (o : oracle) : list Label :=
  x_rounds 10 o 10 1 [1]
  ++ [LChange [(1, x_del "/a")] true false] ++ x_rounds 12 o 10 1 [1; 2]
  ++ [LChange [(1, x_ch "/a/b/d" "3")] true false] ++ x_rounds 12 o 10 1 [1; 2; 3]
  ++ [LRollback 3] ++ x_rounds 20 o 10 1 [1; 2; 3; 4]
  ++ [LConnDown 10; LRec (CtlConn 10) 9 (x_oracle COk); LRec (CtlMaster 1) 9 (x_oracle COk); LConnUp 11 1]
  ++ x_rounds 4 (x_oracle COk) 11 1 [].

Example big_start_conv : i_conv (x_run big_start) 1.
Proof.
  eexists. split; [vm_compute; reflexivity|]. split; [vm_compute; discriminate|]. split; [intros _; vm_compute; reflexivity|].
  left. eexists. split; vm_compute; reflexivity.
Qed.

Example big_run_wf : Forall (fun ord => run_ok 1 (big_rest (x_oracle_ord ord)) (x_run big_start) = true) [0; 1; 2; 5].
Proof. repeat (apply List.Forall_cons; [vm_compute; reflexivity|]). apply List.Forall_nil. Qed.

(* what the run ends in (order 1): every transaction APPLIED, SYNCHRONIZED in term 2, nothing left on the device *)
Example big_run_end :
  lag_summary (x_run (big_start ++ big_rest (x_oracle_ord 1))) =
    ([(1, TApplied); (3, TApplied); (2, TApplied); (4, TApplied)], [(4, 4, CSynchronized, 2, 2, [], [])], [[]]).
Proof. vm_compute. reflexivity. Qed.

(* ... and, by the theorem, the device agrees with the applied values there *)
Example big_run_agrees : i_agrees (x_run (big_start ++ big_rest (x_oracle_ord 1))) 1.
Proof.
  eapply (checked_run_agrees 1 big_start (big_rest (x_oracle_ord 1))).
  - exact big_start_conv.
  - exact (List.Forall_inv (List.Forall_inv_tail big_run_wf)).
  - vm_compute. reflexivity.
  - vm_compute. reflexivity.
  - vm_compute. reflexivity.
Qed.

(** * Each hypothesis of wf_apply is needed: witnesses outside the domain (vm_compute) *)
(* a live value beneath a tombstone in the applied values (only after an invocation cut between the map write and the
   entry write, see Properties/C04.v (1)): re-creating a sibling drops the tombstone and the hidden value re-appears in
   the record, not on the device *)
Definition nlb_m : cmap := [pvd "/a" 1; pvl "/a/c" "2" 2].
Definition nlb_ch : cmap := [pvl "/a/b" "0" 3].
Example apply_sound_live_below_refuted :
  wf_pair [] nlb_m = false /\ wfk nlb_m = true /\ P2PureApplyDefs.wf_change nlb_ch = true /\ idx_compat nlb_m nlb_ch = true /\
  abs_dev_i [] = abs_app_i (overlay [] nlb_m) /\
  payload 3 [] nlb_ch = Some (mkReq [] [(B "/a/b", B "0")]) /\
  abs_dev_i (dev_apply [] (mkReq [] [(B "/a/b", B "0")])) = [(B "/a/b", B "0")] /\
  abs_app_i (loaded overlay nil (record_applied 0 3 nlb_m (overlay [] nlb_m) [] nlb_ch)) = [(B "/a/b", B "0"); (B "/a/c", B "2")].
Proof. repeat split; vm_compute; reflexivity. Qed.

(* a change value carrying the index of the stored value with another content: store() skips the write *)
Definition idx_m : cmap := [pvl "/a" "1" 5].
Definition idx_ch : cmap := [pvl "/a" "2" 5].
Example apply_sound_same_index_refuted :
  wf_pair [] idx_m = true /\ P2PureApplyDefs.wf_change idx_ch = true /\ idx_compat idx_m idx_ch = false /\
  abs_dev_i [(B "/a", B "1")] = abs_app_i (overlay [] idx_m) /\
  payload 5 [] idx_ch = Some (mkReq [] [(B "/a", B "2")]) /\
  abs_dev_i (dev_apply [(B "/a", B "1")] (mkReq [] [(B "/a", B "2")])) = [(B "/a", B "2")] /\
  abs_app_i (loaded overlay nil (record_applied 0 5 idx_m (overlay [] idx_m) [] idx_ch)) = [(B "/a", B "1")].
Proof. repeat split; vm_compute; reflexivity. Qed.

(* the re-push needs no_live_below even inside one group: deletes go first, then the updates *)
Example resync_live_below_refuted : exists r,
  resync_payload nlb_m = [Some (mkReq [B "/a"] []); Some r] /\ wfk nlb_m = true /\ no_live_below nlb_m = false /\
  abs_app_i nlb_m = [] /\ abs_dev_i (fold_left dev_apply [mkReq [B "/a"] []; r] []) = [(B "/a/c", B "2")].
Proof. eexists. repeat split; vm_compute; reflexivity. Qed.
