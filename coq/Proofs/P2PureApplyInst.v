(* C04: the executable instance (Model/P2Pure.v, Model/P2Inst.v) MEETS the pure-layer obligations of
   Proofs/P2_Converge.v for all values satisfying the boolean well-formedness predicates of Proofs/P2PureApplyDefs.v
   (proofs in Proofs/P2PureApply{Base,Sem,Sound,Status,Resync}.v), and the protocol theorems of P2_Converge.v
   instantiated with it: the obligation premises are replaced by well-formedness of the values of the step. *)
From stdpp Require Import gmap.
From RecordUpdate Require Import RecordUpdate.
From Coq Require Import NArith Lia.
From OC Require Import Base.Bytes Model.P2Pure Model.Proto2 Model.P2Inst Proofs.P2Base Proofs.P2_Cursor Proofs.P2_Converge
     Proofs.P2_ConvergeEx.
From OC Require Import Proofs.P2PureApplyDefs Proofs.P2PureApplyBase Proofs.P2PureApplySem Proofs.P2PureApplySound
     Proofs.P2PureApplyStatus Proofs.P2PureApplyResync.
Open Scope N_scope.

Notation i_pure_ok := (pure_ok overlay payload record_applied restore resync_payload dev_apply nil nil nil abs_dev_i abs_app_i).
Notation i_complete := (complete candidate candidate_rb rollback_of overlay commit_merge payload record_applied touched restore
                                 resync_payload doc_ok stamp nil nil nil).

(** * The obligations, for all well-formed values *)
(* abs_dev_i, abs_app_i of P2_ConvergeEx.v unfold to abs_dev, abs_app of P2PureApplyDefs.v, and [loaded overlay nil] to
   [overlay []]: at the instance the obligations are the statements proved for Model/P2Pure.v *)
Theorem apply_sound_inst ord i inl m vw ch req d :
  wf_apply inl m ch = true -> i_apply_sound_at ord i inl m vw ch req d.
Proof. exact (apply_sound_P2Pure ord i inl m vw ch req d). Qed.

Theorem status_sound_inst (p : cmap * cmap) : wfk p.1 = true -> wfk p.2 = true -> i_status_sound_at p.
Proof. exact (status_sound_P2Pure p.1 p.2). Qed.

Theorem apply_idem_inst d req : i_apply_idem_at d req.
Proof. exact (f_equal abs_dev_i (apply_idem_P2Pure d req)). Qed.

Theorem resync_sound_empty_inst va reqs :
  wfk va = true -> no_live_below va = true -> i_resync_empty_at va reqs.
Proof. exact (resync_sound_empty_P2Pure va reqs). Qed.

Theorem resync_sound_same_inst va reqs d :
  wfk va = true -> no_live_below va = true -> i_resync_same_at va reqs d.
Proof. exact (resync_sound_same_P2Pure va reqs d). Qed.

(** * Well-formedness of the values one step works on *)
(* the applied values of the configuration of [t]: inlined ones and the stored map *)
Definition wf_cfg (C : Cfg) : bool := wf_pair (c_ainline C) (c_avalues C).
(* ... together with the change of proposal (t, i) *)
Definition wf_apply_at (w : Wd) (t i : N) : Prop :=
  forall (C : Cfg) (P : Prop2), cfgs w !! t = Some C -> props w !! (t, i) = Some P ->
    wf_apply (c_ainline C) (c_avalues C) (rb_change nil P) = true.
(* what the obligations of the step [l] need at the values of [t] *)
Definition wf_step (w : Wd) (t : N) (l : Label) : Prop :=
  forall C : Cfg, cfgs w !! t = Some C ->
    wfk (c_ainline C) = true /\ wfk (c_avalues C) = true /\
    match l with
    | LRec (CtlProp (t', i)) _ _ => t' = t -> wf_apply_at w t i
    | LRec (CtlCfg t') _ _ => t' = t -> no_live_below (aview overlay C) = true
    | _ => True
    end.

Lemma wfk_aview (C : Cfg) : wfk (c_ainline C) = true -> wfk (c_avalues C) = true -> wfk (aview overlay C) = true.
Proof. rewrite !wfk_WF. apply WF_overlay. Qed.

Theorem pure_ok_inst (w : Wd) t (l : Label) : wf_step w t l -> i_pure_ok w t l.
Proof.
  intros Hw C HC. destruct (Hw C HC) as (H1 & H2 & H3). split; [apply (status_sound_inst (c_ainline C, c_avalues C)); assumption|].
  destruct l as [| |[|[t' i]|t'| |] k o| | | | | |]; try exact I.
  - intros Ht P r HP. apply apply_sound_inst. exact (H3 Ht C P HC HP).
  - intros Ht. destruct (resync_total_P2Pure (aview overlay C)) as (rs & Hrs). exists rs. split; [exact Hrs|].
    pose proof (wfk_aview C H1 H2) as Hk. split.
    + apply resync_sound_empty_inst; [exact Hk|exact (H3 Ht)].
    + apply resync_sound_same_inst; [exact Hk|exact (H3 Ht)].
Qed.

(** * The protocol theorems on the instance *)
Notation i_step := p2_step.

Theorem apply_keeps_agreement_inst (o : oracle) (w : Wd) t i m term r (k : nat) :
  wf_apply_at w t i -> i_sent_by_apply w o t i m term r COk -> (3 <= k)%nat -> i_agrees w t ->
  let w' := i_step w (LRec (CtlProp (t, i)) k o) in
  i_agrees w' t /\ i_dstate_of w' t = dev_apply (i_dstate_of w t) r /\
  exists (C : Cfg) (P : Prop2) (C' : Cfg), cfgs w !! t = Some C /\ props w !! (t, i) = Some P /\
    cfgs w' !! t = Some C' /\ c_applied C' = i /\ c_applied C < i /\
    aview overlay C' = record_applied (o_order o) i (c_avalues C) (aview overlay C) (view overlay C) (rb_change nil P) /\
    c_state C' = c_state C /\ c_aterm C' = c_aterm C /\ c_term C' = c_term C /\
    (* what is stored is well-formed again, with nothing beneath a tombstone *)
    wfk (aview overlay C') = true /\ no_entry_below (aview overlay C') = true.
Proof.
  intros Hw Hs Hk Hag.
  destruct (apply_keeps_agreement candidate candidate_rb rollback_of overlay commit_merge payload record_applied touched restore
              resync_payload doc_ok dev_apply stamp nil nil nil abs_dev_i abs_app_i o w t i m term r k
              (fun C P HC HP => apply_sound_inst _ _ _ _ _ _ _ _ (Hw C P HC HP)) Hs Hk Hag)
    as (A1 & A2 & C & P & C' & B1 & B2 & B3 & B4 & B5 & B6 & B7 & B8 & B9).
  cbn zeta. split; [exact A1|]. split; [exact A2|]. exists C, P, C'. repeat (split; [assumption|]).
  destruct (record_applied_wf (o_order o) i (c_ainline C) (c_avalues C) (view overlay C) (rb_change nil P) (Hw C P B1 B2)) as [W1 W2].
  unfold wf_pair in W1. apply andb_true_iff in W1. destruct W1 as [W1 _]. apply andb_true_iff in W1. destruct W1 as [_ W1].
  assert (E : aview overlay C' = record_applied (o_order o) i (c_avalues C) (aview overlay C) (view overlay C) (rb_change nil P)).
  { rewrite B6. unfold loaded. apply overlay_nil. apply wfk_WF in W1. apply W1. }
  split; [exact E|]. repeat (split; [assumption|]). rewrite E. split; assumption.
Qed.

Theorem cut_apply_retry_inst (o o' : oracle) (w : Wd) t i m term r (k' : nat) :
  wf_apply_at w t i -> i_agrees w t -> i_sent_by_apply w o t i m term r COk ->
  let w1 := i_step w (LRec (CtlProp (t, i)) 1 o) in
  i_dstate_of w1 t = dev_apply (i_dstate_of w t) r /\ cfgs w1 = cfgs w /\
  (dev_answer (nil : dstate) w1 t term o' = COk -> (3 <= k')%nat ->
   i_sent_by_apply w1 o' t i m term r COk /\ i_agrees (i_step w1 (LRec (CtlProp (t, i)) k' o')) t).
Proof.
  intros Hw Hag Hs.
  exact (cut_apply_retry candidate candidate_rb rollback_of overlay commit_merge payload record_applied touched restore
           resync_payload doc_ok dev_apply stamp nil nil nil abs_dev_i abs_app_i o o' w t i m term r k'
           (fun C P HC HP => apply_sound_inst _ _ _ _ _ _ _ _ (Hw C P HC HP)) (apply_idem_inst _ _) Hag Hs).
Qed.

Theorem resync_establishes_agreement_inst (o : oracle) (w : Wd) t m term r (rs : list req) (k : nat) (C : Cfg) :
  wfk (c_ainline C) = true -> wfk (c_avalues C) = true -> no_live_below (aview overlay C) = true ->
  i_sent_by_resync w o t m term r COk -> cfgs w !! t = Some C ->
  resync_payload (aview overlay C) = map Some rs -> (length rs + 2 <= k)%nat ->
  i_dstate_of w t = [] \/ i_agrees w t ->
  let w' := i_step w (LRec (CtlCfg t) k o) in
  i_agrees w' t /\ i_dstate_of w' t = fold_left dev_apply rs (i_dstate_of w t) /\
  exists C' : Cfg, cfgs w' !! t = Some C' /\ c_state C' = CSynchronized /\ c_aterm C' = c_term C' /\ c_term C' = c_term C /\
             c_applied C' = c_applied C /\ c_applied C <> 0 /\ abs_app_i (aview overlay C') = abs_app_i (aview overlay C).
Proof.
  intros H1 H2 H3 Hs HC Hrs Hk Hmode. pose proof (wfk_aview C H1 H2) as Hk'.
  apply (resync_establishes_agreement candidate candidate_rb rollback_of overlay commit_merge payload record_applied touched restore
           resync_payload doc_ok dev_apply stamp nil nil nil abs_dev_i abs_app_i o w t m term r rs k C); try assumption.
  - apply (status_sound_inst (c_ainline C, c_avalues C)); assumption.
  - destruct Hmode as [Hd|Ha]; [left|right].
    + split; [apply resync_sound_empty_inst; assumption|exact Hd].
    + split; [apply resync_sound_same_inst; assumption|exact Ha].
Qed.

(* runs of environment labels and complete invocations whose values are well-formed at every step *)
Definition allowed_wf (t : N) (w : Wd) (l : Label) : Prop :=
  i_complete w l /\ l <> LDevRestart t /\ l <> LTarget t true /\ wf_step w t l.
Inductive crun_wf (t : N) : Wd -> Wd -> Prop :=
| crun_wf_refl w : crun_wf t w w
| crun_wf_step w w1 l : crun_wf t w w1 -> allowed_wf t w1 l -> crun_wf t w (i_step w1 l).

Lemma crun_wf_crun t (w w' : Wd) : crun_wf t w w' -> i_crun t w w'.
Proof.
  induction 1 as [w|w w1 l Hrun IH (H1 & H2 & H3 & H4)]; [apply crun_refl|].
  apply crun_step; [exact IH|]. split; [exact H1|]. split; [exact H2|]. split; [exact H3|]. apply pure_ok_inst. exact H4.
Qed.

Theorem converged_inst (w w' : Wd) t (C' : Cfg) :
  i_reach w -> i_conv w t -> crun_wf t w w' ->
  cfgs w' !! t = Some C' -> c_state C' = CSynchronized -> c_aterm C' = c_term C' -> i_agrees w' t.
Proof.
  intros Hr Hc Hrun. apply (converged_synchronized candidate candidate_rb rollback_of overlay commit_merge payload record_applied
                             touched restore resync_payload doc_ok dev_apply stamp nil nil nil abs_dev_i abs_app_i w w' t C' Hr Hc).
  apply crun_wf_crun. exact Hrun.
Qed.

(** * The predicates hold initially and on a non-trivial state; the obligations at those values, by the theorems *)
Example wf_initial : wf_pair [] [] = true /\ wf_apply [] [] [] = true.
Proof. split; vm_compute; reflexivity. Qed.

(* stored: /a/b=1 (1), a tombstone /c (3) with the tombstone /c/d (3) beneath it, /x=9 (2), the keyed entry /l[k=1]/v=5 (2);
   inlined in the entry: an older /x=8 (1) and /y=0 (1);
   change 4: delete /a, set /c/d/e=7 (re-creation beneath two tombstones), set /x=10, delete /l[k=1] *)
Definition ex_m : cmap :=
  [pvl "/a/b" "1" 1; pvd "/c" 3; pvd "/c/d" 3; pvl "/x" "9" 2; pvl "/l[k=1]/v" "5" 2].
Definition ex_inl : cmap := [pvl "/x" "8" 1; pvl "/y" "0" 1].
Definition ex_vw : cmap := [pvl "/a/b" "1" 1; pvl "/a/c" "2" 4; pvl "/x" "9" 2; pvl "/l[k=1]/v" "5" 2; pvl "/l[k=1]/w" "6" 4].
Definition ex_ch : cmap := [pvd "/a" 4; pvl "/c/d/e" "7" 4; pvl "/x" "10" 4; pvd "/l[k=1]" 4].
Definition ex_d : dstate := [(B "/y", B "0"); (B "/x", B "9"); (B "/l[k=1]/v", B "5"); (B "/a/b", B "1")].

Example wf_nontrivial :
  wf_apply ex_inl ex_m ex_ch = true /\ abs_dev_i ex_d = abs_app_i (overlay ex_inl ex_m) /\
  payload 4 ex_vw ex_ch = Some (mkReq [B "/a"; B "/l[k=1]"] [(B "/c/d/e", B "7"); (B "/x", B "10")]) /\
  abs_app_i (record_applied 5 4 ex_m (overlay ex_inl ex_m) ex_vw ex_ch) = [(B "/c/d/e", B "7"); (B "/x", B "10"); (B "/y", B "0")].
Proof. repeat split; vm_compute; reflexivity. Qed.

Example apply_sound_nontrivial : forall ord req, payload 4 ex_vw ex_ch = Some req ->
  abs_dev_i (dev_apply ex_d req) = abs_app_i (loaded overlay nil (record_applied ord 4 ex_m (overlay ex_inl ex_m) ex_vw ex_ch)).
Proof.
  intros ord req Hp. apply (apply_sound_inst ord 4 ex_inl ex_m ex_vw ex_ch req ex_d); [vm_compute; reflexivity|exact Hp|vm_compute; reflexivity].
Qed.
