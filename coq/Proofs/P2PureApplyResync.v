(* C04, concrete pure layer: resync_sound_empty, resync_sound_same, resync_total for Model/P2Pure.v, ALL values:
   the re-push (one request per transaction index, any order of the values inside a group) brings an empty device, an
   agreeing device, or any device holding only live leaves of the applied values, to exactly the live leaves -
   provided no live value lies beneath a tombstone.  Stdlib only. *)
From Coq Require Import List PeanoNat NArith Bool Lia Permutation Sorted.
From OC Require Import Base.Bytes Model.P2Pure Proofs.P2PureApplyDefs Proofs.P2PureApplyBase Proofs.P2PureApplySem
     Proofs.P2PureApplySound Proofs.P2PureApplyStatus.
Import ListNotations.
Open Scope N_scope.

(** * The groups hold exactly the values *)
Definition in_groups (gs : list (N * list pv)) (v : pv) : Prop := exists g, In g gs /\ In v (snd g).

Lemma group_by_index_spec l : forall acc v, in_groups (group_by_index l acc) v <-> in_groups acc v \/ In v l.
Proof.
  induction l as [|v0 l IH]; intros acc v; cbn [group_by_index]; [cbn; tauto|].
  rewrite IH. cbn [In].
  assert (Hstep : in_groups (if existsb (fun g => fst g =? pv_index v0) acc
                             then map (fun g => if fst g =? pv_index v0 then (fst g, snd g ++ [v0]) else g) acc
                             else acc ++ [(pv_index v0, [v0])]) v <-> in_groups acc v \/ v0 = v); [|tauto].
  destruct (existsb (fun g => fst g =? pv_index v0) acc) eqn:E.
  - split.
    + intros (g' & Hg' & Hv). apply in_map_iff in Hg'. destruct Hg' as (g & <- & Hg).
      destruct (fst g =? pv_index v0); [|left; exists g; auto]. cbn in Hv. apply in_app_iff in Hv.
      destruct Hv as [Hv|[Hv|[]]]; [left; exists g; auto|right; exact Hv].
    + intros [(g & Hg & Hv)| <-].
      * exists (if fst g =? pv_index v0 then (fst g, snd g ++ [v0]) else g). split.
        -- apply in_map_iff. exists g. auto.
        -- destruct (fst g =? pv_index v0); [cbn; apply in_app_iff; auto|exact Hv].
      * apply existsb_exists in E. destruct E as (g & Hg & Hi).
        exists (if fst g =? pv_index v0 then (fst g, snd g ++ [v0]) else g). split.
        -- apply in_map_iff. exists g. auto.
        -- rewrite Hi. cbn. apply in_app_iff. right. left. reflexivity.
  - split.
    + intros (g & Hg & Hv). apply in_app_iff in Hg. destruct Hg as [Hg|[<-|[]]]; [left; exists g; auto|].
      cbn in Hv. destruct Hv as [Hv|[]]. right. exact Hv.
    + intros [(g & Hg & Hv)| <-]; [exists g; split; [apply in_app_iff; auto|exact Hv]|].
      exists (pv_index v0, [v0]). split; [apply in_app_iff; right; left; reflexivity|left; reflexivity].
Qed.

(** * One request of the re-push *)
Lemma upd_fold_keep us : forall d x,
  (In x d \/ In x us) -> (forall u, In u us -> fst u = fst x -> u = x) -> In x (fold_left upd_step us d).
Proof.
  induction us as [|u us IH]; intros d x H Hu; cbn [fold_left]; [destruct H as [H|[]]; exact H|].
  apply IH; [|intros u' Hu' E; apply Hu; [right; exact Hu'|exact E]].
  destruct H as [H|[H|H]].
  - left. apply upd_step_in. destruct (str_eq_dec (fst x) (fst u)) as [E|E]; [right; symmetry; apply Hu; [left; reflexivity|auto]|left; auto].
  - left. apply upd_step_in. right. auto.
  - right. exact H.
Qed.

Section Resync.
  Context (va : cmap) (Hw : WF va) (Hnlb : no_live_below va = true).

  (* the device holds only live leaves of the applied values *)
  Definition within (d : dstate) : Prop := NDd d /\ forall p x, In (p, x) d -> lvp va p x.

  Lemma live_value_lvp v : In v (map snd va) -> pv_deleted v = false -> lvp va (pv_path v) (pv_val v).
  Proof.
    intros Hin Hd. apply (snd_in_lookup _ _ Hw) in Hin. exists v. split; [exact Hin|]. split; [exact Hd|]. split; [reflexivity|].
    apply (nlb_spec _ _ v Hnlb Hin Hd).
  Qed.

  Lemma resync_step g d : (forall v, In v g -> In v (map snd va)) -> within d ->
    within (dev_apply d (to_req g)) /\
    (forall p x, In (p, x) d -> In (p, x) (dev_apply d (to_req g))) /\
    (forall v, In v g -> pv_deleted v = false -> In (pv_path v, pv_val v) (dev_apply d (to_req g))).
  Proof.
    intros Hg [Hnd Hd]. rewrite dev_apply_eq. unfold to_req. cbn [r_del r_upd].
    set (dels := map pv_path (filter pv_deleted g)).
    set (us := map (fun v => (pv_path v, pv_val v)) (filter (fun v => negb (pv_deleted v)) g)).
    assert (Hus : forall u, In u us -> lvp va (fst u) (snd u)).
    { intros u Hu. apply in_map_iff in Hu. destruct Hu as (v & <- & Hv). apply filter_In in Hv. destruct Hv as [Hv Hl].
      apply negb_true_iff in Hl. cbn. apply live_value_lvp; [apply Hg; exact Hv|exact Hl]. }
    assert (Huniq : forall p x, lvp va p x -> forall u, In u us -> fst u = fst (p, x) -> u = (p, x)).
    { intros p x (v & H1 & H2 & H3 & H4) [p' x'] Hu E. cbn in E. subst p'. destruct (Hus _ Hu) as (v' & H1' & _ & H3' & _).
      cbn in H1', H3'. rewrite H1 in H1'. injection H1' as <-. congruence. }
    assert (Hsurv : forall p x, lvp va p x -> In (p, x) d -> In (p, x) (fold_left del_step dels d)).
    { intros p x (v & H1 & H2 & H3 & H4) Hin. apply del_fold_in. split; [exact Hin|]. intros t Ht. cbn.
      apply in_map_iff in Ht. destruct Ht as (e & <- & He). apply filter_In in He. destruct He as [He Hde].
      apply Hg in He. apply (snd_in_lookup _ _ Hw) in He. split.
      - apply eqb_str_neq. intros ->. congruence.
      - destruct (is_path_below p (pv_path e)) eqn:Eb; [|reflexivity].
        rewrite (cov_intro _ _ e p (lookup_in _ _ _ He) Hde Eb) in H4. discriminate. }
    split; [split|split].
    - apply upd_fold_nd. apply del_fold_nd. exact Hnd.
    - intros p x Hin. apply upd_fold_sub in Hin. destruct Hin as [Hin|Hin]; [exact (Hus _ Hin)|].
      apply del_fold_in in Hin. apply Hd. apply Hin.
    - intros p x Hin. apply upd_fold_keep; [left; apply Hsurv; [apply Hd; exact Hin|exact Hin]|].
      apply Huniq. apply Hd. exact Hin.
    - intros v Hv Hl. assert (Hu : In (pv_path v, pv_val v) us).
      { apply in_map_iff. exists v. split; [reflexivity|]. apply filter_In. rewrite Hl. auto. }
      apply upd_fold_keep; [right; exact Hu|]. apply Huniq. apply (Hus _ Hu).
  Qed.

  Lemma resync_fold (gs : list (N * list pv)) : forall d,
    (forall g v, In g gs -> In v (snd g) -> In v (map snd va)) -> within d ->
    within (fold_left dev_apply (map (fun g => to_req (snd g)) gs) d) /\
    (forall p x, In (p, x) d -> In (p, x) (fold_left dev_apply (map (fun g => to_req (snd g)) gs) d)) /\
    (forall v, in_groups gs v -> pv_deleted v = false ->
               In (pv_path v, pv_val v) (fold_left dev_apply (map (fun g => to_req (snd g)) gs) d)).
  Proof.
    induction gs as [|g gs IH]; intros d Hg Hd; cbn [map fold_left].
    - split; [exact Hd|]. split; [auto|]. intros v (g & [] & _).
    - destruct (resync_step (snd g) d (fun v Hv => Hg g v (or_introl eq_refl) Hv) Hd) as (S1 & S2 & S3).
      destruct (IH (dev_apply d (to_req (snd g))) (fun g' v Hg' Hv => Hg g' v (or_intror Hg') Hv) S1) as (I1 & I2 & I3).
      split; [exact I1|]. split; [intros p x Hin; apply I2; apply S2; exact Hin|].
      intros v (g' & [<-|Hg'] & Hv) Hl; [apply I2; apply S3; assumption|apply I3; [exists g'; auto|exact Hl]].
  Qed.

  Theorem resync_within reqs d : resync_payload va = map Some reqs -> within d ->
    abs_dev (fold_left dev_apply reqs d) = abs_app va.
  Proof.
    intros Hr Hd.
    assert (Hreqs : reqs = map (fun g => to_req (snd g)) (group_by_index (map snd va) [])).
    { unfold resync_payload in Hr. rewrite <- (map_map (fun g => to_req (snd g)) Some) in Hr.
      revert Hr. generalize (map (fun g => to_req (snd g)) (group_by_index (map snd va) [])). intros l.
      revert reqs. induction l as [|a l IH]; intros [|b reqs]; cbn; try discriminate; [reflexivity|].
      intros [= <- H]. f_equal. apply IH. exact H. }
    subst reqs.
    assert (Hgs : forall g v, In g (group_by_index (map snd va) []) -> In v (snd g) -> In v (map snd va)).
    { intros g v H1 H2. assert (Hx : in_groups (group_by_index (map snd va) []) v) by (exists g; auto).
      apply group_by_index_spec in Hx. destruct Hx as [(g' & [] & _)|Hx]. exact Hx. }
    destruct (resync_fold _ d Hgs Hd) as ((R1 & R2) & _ & R3).
    unfold abs_app. apply (abs_dev_live _ _ Hw R1). intros p x. split; [apply R2|].
    intros (v & H1 & H2 & H3 & H4). destruct (KO_lookup _ _ _ (proj2 Hw) H1) as [Hp _]. rewrite <- Hp, <- H3.
    apply R3; [|exact H2]. apply group_by_index_spec. right. apply (snd_in_lookup _ _ Hw). rewrite Hp. exact H1.
  Qed.
End Resync.

Theorem resync_sound_empty_P2Pure va reqs :
  wfk va = true -> no_live_below va = true -> resync_payload va = map Some reqs ->
  abs_dev (fold_left dev_apply reqs []) = abs_app va.
Proof.
  rewrite wfk_WF. intros Hw Hn Hr. apply (resync_within va Hw Hn reqs [] Hr). split; [constructor|intros p x []].
Qed.

Theorem resync_sound_same_P2Pure va reqs d :
  wfk va = true -> no_live_below va = true -> resync_payload va = map Some reqs -> abs_dev d = abs_app va ->
  abs_dev (fold_left dev_apply reqs d) = abs_app va.
Proof.
  rewrite wfk_WF. intros Hw Hn Hr Hag. apply (resync_within va Hw Hn reqs d Hr).
  destruct (agree_inv d va Hw Hag) as [H1 H2]. split; [exact H1|]. intros p x Hin. apply H2. exact Hin.
Qed.

Theorem resync_total_P2Pure va : exists rs, resync_payload va = map Some rs.
Proof.
  exists (map (fun g => to_req (snd g)) (group_by_index (map snd va) [])). unfold resync_payload. rewrite map_map. reflexivity.
Qed.
