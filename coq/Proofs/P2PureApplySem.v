(* C04, concrete pure layer: what the functions of Model/P2Pure.v compute, as lookup tables, for ALL values:
   overlay, AddDeleteChildren, the recording loop over applyChangeToConfig, PrunePathValues / live, store().
   Stdlib only. *)
From Coq Require Import List PeanoNat NArith Bool Lia Permutation Sorted.
From OC Require Import Base.Bytes Model.P2Pure Proofs.P2PureApplyDefs Proofs.P2PureApplyBase.
Import ListNotations.
Open Scope N_scope.

(** * overlay *)
Lemma overlay_lookup b : forall a k, ND b ->
  lookup k (overlay a b) = match lookup k b with Some v => Some v | None => lookup k a end.
Proof.
  unfold overlay. induction b as [|[k0 v0] b IH]; intros a k Hn; cbn; [reflexivity|].
  apply ND_cons in Hn. destruct Hn as [Hnot Hnd]. rewrite IH by exact Hnd. rewrite lookup_insert.
  deq k k0; [|reflexivity]. subst k0. rewrite Hnot. reflexivity.
Qed.

Lemma ND_overlay b : forall a, ND a -> ND (overlay a b).
Proof.
  unfold overlay. induction b as [|[k0 v0] b IH]; intros a Ha; cbn; [exact Ha|]. apply IH. apply ND_insert. exact Ha.
Qed.

Lemma In_overlay b : forall a x, In x (overlay a b) -> In x a \/ In x b.
Proof.
  unfold overlay. induction b as [|[k0 v0] b IH]; intros a x; cbn; [auto|]. intros H. apply IH in H.
  destruct H as [H|H]; [|auto]. apply In_insert in H. destruct H as [->|H]; auto.
Qed.

Lemma WF_overlay a b : WF a -> WF b -> WF (overlay a b).
Proof.
  intros [N1 K1] [N2 K2]. split; [apply ND_overlay; exact N1|]. intros k v H. apply In_overlay in H.
  destruct H; [apply K1|apply K2]; assumption.
Qed.

(** * AddDeleteChildren *)
Definition adc_step (index : N) : cmap * cmap -> str * pv -> cmap * cmap :=
  fun '(upd, st) '(_, cv) =>
  if pv_deleted cv then
    let hit (v : pv) := is_path_below (pv_path v) (pv_path cv) in
    let mark (v : pv) := mkPV (pv_path v) (pv_val v) true index in
    let kids := filter (fun '(_, v) => hit v) st in
    let st' := map (fun '(k, v) => if hit v then (k, mark v) else (k, v)) st in
    let upd' := fold_left (fun u '(_, v) => insert (pv_path v) (mark v) u) kids upd in
    (insert (pv_path cv) cv upd', st')
  else (insert (pv_path cv) cv upd, st).

Lemma adc_fold index change store : add_delete_children index change store = fold_left (adc_step index) change ([], store).
Proof. reflexivity. Qed.

Definition paths (m : cmap) : list str := map (fun kv => pv_path (snd kv)) m.

Definition kids_fold (mark : pv -> pv) (kids upd : cmap) : cmap :=
  fold_left (fun u '(_, v) => insert (pv_path v) (mark v) u) kids upd.

Lemma kids_fold_cases mark kids : forall upd k,
  ((forall kv, In kv kids -> pv_path (snd kv) <> k) /\ lookup k (kids_fold mark kids upd) = lookup k upd) \/
  (exists kv, In kv kids /\ pv_path (snd kv) = k /\ lookup k (kids_fold mark kids upd) = Some (mark (snd kv))).
Proof.
  unfold kids_fold. induction kids as [|[k0 v0] kids IH]; intros upd k; cbn [fold_left].
  - left. split; [intros kv []|reflexivity].
  - destruct (IH (insert (pv_path v0) (mark v0) upd) k) as [[Hno Hl]|(kv & Hin & Hp & Hl)].
    + rewrite lookup_insert in Hl. deq k (pv_path v0).
      * right. exists (k0, v0). split; [left; reflexivity|]. split; [auto|exact Hl].
      * left. split; [|exact Hl]. intros kv [<-|Hin]; [cbn; congruence|apply Hno; exact Hin].
    + right. exists kv. split; [right; exact Hin|]. split; assumption.
Qed.

Lemma kids_fold_ND mark kids : forall upd, ND upd -> ND (kids_fold mark kids upd).
Proof.
  unfold kids_fold. induction kids as [|[k0 v0] kids IH]; intros upd Hn; cbn [fold_left]; [exact Hn|].
  apply IH. apply ND_insert. exact Hn.
Qed.

(* a change that does not delete a path and update something beneath it *)
Definition WFC (c : cmap) : Prop :=
  WF c /\ forall k v kd d, In (k, v) c -> pv_deleted v = false -> In (kd, d) c -> pv_deleted d = true -> ~ Below k kd.

Lemma covered_spec M p :
  covered M p = true <-> exists t e, In (t, e) M /\ pv_deleted e = true /\ is_path_below p t = true.
Proof.
  unfold covered. rewrite existsb_exists. split.
  - intros ([t e] & Hin & H). cbn in H. apply andb_true_iff in H. exists t, e. tauto.
  - intros (t & e & Hin & H1 & H2). exists (t, e). cbn. rewrite H1, H2. auto.
Qed.

Lemma cov_intro M t e p : In (t, e) M -> pv_deleted e = true -> is_path_below p t = true -> covered M p = true.
Proof. intros H1 H2 H3. apply covered_spec. exists t, e. auto. Qed.

Lemma cov_none M p :
  (forall t e, In (t, e) M -> pv_deleted e = true -> is_path_below p t = true -> False) -> covered M p = false.
Proof.
  intros H. destruct (covered M p) eqn:E; [|reflexivity]. apply covered_spec in E. destruct E as (t & e & H1 & H2 & H3).
  destruct (H t e H1 H2 H3).
Qed.

Lemma nlb_iff M : no_live_below M = true <-> forall k v, In (k, v) M -> pv_deleted v = false -> covered M k = false.
Proof.
  unfold no_live_below. rewrite forallb_forall. split.
  - intros H k v Hin Hd. specialize (H _ Hin). cbn in H. rewrite Hd in H. apply negb_true_iff in H. exact H.
  - intros H [k v] Hin. cbn. destruct (pv_deleted v) eqn:Ed; [reflexivity|]. rewrite (H k v Hin Ed). reflexivity.
Qed.

Lemma wf_change_WFC c : wf_change c = true <-> WFC c.
Proof.
  unfold wf_change, WFC. rewrite andb_true_iff, wfk_WF, nlb_iff. split; intros [Hw H]; (split; [exact Hw|]).
  - intros k v kd d Hk Hlv Hd Hdel Hb. pose proof (H k v Hk Hlv) as Hc.
    rewrite (cov_intro c kd d k Hd Hdel) in Hc; [discriminate|]. apply below_spec; [apply (proj2 Hw _ _ Hd)|exact Hb].
  - intros k v Hk Hlv. apply cov_none. intros t e Hin Hdel Hb. apply (H _ _ _ _ Hk Hlv Hin Hdel). apply below_spec; [apply (proj2 Hw _ _ Hin)|exact Hb].
Qed.

Record upd_inv (i : N) (c1 vw upd : cmap) : Prop := {
  ui_nd : ND upd;
  ui_ch : forall k cv, In (k, cv) c1 -> pv_deleted cv = false -> lookup k upd = Some cv;
  ui_del : forall k cv, In (k, cv) c1 -> pv_deleted cv = true ->
      exists v, lookup k upd = Some v /\ pv_deleted v = true /\ pv_path v = k;
  ui_cases : forall k v, lookup k upd = Some v ->
      In (k, v) c1 \/
      (pv_path v = k /\ pv_deleted v = true /\ pv_index v = i /\ In k (paths vw) /\
       exists kc cv, In (kc, cv) c1 /\ pv_deleted cv = true /\ Below k kc);
  ui_kids : forall k kc cv, In k (paths vw) -> In (kc, cv) c1 -> pv_deleted cv = true -> Below k kc -> lookup k upd <> None }.

Lemma ND_mid_notin (c1 : cmap) k0 v0 c2 : ND (c1 ++ (k0, v0) :: c2) -> ~ In k0 (map fst c1).
Proof.
  unfold ND. rewrite map_app. cbn. intros H Hin. apply NoDup_remove_2 in H. apply H. apply in_app_iff. auto.
Qed.

Definition mark (i : N) (v : pv) : pv := mkPV (pv_path v) (pv_val v) true i.

(* one value [cv0] of the change goes in, after the tombstones marked for [kids]: stored values beneath it, all of them
   if it is a delete, none otherwise *)
Lemma upd_inv_snoc i c vw (k0 : str) (cv0 : pv) c1 c2 upd kids :
  WFC c -> c = c1 ++ (k0, cv0) :: c2 -> upd_inv i c1 vw upd ->
  (forall kv, In kv kids -> pv_deleted cv0 = true /\ In (pv_path (snd kv)) (paths vw) /\ Below (pv_path (snd kv)) k0) ->
  (pv_deleted cv0 = true -> forall k, In k (paths vw) -> Below k k0 -> exists kv, In kv kids /\ pv_path (snd kv) = k) ->
  upd_inv i (c1 ++ [(k0, cv0)]) vw (insert k0 cv0 (kids_fold (mark i) kids upd)).
Proof.
  intros [[Hnd Hko] Hwf] Hc [Und Uch Udel Ucases Ukids] Hkid Hall.
  assert (Hin0 : In (k0, cv0) c) by (rewrite Hc; apply in_elt).
  destruct (Hko _ _ Hin0) as [Hk0 _].
  assert (Hsub : forall x, In x c1 -> In x c) by (intros x Hx; rewrite Hc; apply in_app_iff; auto).
  assert (Hne : forall k cv, In (k, cv) c1 -> k <> k0).
  { intros k cv Hin ->. apply (ND_mid_notin c1 k0 cv0 c2); [rewrite <- Hc; exact Hnd|]. apply (in_map fst _ _ Hin). }
  split.
  - apply ND_insert. apply kids_fold_ND. exact Und.
  - intros k cv Hin Hlv. rewrite lookup_insert. apply in_app_iff in Hin.
    destruct Hin as [Hin|[[= <- <-]|[]]]; [|rewrite eqb_str_refl; reflexivity].
    deq k k0; [exfalso; exact (Hne _ _ Hin E)|].
    destruct (kids_fold_cases (mark i) kids upd k) as [[_ Hl]|(kv & Hkv & Hp & _)]; [rewrite Hl; apply Uch; assumption|].
    exfalso. destruct (Hkid _ Hkv) as (Hd0 & _ & Hb). rewrite Hp in Hb. exact (Hwf _ _ _ _ (Hsub _ Hin) Hlv Hin0 Hd0 Hb).
  - intros k cv Hin Hd. rewrite lookup_insert. apply in_app_iff in Hin. destruct Hin as [Hin|[[= <- <-]|[]]].
    + deq k k0; [exfalso; exact (Hne _ _ Hin E)|].
      destruct (kids_fold_cases (mark i) kids upd k) as [[_ Hl]|(kv & Hkv & Hp & Hl)]; rewrite Hl; [apply (Udel _ _ Hin Hd)|].
      exists (mark i (snd kv)). split; [reflexivity|]. split; [reflexivity|exact Hp].
    + rewrite eqb_str_refl. exists cv0. split; [reflexivity|]. split; [exact Hd|auto].
  - intros k v Hl. rewrite lookup_insert in Hl. deq k k0.
    + injection Hl as <-. subst k. left. apply in_app_iff. right. left. reflexivity.
    + destruct (kids_fold_cases (mark i) kids upd k) as [[_ Hl2]|(kv & Hkv & Hp & Hl2)]; rewrite Hl2 in Hl.
      * destruct (Ucases _ _ Hl) as [Hin|(H2 & H3 & H4 & H5 & kc & cv & H6 & H7)].
        -- left. apply in_app_iff. auto.
        -- right. repeat (split; [assumption|]). exists kc, cv. split; [apply in_app_iff; auto|exact H7].
      * injection Hl as <-. destruct (Hkid _ Hkv) as (Hd0 & Hs & Hb). rewrite Hp in Hs, Hb. right.
        split; [exact Hp|]. split; [reflexivity|]. split; [reflexivity|]. split; [exact Hs|].
        exists k0, cv0. split; [apply in_app_iff; right; left; reflexivity|]. split; assumption.
  - intros k kc cv Hk Hin Hd Hb. rewrite lookup_insert. deq k k0; [discriminate|].
    destruct (kids_fold_cases (mark i) kids upd k) as [[Hno Hl]|(kv & _ & _ & Hl)]; rewrite Hl; [|discriminate].
    apply in_app_iff in Hin. destruct Hin as [Hin|[[= <- <-]|[]]]; [exact (Ukids _ _ _ Hk Hin Hd Hb)|].
    exfalso. destruct (Hall Hd k Hk Hb) as (kv & Hkv & Hp). exact (Hno kv Hkv Hp).
Qed.

Lemma adc_step_paths i upd st x : paths (snd (adc_step i (upd, st) x)) = paths st.
Proof.
  destruct x as [k cv]. cbn [adc_step]. destruct (pv_deleted cv); cbn [snd]; [|reflexivity].
  unfold paths. rewrite map_map. apply map_ext. intros [k' v]. destruct (is_path_below _ _); reflexivity.
Qed.

Lemma adc_step_inv i c vw (k0 : str) (cv0 : pv) c1 c2 upd st :
  WFC c -> c = c1 ++ (k0, cv0) :: c2 -> paths st = paths vw -> upd_inv i c1 vw upd ->
  upd_inv i (c1 ++ [(k0, cv0)]) vw (fst (adc_step i (upd, st) (k0, cv0))).
Proof.
  intros Hw Hc Hst Hinv.
  assert (Hin0 : In (k0, cv0) c) by (rewrite Hc; apply in_elt).
  destruct (proj2 (proj1 Hw) _ _ Hin0) as [Hk0 Hp0].
  unfold adc_step. cbv zeta. rewrite <- Hk0. destruct (pv_deleted cv0) eqn:Edel; cbn [fst].
  - apply (upd_inv_snoc i c vw k0 cv0 c1 c2 upd (filter (fun '(_, v) => is_path_below (pv_path v) k0) st) Hw Hc Hinv).
    + intros [k v] Hin. apply filter_In in Hin. destruct Hin as [Hin Hh]. split; [exact Edel|]. cbn [snd]. split.
      * rewrite <- Hst. apply (in_map (fun kv => pv_path (snd kv)) _ _ Hin).
      * apply (below_spec _ _ Hp0). exact Hh.
    + intros _ k Hk Hb. rewrite <- Hst in Hk. apply in_map_iff in Hk. destruct Hk as ([k' v'] & Hp & Hs).
      exists (k', v'). split; [|exact Hp]. apply filter_In. split; [exact Hs|]. cbn in Hp. rewrite Hp.
      apply (below_spec _ _ Hp0). exact Hb.
  - apply (upd_inv_snoc i c vw k0 cv0 c1 c2 upd [] Hw Hc Hinv); [intros kv []|intros; congruence].
Qed.

(* the updated change values of AddDeleteChildren, for a well-formed change [c] and ANY store [vw] *)
Definition upd_spec (i : N) (c vw upd : cmap) : Prop := upd_inv i c vw upd.

Theorem adc_spec i c vw : WFC c -> upd_spec i c vw (fst (add_delete_children i c vw)).
Proof.
  intros Hw. rewrite adc_fold.
  refine (proj2 (fold_left_prefix (adc_step i) (fun c1 a => paths (snd a) = paths vw /\ upd_inv i c1 vw (fst a)) c _ _ _)).
  - intros c1 [k0 cv0] c2 [upd st] Hc [Hst Hinv]. split; [rewrite adc_step_paths; exact Hst|].
    exact (adc_step_inv i c vw k0 cv0 c1 c2 upd st Hw Hc Hst Hinv).
  - split; [reflexivity|].
    split; [constructor|intros k cv []|intros k cv []|intros k v H; discriminate H|intros k kc cv _ []].
Qed.

(** * The recording loop: applyChangeToConfig over the updated change values *)
Definition tombb (o : option pv) : bool := match o with Some e => pv_deleted e | None => false end.
Definition isnone {A} (o : option A) : bool := match o with Some _ => false | None => true end.

(* removing the keys of [A], one after the other, where [c] says so *)
Definition rm_step (c : str -> option pv -> bool) (acc : cmap) (a : str) : cmap :=
  if c a (lookup a acc) then remove a acc else acc.

Lemma rm_fold c A : forall st, ND st ->
  ND (fold_left (rm_step c) A st) /\
  (forall x, In x (fold_left (rm_step c) A st) -> In x st) /\
  forall k, lookup k (fold_left (rm_step c) A st) =
            if existsb (eqb_str k) A && c k (lookup k st) then None else lookup k st.
Proof.
  induction A as [|a A IH]; intros st Hn; cbn [fold_left].
  - split; [exact Hn|]. split; [auto|]. reflexivity.
  - unfold rm_step at 2 4 6. cbn [existsb]. destruct (c a (lookup a st)) eqn:Ec.
    + destruct (IH (remove a st) (ND_remove a st Hn)) as (I1 & I2 & I3). split; [exact I1|].
      split; [intros x Hx; eapply In_remove; apply I2; exact Hx|]. intros k. rewrite I3, (lookup_remove k a st Hn).
      deq k a; [|reflexivity]. subst k. rewrite Ec. destruct (_ && _); reflexivity.
    + destruct (IH st Hn) as (I1 & I2 & I3). split; [exact I1|]. split; [exact I2|]. intros k. rewrite I3.
      deq k a; [|reflexivity]. subst k. rewrite Ec, !andb_false_r. reflexivity.
Qed.

Lemma acta_eq acc p v :
  fst (apply_change_to_config acc p v) =
  if pv_deleted v then insert p v acc else fold_left (rm_step (fun _ => tombb)) (ancestors p) (insert p v acc).
Proof.
  unfold apply_change_to_config. destruct (pv_deleted v); [reflexivity|].
  generalize (insert p v acc), (@None (str * pv)). induction (ancestors p) as [|a A IH]; intros m d; [reflexivity|].
  cbn [fold_left]. unfold rm_step at 2. destruct (lookup a m) as [e|]; cbn [tombb]; [destruct (pv_deleted e)|]; apply IH.
Qed.

Lemma acta_ND acc p v : ND acc -> ND (fst (apply_change_to_config acc p v)).
Proof.
  intros Hn. rewrite acta_eq. destruct (pv_deleted v); [apply ND_insert; exact Hn|].
  apply rm_fold. apply ND_insert. exact Hn.
Qed.

Lemma acta_In acc p v x : ND acc -> In x (fst (apply_change_to_config acc p v)) -> x = (p, v) \/ In x acc.
Proof.
  intros Hn. rewrite acta_eq. destruct (pv_deleted v); [apply In_insert|].
  intros H. apply rm_fold in H; [|apply ND_insert; exact Hn]. apply In_insert. exact H.
Qed.

Lemma acta_WF acc p v : WF acc -> p = pv_path v /\ proper p = true -> WF (fst (apply_change_to_config acc p v)).
Proof.
  intros [Hn Hk] Hp. split; [apply acta_ND; exact Hn|]. intros k' v' H. apply acta_In in H; [|exact Hn].
  destruct H as [[= -> ->]|H]; [exact Hp|apply Hk; exact H].
Qed.

Lemma acta_lookup acc p v k : ND acc -> KO acc ->
  lookup k (fst (apply_change_to_config acc p v)) =
  if eqb_str k p then Some v
  else if negb (pv_deleted v) && tombb (lookup k acc) && is_path_below p k then None else lookup k acc.
Proof.
  intros Hn Hk. rewrite acta_eq. destruct (pv_deleted v) eqn:Ed.
  - rewrite lookup_insert. cbn. reflexivity.
  - rewrite (proj2 (proj2 (rm_fold _ (ancestors p) _ (ND_insert p v acc Hn)))), lookup_insert. deq k p.
    + cbn. rewrite Ed, andb_false_r. reflexivity.
    + cbn [negb andb]. destruct (lookup k acc) as [e|] eqn:Ek; cbn [tombb]; [|rewrite andb_false_r; reflexivity].
      destruct (pv_deleted e); [|rewrite andb_false_r; reflexivity].
      rewrite andb_true_r, (existsb_ancestors p k (proj2 (KO_lookup _ _ _ Hk Ek))). reflexivity.
Qed.

Definition act_fold (l va : cmap) : cmap :=
  fold_left (fun acc '(p, v) => fst (apply_change_to_config acc p v)) l va.
(* a live value of [l] lies beneath [k] *)
Definition dropb (l : cmap) (k : str) : bool :=
  existsb (fun kv => negb (pv_deleted (snd kv)) && is_path_below (fst kv) k) l.
Lemma dropb_spec l k : dropb l k = true <-> exists p u, In (p, u) l /\ pv_deleted u = false /\ is_path_below p k = true.
Proof.
  unfold dropb. rewrite existsb_exists. split.
  - intros ([p u] & H1 & H2). apply andb_true_iff in H2. destruct H2 as [H2 H3]. apply negb_true_iff in H2. exists p, u. auto.
  - intros (p & u & H1 & H2 & H3). exists (p, u). split; [exact H1|]. cbn. rewrite H2, H3. reflexivity.
Qed.

(* no tombstone of [l] above a live value of [l] *)
Definition NoTombAbove (l : cmap) : Prop :=
  forall k v a e, In (k, v) l -> pv_deleted v = false -> In (a, e) l -> pv_deleted e = true -> is_path_below k a = false.

Lemma act_fold_WF l : forall va, WF va -> KO l -> WF (act_fold l va).
Proof.
  unfold act_fold. induction l as [|[p v] l IH]; intros va Hw Hl; cbn [fold_left]; [exact Hw|].
  apply IH; [|intros k' v' H; apply Hl; right; exact H]. apply (acta_WF _ _ _ Hw). apply Hl. left. reflexivity.
Qed.

Lemma act_fold_In l : forall va x, ND va -> In x (act_fold l va) -> In x l \/ In x va.
Proof.
  unfold act_fold. induction l as [|[p v] l IH]; intros va x Hn; cbn [fold_left]; [auto|]. intros H.
  apply IH in H; [|apply acta_ND; exact Hn]. destruct H as [H|H]; [left; right; exact H|].
  apply acta_In in H; [|exact Hn]. destruct H as [->|H]; [left; left; reflexivity|right; exact H].
Qed.

Theorem act_fold_lookup l : forall va k, WF va -> ND l -> KO l -> NoTombAbove l ->
  lookup k (act_fold l va) =
  match lookup k l with
  | Some v => Some v
  | None => match lookup k va with
            | Some e => if pv_deleted e && dropb l k then None else Some e
            | None => None
            end
  end.
Proof.
  induction l as [|[p v] l IH]; intros va k Hw Hn Hk Ht.
  - cbn. destruct (lookup k va) as [e|]; [rewrite andb_false_r|]; reflexivity.
  - pose proof (acta_WF va p v Hw (Hk _ _ (or_introl eq_refl))) as Hw1.
    apply ND_cons in Hn. destruct Hn as [Hp Hn'].
    change (act_fold ((p, v) :: l) va) with (act_fold l (fst (apply_change_to_config va p v))).
    rewrite (IH _ k Hw1 Hn'), (acta_lookup va p v k (proj1 Hw) (proj2 Hw)).
    2: intros k' v' H; apply Hk; right; exact H.
    2: intros k1 v1 a e H1 H2 H3 H4; apply (Ht k1 v1 a e); [right; exact H1|exact H2|right; exact H3|exact H4].
    cbn [lookup]. deq k p.
    + subst k.
      rewrite Hp. destruct (pv_deleted v) eqn:Ed; [|reflexivity]. cbn [andb].
      destruct (dropb l p) eqn:Edr; [|reflexivity]. exfalso. apply dropb_spec in Edr. destruct Edr as (w & vw & Hin & H1 & H2).
      rewrite (Ht w vw p v) in H2; [discriminate|right; exact Hin|exact H1|left; reflexivity|exact Ed].
    + destruct (lookup k l) as [v'|]; [reflexivity|].
      unfold dropb. cbn [existsb fst snd]. fold (dropb l k).
      destruct (lookup k va) as [e|] eqn:Ek; cbn [tombb]; [|rewrite andb_false_r; reflexivity].
      destruct (pv_deleted e) eqn:Ede; [|rewrite andb_false_r; cbn; rewrite Ede; reflexivity].
      rewrite andb_true_r. destruct (negb (pv_deleted v) && is_path_below p k); cbn; [reflexivity|].
      rewrite Ede. reflexivity.
Qed.

(** * PrunePathValues, live *)
Lemma snd_in_lookup M v : WF M -> (In v (map snd M) <-> lookup (pv_path v) M = Some v).
Proof.
  intros [Hn Hk]. split.
  - intros H. apply in_map_iff in H. destruct H as ([k v'] & E & Hin). cbn in E. subst v'.
    destruct (Hk _ _ Hin) as [-> _]. apply in_lookup; assumption.
  - intros H. apply lookup_in in H. apply in_map_iff. exists (pv_path v, v). auto.
Qed.

Lemma paths_keys M : KO M -> map pv_path (map snd M) = map fst M.
Proof.
  intros Hk. rewrite map_map. apply map_ext_in. intros [k v] Hin. cbn. destruct (Hk _ _ Hin). auto.
Qed.

Lemma dels_in M d : KO M ->
  (In d (map pv_path (filter pv_deleted (map snd M))) <-> exists e, In (d, e) M /\ pv_deleted e = true).
Proof.
  intros Hk. rewrite in_map_iff. split.
  - intros (e & <- & He). apply filter_In in He. destruct He as [He Hdel]. apply in_map_iff in He.
    destruct He as ([t e'] & E & Hin). cbn in E. subst e'. destruct (Hk _ _ Hin) as [-> _]. eauto.
  - intros (e & Hin & Hdel). exists e. destruct (Hk _ _ Hin) as [-> _]. split; [reflexivity|].
    apply filter_In. split; [exact (in_map snd _ _ Hin)|exact Hdel].
Qed.

Lemma below_deleted_covered M p : KO M -> below_deleted p (map pv_path (filter pv_deleted (map snd M))) = covered M p.
Proof.
  intros Hk. rewrite below_deleted_spec.
  - apply eq_true_iff_eq. rewrite covered_spec, existsb_exists. split.
    + intros (d & Hd & Hb). apply (dels_in _ _ Hk) in Hd. destruct Hd as (e & Hin & Hdel). exists d, e. auto.
    + intros (t & e & Hin & Hdel & Hb). exists t. split; [apply (dels_in _ _ Hk); eauto|exact Hb].
  - intros d Hd. apply (dels_in _ _ Hk) in Hd. destruct Hd as (e & Hin & _). apply (Hk _ _ Hin).
Qed.

Lemma prune_in M kt v : WF M ->
  (In v (prune_path_values (map snd M) kt) <->
   lookup (pv_path v) M = Some v /\ covered M (pv_path v) = false /\ (pv_deleted v = false \/ kt = true)).
Proof.
  intros Hw. unfold prune_path_values.
  rewrite filter_In, (below_deleted_covered _ _ (proj2 Hw)), sort_pvs_isort, isort_in, (snd_in_lookup _ _ Hw).
  rewrite andb_true_iff, orb_true_iff, !negb_true_iff. tauto.
Qed.

(* [p] is a live leaf of value [x]: not deleted, not beneath a tombstone *)
Definition lvp (M : cmap) (p x : str) : Prop :=
  exists v, lookup p M = Some v /\ pv_deleted v = false /\ pv_val v = x /\ covered M p = false.

Lemma live_in M p x : WF M -> (In (p, x) (live M) <-> lvp M p x).
Proof.
  intros Hw. unfold live, lvp. rewrite in_map_iff. split.
  - intros (v & [= <- <-] & Hin). apply (prune_in _ _ _ Hw) in Hin. destruct Hin as (H1 & H2 & [H3|H3]); [|discriminate].
    exists v. auto.
  - intros (v & H1 & H2 & H3 & H4). destruct (KO_lookup _ _ _ (proj2 Hw) H1) as [Hp _]. exists v. subst x. rewrite Hp.
    split; [reflexivity|]. apply (prune_in _ _ _ Hw). rewrite Hp. auto.
Qed.

Lemma prune_sorted M kt : WF M -> StronglySorted (klt pv_path) (prune_path_values (map snd M) kt).
Proof.
  intros [Hn Hk]. unfold prune_path_values. apply ksorted_filter. rewrite sort_pvs_isort. apply isort_klt.
  rewrite (paths_keys _ Hk). exact Hn.
Qed.

Lemma live_sorted M : WF M -> StronglySorted (klt fst) (live M).
Proof. intros Hw. unfold live. apply (ksorted_map pv_path fst); [reflexivity|]. apply prune_sorted. exact Hw. Qed.

Theorem live_ext M1 M2 : WF M1 -> WF M2 -> (forall p x, lvp M1 p x <-> lvp M2 p x) -> live M1 = live M2.
Proof.
  intros H1 H2 H. apply (ksorted_ext fst); [apply live_sorted; exact H1|apply live_sorted; exact H2|].
  intros [p x]. rewrite (live_in _ _ _ H1), (live_in _ _ _ H2). apply H.
Qed.

Lemma pruned_none M k : WF M -> (lookup k (prune_path_map M true) = None <-> lookup k M = None \/ covered M k = true).
Proof.
  intros Hw. unfold prune_path_map. rewrite lookup_none, map_map. cbn [fst]. split.
  - intros H. destruct (lookup k M) as [v|] eqn:E; [|left; reflexivity]. destruct (covered M k) eqn:Ec; [right; reflexivity|].
    exfalso. apply H. destruct (KO_lookup _ _ _ (proj2 Hw) E) as [Hp _]. apply in_map_iff. exists v. split; [exact Hp|].
    apply (prune_in _ _ _ Hw). rewrite Hp. auto.
  - intros H Hin. apply in_map_iff in Hin. destruct Hin as (v & Hp & Hin). apply (prune_in _ _ _ Hw) in Hin.
    rewrite Hp in Hin. destruct Hin as (H1 & H2 & _). destruct H as [H|H]; congruence.
Qed.

Lemma covered_below M p q : KO M -> proper q = true -> is_path_below p q = true -> covered M q = true -> covered M p = true.
Proof.
  intros Hk Hq Hb Hc. apply covered_spec in Hc. destruct Hc as (t & e & Hin & Hdel & Hb'). apply covered_spec. exists t, e.
  split; [exact Hin|]. split; [exact Hdel|]. exact (is_path_below_trans p q t Hq (proj2 (Hk _ _ Hin)) Hb Hb').
Qed.

(* the topmost tombstone above a covered path is itself not covered *)
Lemma covered_top M : KO M -> forall n p, (length p <= n)%nat -> covered M p = true ->
  exists t e, In (t, e) M /\ pv_deleted e = true /\ is_path_below p t = true /\ covered M t = false.
Proof.
  intros Hk. induction n as [|n IH]; intros p Hlen Hc; apply covered_spec in Hc; destruct Hc as (t & e & Hin & Hdel & Hb);
    pose proof (proj2 (Hk _ _ Hin)) as Hpt; pose proof (Below_len _ _ (proj1 (below_spec _ _ Hpt) Hb)) as Hlt; [lia|].
  destruct (covered M t) eqn:Ect; [|exists t, e; auto].
  destruct (IH t) as (t' & e' & Hin' & Hdel' & Hb' & Hc'); [lia|exact Ect|].
  exists t', e'. split; [exact Hin'|]. split; [exact Hdel'|]. split; [|exact Hc'].
  exact (is_path_below_trans p t t' Hpt (proj2 (Hk _ _ Hin')) Hb Hb').
Qed.

Lemma same_content_spec e v : same_content e v = true ->
  pv_deleted e = pv_deleted v /\ (pv_deleted v = false -> pv_val e = pv_val v).
Proof.
  unfold same_content. intros H. apply andb_true_iff in H. destruct H as [H1 H2]. apply eqb_prop in H1. split; [exact H1|].
  intros Hd. rewrite Hd in H2. apply eqb_str_eq. exact H2.
Qed.

(* [M] holds, content-wise, every uncovered entry of [X], and nothing that [X] does not hold: same live leaves *)
Section PruneEquiv.
  Context (X M : cmap) (HX : WF X) (HM : WF M)
          (H1 : forall k v, lookup k X = Some v -> covered X k = false ->
                            exists v', lookup k M = Some v' /\ same_content v' v = true)
          (H2 : forall k, lookup k M <> None -> lookup k X <> None).

  Lemma prune_equiv_back k e : lookup k M = Some e -> covered X k = false ->
    exists e', lookup k X = Some e' /\ same_content e e' = true.
  Proof.
    intros Hl Hc. destruct (lookup k X) as [e'|] eqn:Ek; [|exfalso; apply (H2 k); congruence].
    destruct (H1 _ _ Ek Hc) as (v' & Hv' & Hs). rewrite Hl in Hv'. injection Hv' as <-. eauto.
  Qed.

  Lemma prune_equiv_cov p : covered M p = covered X p.
  Proof.
    apply eq_true_iff_eq. split; intros Hc.
    - apply covered_spec in Hc. destruct Hc as (t & e & Hin & Hdel & Hb).
      destruct (covered X t) eqn:Ect; [exact (covered_below X p t (proj2 HX) (proj2 (proj2 HM _ _ Hin)) Hb Ect)|].
      destruct (prune_equiv_back t e (in_lookup _ _ _ (proj1 HM) Hin) Ect) as (e' & Et & Hs). apply same_content_spec in Hs.
      apply covered_spec. exists t, e'. split; [apply lookup_in; exact Et|]. split; [destruct Hs; congruence|exact Hb].
    - destruct (covered_top X (proj2 HX) (length p) p (le_n _) Hc) as (t & e & Hin & Hdel & Hb & Hct).
      destruct (H1 _ _ (in_lookup _ _ _ (proj1 HX) Hin) Hct) as (v' & Hv' & Hs). apply same_content_spec in Hs.
      apply covered_spec. exists t, v'. split; [apply lookup_in; exact Hv'|]. split; [destruct Hs; congruence|exact Hb].
  Qed.

  Theorem prune_equiv p x : lvp M p x <-> lvp X p x.
  Proof.
    unfold lvp. rewrite prune_equiv_cov. split.
    - intros (v & Hl & Hd & Hv & Hc). destruct (prune_equiv_back p v Hl Hc) as (e & Ep & Hs).
      destruct (same_content_spec _ _ Hs) as [Hs1 Hs2]. rewrite Hd in Hs1. symmetry in Hs1.
      exists e. split; [exact Ep|]. split; [exact Hs1|]. split; [|exact Hc]. rewrite <- (Hs2 Hs1). exact Hv.
    - intros (v & Hl & Hd & Hv & Hc). destruct (H1 _ _ Hl Hc) as (v' & Hv' & Hs).
      destruct (same_content_spec _ _ Hs) as [Hs1 Hs2].
      exists v'. split; [exact Hv'|]. split; [congruence|]. split; [|exact Hc]. rewrite (Hs2 Hd). exact Hv.
  Qed.
End PruneEquiv.

(** * store() *)
Definition sw_step (m X pruned : cmap) : cmap -> str * pv -> cmap :=
  fun st '(_, v) =>
    match lookup (pv_path v) m, lookup (pv_path v) pruned with
    | None, Some _ => clear_ancestors m X v (insert (pv_path v) v st)
    | None, None => st
    | Some _, None => remove (pv_path v) st
    | Some e, Some _ => if pv_index v =? pv_index e then st else clear_ancestors m X v (insert (pv_path v) v st)
    end.

Lemma sw_fold m X : store_write m X = fold_left (sw_step m X (prune_path_map X true)) X m.
Proof. reflexivity. Qed.

(* a stored tombstone that the writer no longer holds *)
Definition ccond (m X : cmap) (k : str) : bool := isnone (lookup k X) && tombb (lookup k m).

Lemma clear_spec m X v st : ND st ->
  ND (clear_ancestors m X v st) /\
  forall k, lookup k (clear_ancestors m X v st) =
            if negb (pv_deleted v) && existsb (eqb_str k) (ancestors (pv_path v)) && ccond m X k then None else lookup k st.
Proof.
  intros Hn. unfold clear_ancestors. destruct (pv_deleted v).
  - split; [exact Hn|reflexivity].
  - replace (fold_left _ _ st) with (fold_left (rm_step (fun a _ => ccond m X a)) (ancestors (pv_path v)) st);
      [destruct (rm_fold (fun a _ => ccond m X a) (ancestors (pv_path v)) st Hn) as (R1 & _ & R3); split; [exact R1|exact R3]|].
    clear Hn. revert st. induction (ancestors (pv_path v)) as [|a A IH]; intros st; [reflexivity|]. cbn [fold_left].
    rewrite IH. f_equal. unfold rm_step, ccond. destruct (lookup a X); [reflexivity|]. destruct (lookup a m); reflexivity.
Qed.

(* a value of the written map that store() writes *)
Definition written (m X : cmap) (k : str) (v : pv) : bool :=
  negb (covered X k) && match lookup k m with None => true | Some e => negb (pv_index v =? pv_index e) end.
(* a written live value among [X1] lies beneath [k] *)
Definition clrb (m X X1 : cmap) (k : str) : bool :=
  existsb (fun kv => written m X (fst kv) (snd kv) && negb (pv_deleted (snd kv)) && is_path_below (fst kv) k) X1.
Definition sw_val (m X X1 : cmap) (k : str) : option pv :=
  match lookup k X1 with
  | Some v => if covered X k then None
              else match lookup k m with None => Some v | Some e => if pv_index v =? pv_index e then Some e else Some v end
  | None => match lookup k X with
            | Some _ => lookup k m
            | None => if tombb (lookup k m) && clrb m X X1 k then None else lookup k m
            end
  end.

Lemma sw_step_inv m X X1 k0 v0 X2 st :
  WF X -> WF m -> X = X1 ++ (k0, v0) :: X2 -> ND st -> (forall k, lookup k st = sw_val m X X1 k) ->
  ND (sw_step m X (prune_path_map X true) st (k0, v0)) /\
  forall k, lookup k (sw_step m X (prune_path_map X true) st (k0, v0)) = sw_val m X (X1 ++ [(k0, v0)]) k.
Proof.
  intros HX Hm HeqX Hn Hinv.
  assert (Hin0 : In (k0, v0) X) by (rewrite HeqX; apply in_elt).
  destruct (proj2 HX _ _ Hin0) as [Hk0 Hp0].
  assert (HX0 : lookup k0 X = Some v0) by (apply in_lookup; [apply HX|exact Hin0]).
  assert (HX1 : lookup k0 X1 = None).
  { apply lookup_none. apply (ND_mid_notin X1 k0 v0 X2). rewrite <- HeqX. apply HX. }
  assert (Hsub : forall k v, lookup k X1 = Some v -> lookup k X = Some v).
  { intros k v H. rewrite HeqX, lookup_app, H. reflexivity. }
  assert (Hst0 : lookup k0 st = lookup k0 m) by (rewrite Hinv; unfold sw_val; rewrite HX1, HX0; reflexivity).
  assert (Hsnoc : forall k, lookup k (X1 ++ [(k0, v0)]) =
                            match lookup k X1 with Some v => Some v | None => if eqb_str k k0 then Some v0 else None end).
  { intros k. rewrite lookup_app. cbn. reflexivity. }
  assert (Hclr : forall k, clrb m X (X1 ++ [(k0, v0)]) k =
                           clrb m X X1 k || (written m X k0 v0 && negb (pv_deleted v0) && is_path_below k0 k)).
  { intros k. unfold clrb. rewrite existsb_app. cbn. rewrite orb_false_r. reflexivity. }
  (* nothing is written for k0: its entry goes if it is covered and stays as stored otherwise *)
  assert (Hskip : written m X k0 v0 = false -> forall st',
                  (forall k, lookup k st' = if eqb_str k k0 then if covered X k0 then None else lookup k0 m else lookup k st) ->
                  forall k, lookup k st' = sw_val m X (X1 ++ [(k0, v0)]) k).
  { intros Hw st' L k. rewrite L. unfold sw_val. rewrite Hsnoc, Hclr, Hw. cbn [andb]. rewrite orb_false_r.
    deq k k0; [|rewrite Hinv; unfold sw_val; destruct (lookup k X1); reflexivity]. subst k. rewrite HX1. unfold written in Hw.
    destruct (covered X k0); [reflexivity|]. destruct (lookup k0 m); [|discriminate Hw]. apply negb_false_iff in Hw.
    rewrite Hw. reflexivity. }
  (* the value is written *)
  assert (HW : written m X k0 v0 = true ->
               ND (clear_ancestors m X v0 (insert k0 v0 st)) /\
               forall k, lookup k (clear_ancestors m X v0 (insert k0 v0 st)) = sw_val m X (X1 ++ [(k0, v0)]) k).
  { intros Hw. destruct (clear_spec m X v0 (insert k0 v0 st) (ND_insert k0 v0 st Hn)) as (C1 & C3).
    split; [exact C1|]. intros k. rewrite C3, <- Hk0, lookup_insert. unfold sw_val. rewrite Hsnoc, Hclr, Hw. cbn [andb].
    unfold written in Hw. apply andb_true_iff in Hw. destruct Hw as [Hw1 Hw2]. apply negb_true_iff in Hw1.
    deq k k0.
    - subst k. unfold ccond. rewrite HX0, HX1. cbn [isnone andb]. rewrite andb_false_r, Hw1.
      destruct (lookup k0 m) as [e|]; [|reflexivity]. apply negb_true_iff in Hw2. rewrite Hw2. reflexivity.
    - rewrite Hinv. unfold sw_val, ccond. destruct (lookup k X1) as [v|] eqn:E1.
      + rewrite (Hsub _ _ E1). cbn [isnone andb]. rewrite andb_false_r. reflexivity.
      + destruct (lookup k X) as [v|]; cbn [isnone andb]; [rewrite andb_false_r; reflexivity|].
        destruct (lookup k m) as [e|] eqn:Em; cbn [tombb]; [|rewrite andb_false_r; reflexivity].
        destruct (pv_deleted e); [|rewrite andb_false_r; reflexivity]. rewrite andb_true_r. cbn [andb].
        rewrite (existsb_ancestors k0 k (proj2 (KO_lookup _ _ _ (proj2 Hm) Em))).
        destruct (negb (pv_deleted v0)), (is_path_below k0 k), (clrb m X X1 k); reflexivity. }
  assert (Hcov : lookup k0 (prune_path_map X true) = None <-> covered X k0 = true).
  { rewrite (pruned_none X k0 HX), HX0. split; [intros [H|H]; [discriminate|exact H]|auto]. }
  unfold sw_step. rewrite <- Hk0. destruct (lookup k0 (prune_path_map X true)) as [pe|] eqn:Ep.
  - (* kept by the pruning *)
    assert (Hc : covered X k0 = false) by (apply not_true_is_false; intros Hc; apply Hcov in Hc; congruence).
    destruct (lookup k0 m) as [e|] eqn:Em; [destruct (pv_index v0 =? pv_index e) eqn:Ei|].
    + assert (Hw : written m X k0 v0 = false) by (unfold written; rewrite Em, Ei, andb_false_r; reflexivity).
      split; [exact Hn|]. apply (Hskip Hw). intros k. deq k k0; [|reflexivity]. subst k. rewrite Hc. exact Hst0.
    + apply HW. unfold written. rewrite Em, Ei, Hc. reflexivity.
    + apply HW. unfold written. rewrite Em, Hc. reflexivity.
  - (* pruned: removed if stored, skipped otherwise *)
    assert (Hc : covered X k0 = true) by (apply Hcov; reflexivity).
    assert (Hw : written m X k0 v0 = false) by (unfold written; rewrite Hc; reflexivity).
    destruct (lookup k0 m) as [e|] eqn:Em.
    + split; [apply ND_remove; exact Hn|]. apply (Hskip Hw). intros k. rewrite (lookup_remove k k0 st Hn), Hc. reflexivity.
    + split; [exact Hn|]. apply (Hskip Hw). intros k. deq k k0; [|reflexivity]. subst k. rewrite Hc. exact Hst0.
Qed.

Lemma store_write_inv m X : WF X -> WF m -> ND (store_write m X) /\ forall k, lookup k (store_write m X) = sw_val m X X k.
Proof.
  intros HX Hm. rewrite sw_fold.
  apply (fold_left_prefix (sw_step m X (prune_path_map X true)) (fun X1 st => ND st /\ forall k, lookup k st = sw_val m X X1 k) X).
  - intros X1 [k0 v0] X2 st HeqX [Hn Hinv]. exact (sw_step_inv m X X1 k0 v0 X2 st HX Hm HeqX Hn Hinv).
  - split; [exact (proj1 Hm)|]. intros k. unfold sw_val. cbn [lookup]. destruct (lookup k X); [reflexivity|]. unfold clrb. cbn. rewrite andb_false_r. reflexivity.
Qed.

Lemma store_write_In m X x : WF X -> WF m -> In x (store_write m X) -> In x m \/ In x X.
Proof.
  intros HX Hm. destruct (store_write_inv m X HX Hm) as (R1 & R3). destruct x as [k v]. intros H.
  apply (in_lookup _ _ _ R1) in H. rewrite R3 in H. unfold sw_val in H. destruct (lookup k X) as [w|] eqn:EX.
  - destruct (covered X k); [discriminate|].
    destruct (lookup k m) as [e|] eqn:Em; [destruct (_ =? _)|]; injection H as <-; [left|right|right]; apply lookup_in; assumption.
  - left. apply lookup_in. destruct (_ && _); [discriminate|exact H].
Qed.

Theorem store_write_spec m X : WF X -> WF m ->
  WF (store_write m X) /\ forall k, lookup k (store_write m X) = sw_val m X X k.
Proof.
  intros HX Hm. destruct (store_write_inv m X HX Hm) as (R1 & R3). split; [|exact R3]. split; [exact R1|].
  intros k v Hin. destruct (store_write_In m X _ HX Hm Hin) as [H|H]; [apply (proj2 Hm)|apply (proj2 HX)]; exact H.
Qed.
