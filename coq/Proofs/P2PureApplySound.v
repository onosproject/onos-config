(* C04, concrete pure layer: apply_sound for Model/P2Pure.v, ALL values.
   After an OK answer the device [dev_apply d req] (req = payload i vw ch) holds exactly the live leaves of what
   [record_applied ord i m (overlay inl m) vw ch] stores, for every Go-map order [ord], every committed view [vw],
   provided the device agreed with the applied values before and [wf_apply inl m ch] holds.  Stdlib only. *)
From Coq Require Import List PeanoNat NArith Bool Lia Permutation Sorted.
From OC Require Import Base.Bytes Model.P2Pure Proofs.P2PureApplyDefs Proofs.P2PureApplyBase Proofs.P2PureApplySem.
Import ListNotations.
Open Scope N_scope.

(** * The device *)
Definition NDd (d : dstate) : Prop := NoDup (map fst d).

Lemma NoDup_map_filter {A B} (g : A -> B) f l : NoDup (map g l) -> NoDup (map g (filter f l)).
Proof.
  induction l as [|a l IH]; cbn; intros H; [constructor|]. inversion H as [|? ? Hnot Hnd]; subst.
  destruct (f a); cbn; [|auto]. constructor; [|auto]. intros Hin. apply Hnot. apply in_map_iff in Hin.
  destruct Hin as (y & <- & Hy). apply filter_In in Hy. apply in_map. tauto.
Qed.

Definition del_step (m : dstate) (p : str) : dstate :=
  filter (fun kv => negb (eqb_str (fst kv) p || is_path_below (fst kv) p)) m.
Definition upd_step (m : dstate) (kv : str * str) : dstate := d_remove (fst kv) m ++ [kv].
Lemma dev_apply_eq d r : dev_apply d r = fold_left upd_step (r_upd r) (fold_left del_step (r_del r) d).
Proof. reflexivity. Qed.

Lemma filter_filter {A} (f g : A -> bool) l : filter f (filter g l) = filter (fun x => g x && f x) l.
Proof.
  induction l as [|a l IH]; cbn; [reflexivity|]. destruct (g a); cbn; [destruct (f a); rewrite IH; reflexivity|exact IH].
Qed.

Definition keepb (dels : list str) (kv : str * str) : bool :=
  forallb (fun p => negb (eqb_str (fst kv) p || is_path_below (fst kv) p)) dels.

Lemma del_fold_filter dels : forall d, fold_left del_step dels d = filter (keepb dels) d.
Proof.
  induction dels as [|t dels IH]; intros d; cbn [fold_left].
  - unfold keepb. cbn. induction d as [|a d IHd]; cbn; [reflexivity|]. rewrite <- IHd. reflexivity.
  - rewrite IH. unfold del_step. rewrite filter_filter. apply filter_ext. intros kv. reflexivity.
Qed.

Lemma del_fold_in dels d x :
  In x (fold_left del_step dels d) <->
  In x d /\ forall t, In t dels -> eqb_str (fst x) t = false /\ is_path_below (fst x) t = false.
Proof.
  rewrite del_fold_filter, filter_In. unfold keepb. rewrite forallb_forall.
  split; intros [H1 H2]; (split; [exact H1|]); intros t Ht; specialize (H2 t Ht);
    [apply negb_true_iff, orb_false_iff in H2|apply negb_true_iff, orb_false_iff]; exact H2.
Qed.

Lemma del_fold_nd dels d : NDd d -> NDd (fold_left del_step dels d).
Proof. rewrite del_fold_filter. apply NoDup_map_filter. Qed.

Lemma d_remove_filter k d : d_remove k d = filter (fun kv => negb (eqb_str k (fst kv))) d.
Proof.
  induction d as [|[k0 v0] d IH]; cbn; [reflexivity|]. rewrite IH. destruct (eqb_str k k0); reflexivity.
Qed.

Lemma upd_step_in d u x : In x (upd_step d u) <-> (In x d /\ fst x <> fst u) \/ x = u.
Proof.
  unfold upd_step. rewrite in_app_iff, d_remove_filter, filter_In, negb_true_iff, eqb_str_neq. cbn.
  split; [intros [[H1 H2]|[H|[]]]; [left; split; [exact H1|congruence]|right; auto]|].
  intros [[H1 H2]| ->]; [left; split; [exact H1|congruence]|right; left; reflexivity].
Qed.

Lemma upd_fold_in us : forall d x, NoDup (map fst us) ->
  (In x (fold_left upd_step us d) <-> In x us \/ (In x d /\ ~ In (fst x) (map fst us))).
Proof.
  induction us as [|u us IH]; intros d x Hn; cbn [fold_left].
  - cbn. tauto.
  - cbn in Hn. inversion Hn as [|? ? Hnot Hnd]; subst. rewrite (IH _ _ Hnd), upd_step_in. cbn [In map]. split.
    + intros [H|[[[H1 H2]|H1] H3]]; [left; right; exact H| |left; left; auto].
      right. split; [exact H1|]. intros [H|H]; [congruence|contradiction].
    + intros [[H|H]|[H1 H2]]; [subst x; right; split; [right; reflexivity|exact Hnot]|left; exact H|].
      right. split; [left; split; [exact H1|intros E; apply H2; left; auto]|intros H; apply H2; right; exact H].
Qed.

Lemma upd_step_nd d u : NDd d -> NDd (upd_step d u).
Proof.
  intros Hn. unfold NDd, upd_step. rewrite map_app. cbn.
  apply (Permutation_NoDup (l := fst u :: map fst (d_remove (fst u) d))); [apply Permutation_cons_append|].
  rewrite d_remove_filter. constructor; [|apply NoDup_map_filter; exact Hn].
  intros Hin. apply in_map_iff in Hin. destruct Hin as (y & E & Hy). apply filter_In in Hy. destruct Hy as [_ Hy].
  rewrite E, eqb_str_refl in Hy. discriminate.
Qed.

Lemma upd_fold_nd us : forall d, NDd d -> NDd (fold_left upd_step us d).
Proof. induction us as [|u us IH]; intros d Hn; cbn [fold_left]; [exact Hn|]. apply IH. apply upd_step_nd. exact Hn. Qed.

Theorem dev_apply_in d r p x : NoDup (map fst (r_upd r)) ->
  (In (p, x) (dev_apply d r) <->
   In (p, x) (r_upd r) \/
   (In (p, x) d /\ (forall t, In t (r_del r) -> eqb_str p t = false /\ is_path_below p t = false) /\
    ~ In p (map fst (r_upd r)))).
Proof.
  intros Hn. rewrite dev_apply_eq, (upd_fold_in _ _ _ Hn), del_fold_in. cbn [fst]. tauto.
Qed.

Lemma dev_apply_nd d r : NDd d -> NDd (dev_apply d r).
Proof. intros Hn. rewrite dev_apply_eq. apply upd_fold_nd. apply del_fold_nd. exact Hn. Qed.

(** * Agreement of a device with an applied-values map *)
Lemma abs_dev_live d M : WF M -> NDd d -> (forall p x, In (p, x) d <-> lvp M p x) -> abs_dev d = live M.
Proof.
  intros Hw Hn H. rewrite abs_dev_isort. apply (ksorted_ext fst); [apply isort_klt; exact Hn|apply live_sorted; exact Hw|].
  intros [p x]. rewrite (live_in _ _ _ Hw), <- H. apply isort_in.
Qed.

Lemma agree_inv d M : WF M -> abs_dev d = live M -> NDd d /\ forall p x, In (p, x) d <-> lvp M p x.
Proof.
  intros Hw H. rewrite abs_dev_isort in H. split.
  - unfold NDd. apply (Permutation_NoDup (Permutation_map fst (Permutation_sym (isort_perm (kltb fst) d)))).
    rewrite H. apply ksorted_nodup. apply live_sorted. exact Hw.
  - intros p x. rewrite <- (live_in _ _ _ Hw), <- H. symmetry. apply isort_in.
Qed.

(** * The request built from the updated change values *)
Lemma req_del upd t : WF upd ->
  (In t (r_del (to_req (prune_path_values (map snd upd) true))) <->
   exists v, lookup t upd = Some v /\ pv_deleted v = true /\ covered upd t = false).
Proof.
  intros Hw. unfold to_req. cbn [r_del]. rewrite in_map_iff. split.
  - intros (v & <- & Hin). apply filter_In in Hin. destruct Hin as [Hin Hd]. apply (prune_in _ _ _ Hw) in Hin.
    exists v. tauto.
  - intros (v & H1 & H2 & H3). destruct (KO_lookup _ _ _ (proj2 Hw) H1) as [Hp _]. exists v. split; [exact Hp|].
    apply filter_In. split; [|exact H2]. apply (prune_in _ _ _ Hw). rewrite Hp. auto.
Qed.

(* the updates of the request are the live view of the updated change values *)
Lemma req_upd_live upd : r_upd (to_req (prune_path_values (map snd upd) true)) = live upd.
Proof.
  unfold to_req, live, prune_path_values. cbn [r_upd]. rewrite filter_filter. f_equal. apply filter_ext. intros v.
  destruct (pv_deleted v), (below_deleted _ _); reflexivity.
Qed.

(** * Permutations *)
Lemma lookup_perm (l l' : cmap) k : Permutation l l' -> ND l -> lookup k l = lookup k l'.
Proof.
  intros Hp Hn. assert (Hn' : ND l') by (apply (Permutation_NoDup (Permutation_map fst Hp)); exact Hn).
  destruct (lookup k l) as [v|] eqn:E.
  - symmetry. apply in_lookup; [exact Hn'|]. apply (Permutation_in _ Hp). apply lookup_in. exact E.
  - symmetry. apply lookup_none. apply lookup_none in E. intros H. apply E.
    apply (Permutation_in _ (Permutation_sym (Permutation_map fst Hp))). exact H.
Qed.

Lemma existsb_perm {A} (f : A -> bool) l l' : Permutation l l' -> existsb f l = existsb f l'.
Proof.
  intros Hp. apply eq_true_iff_eq. rewrite !existsb_exists. split; intros (x & Hx & H); exists x; split; try exact H.
  - apply (Permutation_in _ Hp). exact Hx.
  - apply (Permutation_in _ (Permutation_sym Hp)). exact Hx.
Qed.

Lemma WF_perm (c c' : cmap) : Permutation c c' -> WF c -> WF c'.
Proof.
  intros Hp [Hn Hk]. split; [apply (Permutation_NoDup (Permutation_map fst Hp)); exact Hn|].
  intros k v Hin. apply Hk. apply (Permutation_in _ (Permutation_sym Hp)). exact Hin.
Qed.

Lemma WFC_perm (c c' : cmap) : Permutation c c' -> WFC c -> WFC c'.
Proof.
  intros Hp [Hw H]. split; [apply (WF_perm _ _ Hp Hw)|]. intros k v kd d H1 Hlv H2.
  apply (H k v kd d); [apply (Permutation_in _ (Permutation_sym Hp)); assumption|exact Hlv|apply (Permutation_in _ (Permutation_sym Hp)); assumption].
Qed.

Lemma upd_spec_perm i (c c' : cmap) vw upd : Permutation c c' -> upd_spec i c vw upd -> upd_spec i c' vw upd.
Proof.
  intros Hp [U1 U2 U2d U3 U4]. pose proof (Permutation_sym Hp) as Hp'. split.
  - exact U1.
  - intros k cv Hin. apply U2. apply (Permutation_in _ Hp'). exact Hin.
  - intros k cv Hin. apply U2d. apply (Permutation_in _ Hp'). exact Hin.
  - intros k v Hl. destruct (U3 _ _ Hl) as [Hin|(H2 & H3 & H4 & H5 & kc & cv & H6 & H7)].
    + left. apply (Permutation_in _ Hp). exact Hin.
    + right. repeat (split; [assumption|]). exists kc, cv. split; [apply (Permutation_in _ Hp); exact H6|exact H7].
  - intros k kc cv Hk Hin. apply U4; [exact Hk|apply (Permutation_in _ Hp'); exact Hin].
Qed.

Lemma upd_spec_permuted ord i ch vw : WFC ch -> upd_spec i ch vw (fst (add_delete_children i (permute ord ch) vw)).
Proof.
  intros Hch. pose proof (permute_perm ord ch) as Hp. apply (upd_spec_perm i (permute ord ch) ch); [exact Hp|].
  apply adc_spec. apply (WFC_perm ch); [apply Permutation_sym; exact Hp|exact Hch].
Qed.

Lemma record_applied_eq ord i m va vw ch :
  record_applied ord i m va vw ch =
  store_write m (act_fold (permute (rest_code (length ch) ord) (fst (add_delete_children i (permute ord ch) vw))) va).
Proof. reflexivity. Qed.

(** * What the updated change values hold *)
Lemma upd_WF i c vw upd : WFC c -> upd_spec i c vw upd -> WF upd.
Proof.
  intros [[Hn Hk] Hwf] [U1 U2 U2d U3 U4]. split; [exact U1|]. intros k v Hin. apply (in_lookup _ _ _ U1) in Hin.
  destruct (U3 _ _ Hin) as [H|(H2 & H3 & H4 & H5 & kc & cv & H6 & H7 & H8)]; [apply Hk; exact H|].
  split; [auto|]. apply (Below_proper _ _ H8). destruct (Hk _ _ H6) as [_ Hp]. apply proper_ne in Hp. tauto.
Qed.

Lemma upd_live i c vw upd k v : upd_spec i c vw upd -> lookup k upd = Some v -> pv_deleted v = false -> In (k, v) c.
Proof. intros [U1 U2 U2d U3 U4] Hl Hd. destruct (U3 _ _ Hl) as [H|(_ & H & _)]; [exact H|congruence]. Qed.

Lemma upd_not_below i c vw upd k v t e :
  WFC c -> upd_spec i c vw upd -> In (k, v) c -> pv_deleted v = false -> lookup t upd = Some e -> pv_deleted e = true ->
  proper t = true -> is_path_below k t = true -> False.
Proof.
  intros Hc Hu Hin Hlv Hl Hd Hp Hb. apply (below_spec _ _ Hp) in Hb.
  destruct (ui_cases _ _ _ _ Hu _ _ Hl) as [H|(_ & _ & _ & _ & kc & cv & H1 & H2 & H3)].
  - exact (proj2 Hc _ _ _ _ Hin Hlv H Hd Hb).
  - exact (proj2 Hc _ _ _ _ Hin Hlv H1 H2 (Below_trans _ _ _ Hb H3)).
Qed.

Lemma upd_ch_uncovered i c vw upd k v :
  WFC c -> upd_spec i c vw upd -> In (k, v) c -> pv_deleted v = false -> covered upd k = false.
Proof.
  intros Hc Hu Hin Hlv. apply cov_none. intros t e Ht Hd Hb. pose proof (upd_WF _ _ _ _ Hc Hu) as Hw.
  apply (upd_not_below i c vw upd k v t e Hc Hu Hin Hlv (in_lookup _ _ _ (proj1 Hw) Ht) Hd (proj2 (proj2 Hw _ _ Ht)) Hb).
Qed.

(* two runs of AddDeleteChildren over the same change (any two orders) hold the same keys, the same live values and
   tombstones at the same keys *)
Lemma upd_none_transfer i c vw u1 u2 k : upd_spec i c vw u1 -> upd_spec i c vw u2 -> lookup k u1 = None -> lookup k u2 = None.
Proof.
  intros [A1 A2 A2d A3 A4] [B1 B2 B2d B3 B4] H. destruct (lookup k u2) as [v|] eqn:E; [|reflexivity]. exfalso.
  destruct (B3 _ _ E) as [Hin|(_ & _ & _ & H5 & kc & cv & H6 & H7 & H8)].
  - destruct (pv_deleted v) eqn:Ed.
    + destruct (A2d _ _ Hin Ed) as (v' & Hv' & _). congruence.
    + rewrite (A2 _ _ Hin Ed) in H. discriminate.
  - exact (A4 _ _ _ H5 H6 H7 H8 H).
Qed.

Lemma upd_tomb_transfer i c vw u1 u2 t e : upd_spec i c vw u1 -> upd_spec i c vw u2 ->
  lookup t u1 = Some e -> pv_deleted e = true -> exists e', lookup t u2 = Some e' /\ pv_deleted e' = true.
Proof.
  intros Hu1 Hu2 Hl Hd. destruct (lookup t u2) as [e'|] eqn:E.
  - exists e'. split; [reflexivity|]. destruct (pv_deleted e') eqn:Ed; [reflexivity|]. exfalso.
    pose proof (upd_live _ _ _ _ _ _ Hu2 E Ed) as Hin. destruct Hu1 as [A1 A2 A2d A3 A4]. rewrite (A2 _ _ Hin Ed) in Hl.
    injection Hl as <-. congruence.
  - exfalso. rewrite (upd_none_transfer _ _ _ _ _ _ Hu2 Hu1 E) in Hl. discriminate.
Qed.

Lemma same_content_refl v : same_content v v = true.
Proof. unfold same_content. rewrite eqb_reflx, eqb_str_refl, orb_true_r. reflexivity. Qed.

Lemma idx_compat_spec m ch k e v : idx_compat m ch = true -> ND ch ->
  lookup k m = Some e -> In (k, v) ch -> pv_index v = pv_index e -> same_content e v = true.
Proof.
  unfold idx_compat. rewrite forallb_forall. intros H Hn Hm Hin Hi. specialize (H _ (lookup_in _ _ _ Hm)). cbn in H.
  rewrite (in_lookup _ _ _ Hn Hin) in H. symmetry in Hi. apply N.eqb_eq in Hi. rewrite Hi in H. exact H.
Qed.

Lemma nlb_spec va p v : no_live_below va = true -> lookup p va = Some v -> pv_deleted v = false -> covered va p = false.
Proof. intros H Hl. apply (proj1 (nlb_iff va) H). apply lookup_in. exact Hl. Qed.

Lemma uncovered_by_tops M p : KO M ->
  (forall t e, In (t, e) M -> pv_deleted e = true -> covered M t = false -> is_path_below p t = false) -> covered M p = false.
Proof.
  intros Hk H. destruct (covered M p) eqn:E; [|reflexivity].
  destruct (covered_top M Hk (length p) p (le_n _) E) as (t & e & Hin & Hd & Hb & Hc). rewrite (H t e Hin Hd Hc) in Hb. discriminate.
Qed.

Lemma neb_intro M : ND M -> (forall k v, lookup k M = Some v -> covered M k = false) -> no_entry_below M = true.
Proof.
  intros Hn H. unfold no_entry_below. apply forallb_forall. intros [k v] Hin. cbn. rewrite (H k v (in_lookup _ _ _ Hn Hin)). reflexivity.
Qed.

Lemma neb_nlb M : no_entry_below M = true -> no_live_below M = true.
Proof.
  unfold no_entry_below, no_live_below. rewrite !forallb_forall. intros H kv Hin. rewrite (H kv Hin). apply orb_true_r.
Qed.

(** * Loading a stored map with nothing inlined gives the map itself *)
Lemma overlay_nil_gen R : forall acc, ND (acc ++ R) -> fold_left (fun acc '(k, v) => insert k v acc) R acc = acc ++ R.
Proof.
  induction R as [|[k v] R IH]; intros acc Hn; cbn [fold_left]; [rewrite app_nil_r; reflexivity|].
  assert (Hk : lookup k acc = None) by (apply lookup_none; exact (ND_mid_notin acc k v R Hn)).
  unfold insert. rewrite Hk, IH; rewrite <- app_assoc; [reflexivity|exact Hn].
Qed.

Lemma overlay_nil R : ND R -> overlay [] R = R.
Proof. intros Hn. unfold overlay. apply (overlay_nil_gen R []). exact Hn. Qed.

Lemma wf_pair_nil R : WF R -> no_entry_below R = true -> wf_pair [] R = true.
Proof.
  intros Hw Hn. unfold wf_pair. rewrite (overlay_nil _ (proj1 Hw)), (neb_nlb _ Hn), (proj2 (wfk_WF R) Hw). reflexivity.
Qed.

Lemma wf_apply_spec inl m ch : wf_apply inl m ch = true ->
  WF inl /\ WF m /\ no_live_below (overlay inl m) = true /\ WFC ch /\ idx_compat m ch = true.
Proof. unfold wf_apply, wf_pair. rewrite !andb_true_iff, !wfk_WF, wf_change_WFC. tauto. Qed.

(** * The recorded applied values versus the device *)
Lemma va_m inl m k e : WF m -> lookup k m = Some e -> lookup k (overlay inl m) = Some e.
Proof. intros Hm H. rewrite (overlay_lookup m inl k (proj1 Hm)), H. reflexivity. Qed.

(* [va]: the values the recording loop starts from (the loaded applied values [overlay inl m] for the apply; the loaded view
   as mutated by AddDeleteChildren for the commit).  It holds the stored map [m], except where AddDeleteChildren marked. *)
Section Apply.
  Context (i : N) (m va vw ch upd upd' l : cmap).
  Context (Hva : WF va) (Hm : WF m) (Hnlb : no_live_below va = true)
          (Hvam : forall k e, lookup k m = Some e ->
                    lookup k va = Some e \/
                    (In k (paths vw) /\ exists kc cv, In (kc, cv) ch /\ pv_deleted cv = true /\ Below k kc))
          (Hch : WFC ch) (Hic : idx_compat m ch = true)
          (Hu : upd_spec i ch vw upd) (Hu' : upd_spec i ch vw upd') (Hl : Permutation l upd').

  Lemma va_m_none k e : lookup k m = Some e -> lookup k upd' = None -> lookup k va = Some e.
  Proof.
    intros H E0. destruct (Hvam _ _ H) as [Hv|(Hp & kc & cv & H6 & H7 & H8)]; [exact Hv|].
    exfalso. exact (ui_kids _ _ _ _ Hu' _ _ _ Hp H6 H7 H8 E0).
  Qed.
  Lemma va_m_live k e v : lookup k m = Some e -> In (k, v) ch -> pv_deleted v = false -> lookup k va = Some e.
  Proof.
    intros H Hin Hlv. destruct (Hvam _ _ H) as [Hv|(Hp & kc & cv & H6 & H7 & H8)]; [exact Hv|].
    exfalso. exact (proj2 Hch _ _ _ _ Hin Hlv H6 H7 H8).
  Qed.

  Lemma l_WF : WF l.
  Proof. apply (WF_perm upd'); [apply Permutation_sym; exact Hl|exact (upd_WF _ _ _ _ Hch Hu')]. Qed.
  Lemma l_NTA : NoTombAbove l.
  Proof.
    pose proof (upd_WF _ _ _ _ Hch Hu') as Hw.
    intros k v a e H1 H2 H3 H4. apply (Permutation_in _ Hl) in H1. apply (Permutation_in _ Hl) in H3.
    destruct (is_path_below k a) eqn:E; [|reflexivity]. exfalso.
    apply (upd_not_below i ch vw upd' k v a e Hch Hu'
             (upd_live _ _ _ _ _ _ Hu' (in_lookup _ _ _ (proj1 Hw) H1) H2) H2 (in_lookup _ _ _ (proj1 Hw) H3) H4
             (proj2 (proj2 Hw _ _ H3)) E).
  Qed.

  Lemma Xc_WF : WF (act_fold l va).
  Proof. apply act_fold_WF; [exact Hva|apply l_WF]. Qed.

  Lemma Xc_lookup k :
    lookup k (act_fold l va) =
    match lookup k upd' with
    | Some v => Some v
    | None => match lookup k va with
              | Some e => if pv_deleted e && dropb upd' k then None else Some e
              | None => None
              end
    end.
  Proof.
    rewrite (act_fold_lookup l _ k Hva (proj1 l_WF) (proj2 l_WF) l_NTA), (lookup_perm _ _ k Hl (proj1 l_WF)).
    unfold dropb. rewrite (existsb_perm _ _ _ Hl). reflexivity.
  Qed.

  Lemma Xc_cases k v : lookup k (act_fold l va) = Some v ->
    lookup k upd' = Some v \/ (lookup k upd' = None /\ lookup k va = Some v /\ pv_deleted v && dropb upd' k = false).
  Proof.
    rewrite Xc_lookup. destruct (lookup k upd') as [v0|]; [auto|]. destruct (lookup k va) as [e|]; [|discriminate].
    destruct (pv_deleted e && dropb upd' k) eqn:Ec; [discriminate|]. intros [= <-]. auto.
  Qed.

  Lemma ch_live_Xc p v : In (p, v) ch -> pv_deleted v = false ->
    lookup p (act_fold l va) = Some v /\ covered (act_fold l va) p = false.
  Proof.
    intros Hin Hd. pose proof (ui_ch _ _ _ _ Hu' _ _ Hin Hd) as Hp. split; [rewrite Xc_lookup, Hp; reflexivity|].
    apply cov_none. intros t e Ht Hde Hb.
    pose proof (proj2 (proj2 Xc_WF _ _ Ht)) as Hpt. apply (in_lookup _ _ _ (proj1 Xc_WF)) in Ht.
    destruct (Xc_cases _ _ Ht) as [E0|(_ & _ & Ec)].
    - exact (upd_not_below i ch vw upd' p v t e Hch Hu' Hin Hd E0 Hde Hpt Hb).
    - rewrite Hde in Ec. cbn in Ec.
      assert (dropb upd' t = true); [|congruence]. apply dropb_spec. exists p, v. split; [apply lookup_in; exact Hp|auto].
  Qed.

  (* the device side, stated on the lookup tables *)
  Definition dev_side (p x : str) : Prop :=
    lvp upd p x \/
    (lvp va p x /\
     (forall t v, lookup t upd = Some v -> pv_deleted v = true -> covered upd t = false -> p <> t /\ is_path_below p t = false) /\
     (forall x', ~ lvp upd p x')).

  Lemma dev_side_sound p x : dev_side p x <-> lvp (act_fold l va) p x.
  Proof.
    pose proof (upd_WF _ _ _ _ Hch Hu) as Hwu.
    split.
    - intros [(v & H1 & H2 & H3 & H4)|((v & H1 & H2 & H3 & H4) & Hnd & Hnu)].
      + pose proof (upd_live _ _ _ _ _ _ Hu H1 H2) as Hin. destruct (ch_live_Xc p v Hin H2) as [Ha Hb].
        exists v. auto.
      + (* the request deletes only the topmost tombstones; none of them above [p] means no tombstone at all above [p] *)
        assert (Hcp : covered upd p = false).
        { apply (uncovered_by_tops _ _ (proj2 Hwu)). intros t e Hin Hd Hc. apply (Hnd t e (in_lookup _ _ _ (proj1 Hwu) Hin) Hd Hc). }
        assert (Hup : lookup p upd = None).
        { destruct (lookup p upd) as [v'|] eqn:E; [|reflexivity]. exfalso. destruct (pv_deleted v') eqn:Ed.
          - destruct (Hnd p v' E Ed Hcp) as [Hx _]. congruence.
          - apply (Hnu (pv_val v')). exists v'. auto. }
        pose proof (upd_none_transfer _ _ _ _ _ _ Hu Hu' Hup) as Hup'.
        exists v. split; [rewrite Xc_lookup, Hup', H1, H2; reflexivity|]. split; [exact H2|]. split; [exact H3|].
        apply cov_none. intros t e Ht Hde Hb.
        apply (in_lookup _ _ _ (proj1 Xc_WF)) in Ht. destruct (Xc_cases _ _ Ht) as [E0|(_ & E1 & _)].
        * destruct (upd_tomb_transfer _ _ _ _ _ _ _ Hu' Hu E0 Hde) as (e' & He' & Hde').
          rewrite (cov_intro _ t e' p (lookup_in _ _ _ He') Hde' Hb) in Hcp. discriminate.
        * rewrite (cov_intro _ t e p (lookup_in _ _ _ E1) Hde Hb) in H4. discriminate.
    - intros (v & H1 & H2 & H3 & H4). destruct (Xc_cases _ _ H1) as [E0|(E0 & E1 & _)].
      + left. pose proof (upd_live _ _ _ _ _ _ Hu' E0 H2) as Hin. exists v.
        split; [apply (ui_ch _ _ _ _ Hu _ _ Hin H2)|]. split; [exact H2|]. split; [exact H3|].
        apply (upd_ch_uncovered i ch vw upd p v Hch Hu Hin H2).
      + right. pose proof (upd_none_transfer _ _ _ _ _ _ Hu' Hu E0) as Hup. split; [|split].
        * exists v. split; [exact E1|]. split; [exact H2|]. split; [exact H3|].
          apply (nlb_spec _ _ _ Hnlb E1 H2).
        * intros t e Ht Hde Hct. split; [intros ->; congruence|].
          destruct (is_path_below p t) eqn:Eb; [|reflexivity]. exfalso.
          destruct (upd_tomb_transfer _ _ _ _ _ _ _ Hu Hu' Ht Hde) as (e' & He' & Hde').
          assert (Hx : lookup t (act_fold l va) = Some e') by (rewrite Xc_lookup, He'; reflexivity).
          rewrite (cov_intro _ t e' p (lookup_in _ _ _ Hx) Hde' Eb) in H4. discriminate.
        * intros x' (v' & Hv' & _). congruence.
  Qed.

  Lemma stored_lookup k :
    lookup k (overlay [] (store_write m (act_fold l va))) = sw_val m (act_fold l va) (act_fold l va) k.
  Proof. destruct (store_write_spec m _ Xc_WF Hm) as [Hw Hs]. rewrite (overlay_nil _ (proj1 Hw)). apply Hs. Qed.

  (* store(): what is written back stands for the same live leaves *)
  Lemma store_side_i k v :
    lookup k (act_fold l va) = Some v -> covered (act_fold l va) k = false ->
    exists v', lookup k (overlay [] (store_write m (act_fold l va))) = Some v' /\ same_content v' v = true.
  Proof.
    intros Hk Hc. rewrite stored_lookup. unfold sw_val. rewrite Hk, Hc.
    destruct (lookup k m) as [e|] eqn:Em; [|exists v; split; [reflexivity|apply same_content_refl]].
    destruct (pv_index v =? pv_index e) eqn:Ei; [|exists v; split; [reflexivity|apply same_content_refl]].
    exists e. split; [reflexivity|]. apply N.eqb_eq in Ei. destruct (Xc_cases _ _ Hk) as [E0|(E0 & E1 & _)].
    - destruct (ui_cases _ _ _ _ Hu' _ _ E0) as [Hin|(_ & _ & _ & _ & kc & cv & H6 & H7 & H8)].
      + exact (idx_compat_spec m ch k e v Hic (proj1 (proj1 Hch)) Em Hin Ei).
      + exfalso. destruct (ui_del _ _ _ _ Hu' _ _ H6 H7) as (tv & Hkc & Htd & _).
        assert (Hx : lookup kc (act_fold l va) = Some tv) by (rewrite Xc_lookup, Hkc; reflexivity).
        rewrite (cov_intro _ kc tv k (lookup_in _ _ _ Hx) Htd) in Hc; [discriminate|].
        apply below_spec; [apply (proj2 (proj1 Hch) _ _ H6)|exact H8].
    - rewrite (va_m_none _ _ Em E0) in E1. injection E1 as <-. apply same_content_refl.
  Qed.

  Lemma store_side_ii k :
    lookup k (overlay [] (store_write m (act_fold l va))) <> None ->
    lookup k (act_fold l va) <> None.
  Proof.
    intros H Hk. apply H. clear H. rewrite stored_lookup. unfold sw_val. rewrite Hk.
    destruct (lookup k m) as [e|] eqn:Em; [|destruct (tombb None && _); reflexivity].
    rewrite Xc_lookup in Hk. destruct (lookup k upd') as [v0|] eqn:E0; [discriminate|]. pose proof (va_m_none _ _ Em E0) as Hvk. rewrite Hvk in Hk.
    destruct (pv_deleted e) eqn:Ede; [|discriminate]. cbn [andb] in Hk.
    destruct (dropb upd' k) eqn:Edr; [|discriminate]. cbn [tombb]. rewrite Ede. cbn [andb].
    assert (Hclr : clrb m (act_fold l va) (act_fold l va) k = true); [|rewrite Hclr; reflexivity].
    apply dropb_spec in Edr. destruct Edr as (w & vw' & Hin & Hlv & Hb).
    pose proof (upd_WF _ _ _ _ Hch Hu') as Hwu'.
    pose proof (upd_live _ _ _ _ _ _ Hu' (in_lookup _ _ _ (proj1 Hwu') Hin) Hlv) as Hinc.
    destruct (ch_live_Xc w vw' Hinc Hlv) as [Ha Hc].
    unfold clrb. apply existsb_exists. exists (w, vw'). split; [apply lookup_in; exact Ha|]. cbn. rewrite Hlv, Hb.
    unfold written. rewrite Hc. cbn. rewrite !andb_true_r.
    destruct (lookup w m) as [e'|] eqn:Ew; [|reflexivity]. apply negb_true_iff.
    destruct (pv_index vw' =? pv_index e') eqn:Ei; [|reflexivity]. exfalso. apply N.eqb_eq in Ei.
    destruct (same_content_spec _ _ (idx_compat_spec m ch w e' vw' Hic (proj1 (proj1 Hch)) Ew Hinc Ei)) as [Hsc _].
    assert (Hcv : covered va w = false).
    { apply (nlb_spec _ _ e' Hnlb (va_m_live _ _ _ Ew Hinc Hlv)). congruence. }
    rewrite (cov_intro _ k e w (lookup_in _ _ _ Hvk) Ede Hb) in Hcv. discriminate.
  Qed.

  Lemma stored_WF : WF (overlay [] (store_write m (act_fold l va))).
  Proof. apply WF_overlay; [apply WF_nil|]. apply (store_write_spec m _ Xc_WF Hm). Qed.

  Lemma store_side p x :
    lvp (overlay [] (store_write m (act_fold l va))) p x <-> lvp (act_fold l va) p x.
  Proof. apply (prune_equiv _ _ Xc_WF stored_WF store_side_i store_side_ii). Qed.

  Lemma stored_no_entry_below k v :
    lookup k (overlay [] (store_write m (act_fold l va))) = Some v ->
    covered (overlay [] (store_write m (act_fold l va))) k = false.
  Proof.
    intros Hk. rewrite (prune_equiv_cov _ _ Xc_WF stored_WF store_side_i store_side_ii).
    destruct (lookup k (act_fold l va)) as [v0|] eqn:E; [|exfalso; apply (store_side_ii k); [rewrite Hk; discriminate|exact E]].
    rewrite stored_lookup in Hk. unfold sw_val in Hk. rewrite E in Hk.
    destruct (covered _ k); [discriminate|reflexivity].
  Qed.
End Apply.

(** * apply_sound *)
Theorem apply_sound_P2Pure ord i inl m vw ch req d :
  wf_apply inl m ch = true -> payload i vw ch = Some req -> abs_dev d = abs_app (overlay inl m) ->
  abs_dev (dev_apply d req) = abs_app (overlay [] (record_applied ord i m (overlay inl m) vw ch)).
Proof.
  intros Hwf Hpay Hag. destruct (wf_apply_spec _ _ _ Hwf) as (Hinl & Hm & Hnlb & Hch & Hic).
  unfold payload in Hpay. injection Hpay as <-. set (upd := fst (add_delete_children i ch vw)).
  pose proof (WF_overlay inl m Hinl Hm) as Hva.
  pose proof (adc_spec i ch vw Hch) as Hu. pose proof (upd_spec_permuted ord i ch vw Hch) as Hu'.
  pose proof (permute_perm (rest_code (length ch) ord) (fst (add_delete_children i (permute ord ch) vw))) as Hl.
  pose proof (upd_WF _ _ _ _ Hch Hu) as Hwu. fold upd in Hu, Hwu.
  destruct (agree_inv d _ Hva Hag) as [Hnd Hd].
  rewrite record_applied_eq. unfold abs_app. apply abs_dev_live.
  - exact (stored_WF i m _ vw ch _ _ Hva Hm Hch Hu' Hl).
  - apply dev_apply_nd. exact Hnd.
  - intros p x.
    rewrite (store_side i m _ vw ch _ _ Hva Hm Hnlb (fun k e H => or_introl (va_m inl m k e Hm H)) Hch Hic Hu' Hl).
    rewrite <- (dev_side_sound i _ vw ch upd _ _ Hva Hnlb Hch Hu Hu' Hl).
    rewrite dev_apply_in by (rewrite req_upd_live; apply ksorted_nodup, live_sorted; exact Hwu).
    rewrite req_upd_live. unfold dev_side. rewrite (live_in upd p x Hwu), Hd. split.
    + intros [H|(H1 & H2 & H3)]; [left; exact H|right]. split; [exact H1|]. split.
      * intros t v Ht Hdel Hc. destruct (H2 t) as [Ha Hb]; [apply (req_del upd t Hwu); exists v; auto|].
        apply eqb_str_neq in Ha. auto.
      * intros x' Hx. apply H3. apply in_map_iff. exists (p, x'). split; [reflexivity|]. apply (live_in upd p x' Hwu). exact Hx.
    + intros [H|(H1 & H2 & H3)]; [left; exact H|right]. split; [exact H1|]. split.
      * intros t Ht. apply (req_del upd t Hwu) in Ht. destruct Ht as (v & Ha & Hb & Hc). destruct (H2 t v Ha Hb Hc) as [Hx Hy].
        apply eqb_str_neq in Hx. auto.
      * intros Hin. apply in_map_iff in Hin. destruct Hin as ([p' x'] & E & Hin). cbn in E. subst p'.
        apply (H3 x'). apply (live_in upd p x' Hwu). exact Hin.
Qed.

(* what an OK apply stores is well-formed again, with nothing beneath a tombstone *)
Theorem record_applied_wf ord i inl m vw ch :
  wf_apply inl m ch = true ->
  wf_pair [] (record_applied ord i m (overlay inl m) vw ch) = true /\
  no_entry_below (record_applied ord i m (overlay inl m) vw ch) = true.
Proof.
  intros Hwf. destruct (wf_apply_spec _ _ _ Hwf) as (Hinl & Hm & Hnlb & Hch & Hic).
  pose proof (WF_overlay inl m Hinl Hm) as Hva. pose proof (upd_spec_permuted ord i ch vw Hch) as Hu'.
  pose proof (permute_perm (rest_code (length ch) ord) (fst (add_delete_children i (permute ord ch) vw))) as Hl.
  rewrite record_applied_eq.
  pose proof (stored_no_entry_below i m _ vw ch _ _ Hva Hm Hnlb (fun k e H => or_introl (va_m inl m k e Hm H)) Hch Hic Hu' Hl) as Hne.
  pose proof (proj1 (store_write_spec m _ (Xc_WF i _ vw ch _ _ Hva Hch Hu' Hl) Hm)) as Hw.
  rewrite (overlay_nil _ (proj1 Hw)) in Hne. pose proof (neb_intro _ (proj1 Hw) Hne) as Hneb.
  split; [exact (wf_pair_nil _ Hw Hneb)|exact Hneb].
Qed.
