(* C04, concrete pure layer: status_sound (restore_sound, restore_cut_sound, inline_sound) and apply_idem for
   Model/P2Pure.v, ALL values; what a status update stores is well-formed again.  Stdlib only. *)
From Coq Require Import List PeanoNat NArith Bool Lia Permutation Sorted.
From OC Require Import Base.Bytes Model.P2Pure Proofs.P2PureApplyDefs Proofs.P2PureApplyBase Proofs.P2PureApplySem
     Proofs.P2PureApplySound.
Import ListNotations.
Open Scope N_scope.

(** * Storing the loaded applied values again *)
Section Restore.
  Context (inl m : cmap) (Hinl : WF inl) (Hm : WF m).

  Lemma va_WF : WF (overlay inl m).
  Proof. exact (WF_overlay inl m Hinl Hm). Qed.

  Lemma va_lookup k : lookup k (overlay inl m) = match lookup k m with Some v => Some v | None => lookup k inl end.
  Proof. apply overlay_lookup. apply Hm. Qed.

  Lemma restore_WF : WF (restore m (overlay inl m)).
  Proof. apply store_write_spec; [exact va_WF|exact Hm]. Qed.

  (* store() keeps exactly the entries that are not beneath a tombstone *)
  Lemma restore_lookup k :
    lookup k (restore m (overlay inl m)) =
    match lookup k (overlay inl m) with Some v => if covered (overlay inl m) k then None else Some v | None => None end.
  Proof.
    unfold restore. rewrite (proj2 (store_write_spec m _ va_WF Hm)). unfold sw_val.
    destruct (lookup k (overlay inl m)) as [v|] eqn:E.
    - destruct (covered (overlay inl m) k); [reflexivity|]. rewrite va_lookup in E.
      destruct (lookup k m) as [e|]; [|reflexivity]. injection E as ->. rewrite N.eqb_refl. reflexivity.
    - rewrite va_lookup in E. destruct (lookup k m) as [e|]; [discriminate|]. cbn. reflexivity.
  Qed.

  Lemma restore_i (M : cmap) :
    (forall k v, lookup k (restore m (overlay inl m)) = Some v -> lookup k M = Some v) ->
    forall k v, lookup k (overlay inl m) = Some v -> covered (overlay inl m) k = false ->
    exists v', lookup k M = Some v' /\ same_content v' v = true.
  Proof.
    intros H k v Hk Hc. exists v. split; [|apply same_content_refl]. apply H. rewrite restore_lookup, Hk, Hc. reflexivity.
  Qed.

  Lemma restore_cov p : covered (restore m (overlay inl m)) p = covered (overlay inl m) p.
  Proof.
    apply (prune_equiv_cov _ _ va_WF restore_WF).
    - apply restore_i. auto.
    - intros k H E. apply H. rewrite restore_lookup, E. reflexivity.
  Qed.

  Theorem restore_sound_lvp p x : lvp (overlay [] (restore m (overlay inl m))) p x <-> lvp (overlay inl m) p x.
  Proof.
    rewrite (overlay_nil _ (proj1 restore_WF)). unfold lvp. rewrite restore_cov, restore_lookup.
    split; intros (v & H1 & H2 & H3 & H4); exists v; rewrite H4 in *.
    - destruct (lookup p (overlay inl m)); [auto|discriminate].
    - rewrite H1. auto.
  Qed.

  Lemma cut_lookup k :
    lookup k (overlay inl (restore m (overlay inl m))) =
    match lookup k (restore m (overlay inl m)) with Some v => Some v | None => lookup k inl end.
  Proof. apply overlay_lookup. apply restore_WF. Qed.

  Theorem restore_cut_sound_lvp p x : lvp (overlay inl (restore m (overlay inl m))) p x <-> lvp (overlay inl m) p x.
  Proof.
    apply (prune_equiv _ _ va_WF (WF_overlay _ _ Hinl restore_WF)).
    - apply restore_i. intros k v H. rewrite cut_lookup, H. reflexivity.
    - intros k H E. apply H. rewrite cut_lookup, restore_lookup, E. rewrite va_lookup in E.
      destruct (lookup k m); [discriminate|exact E].
  Qed.

  Lemma inline_lookup k : lookup k (overlay (overlay inl m) m) = lookup k (overlay inl m).
  Proof. rewrite (overlay_lookup m (overlay inl m) k (proj1 Hm)), va_lookup. destruct (lookup k m); reflexivity. Qed.

  Lemma inline_WF : WF (overlay (overlay inl m) m).
  Proof. apply WF_overlay; [exact va_WF|exact Hm]. Qed.

  Lemma inline_cov p : covered (overlay (overlay inl m) m) p = covered (overlay inl m) p.
  Proof.
    apply (prune_equiv_cov _ _ va_WF inline_WF).
    - intros k v Hk _. exists v. split; [rewrite inline_lookup; exact Hk|apply same_content_refl].
    - intros k H. rewrite inline_lookup in H. exact H.
  Qed.

  Theorem inline_sound_lvp p x : lvp (overlay (overlay inl m) m) p x <-> lvp (overlay inl m) p x.
  Proof. unfold lvp. rewrite inline_cov, inline_lookup. reflexivity. Qed.

  (* what a status update stores holds nothing beneath a tombstone *)
  Theorem restore_no_entry_below : no_entry_below (restore m (overlay inl m)) = true.
  Proof.
    apply (neb_intro _ (proj1 restore_WF)). intros k v Hk. rewrite restore_cov. rewrite restore_lookup in Hk.
    destruct (lookup k (overlay inl m)); [|discriminate]. destruct (covered (overlay inl m) k); [discriminate|reflexivity].
  Qed.

  Theorem inline_no_live_below : no_live_below (overlay inl m) = true -> no_live_below (overlay (overlay inl m) m) = true.
  Proof.
    intros Hn. apply nlb_iff. intros k v Hin Ed. apply (in_lookup _ _ _ (proj1 inline_WF)) in Hin.
    rewrite inline_lookup in Hin. rewrite inline_cov. apply (nlb_spec _ _ v Hn Hin Ed).
  Qed.
End Restore.

Theorem status_sound_P2Pure inl m : wfk inl = true -> wfk m = true ->
  abs_app (overlay [] (restore m (overlay inl m))) = abs_app (overlay inl m) /\
  abs_app (overlay inl (restore m (overlay inl m))) = abs_app (overlay inl m) /\
  abs_app (overlay (overlay inl m) m) = abs_app (overlay inl m).
Proof.
  rewrite !wfk_WF. intros Hinl Hm. pose proof (va_WF inl m Hinl Hm) as Hva. pose proof (restore_WF inl m Hinl Hm) as Hr.
  unfold abs_app. split; [|split]; apply live_ext; try exact Hva.
  - apply WF_overlay; [apply WF_nil|exact Hr].
  - apply restore_sound_lvp; assumption.
  - apply WF_overlay; assumption.
  - apply restore_cut_sound_lvp; assumption.
  - apply inline_WF; assumption.
  - apply inline_sound_lvp; assumption.
Qed.

(* preservation by the status updates: the map written (entry cleared) and the commit's inlining *)
Theorem restore_wf inl m : wfk inl = true -> wfk m = true ->
  wf_pair [] (restore m (overlay inl m)) = true /\ no_entry_below (restore m (overlay inl m)) = true /\
  wfk (restore m (overlay inl m)) = true.
Proof.
  rewrite !wfk_WF. intros Hinl Hm. pose proof (restore_WF inl m Hinl Hm) as Hw.
  pose proof (restore_no_entry_below inl m Hinl Hm) as Hn. split; [exact (wf_pair_nil _ Hw Hn)|]. split; assumption.
Qed.

Theorem inline_wf inl m : wf_pair inl m = true -> wf_pair (overlay inl m) m = true.
Proof.
  unfold wf_pair. rewrite !andb_true_iff, !wfk_WF. intros [[Hinl Hm] H3]. split; [split; [|exact Hm]|].
  - apply va_WF; assumption.
  - apply inline_no_live_below; assumption.
Qed.

(* the pair right after the map write of a status update, before the entry write, keeps wfk but NOT no_live_below:
   an inlined live value whose stored counterpart was a tombstone beneath a tombstone comes back through the overlay *)
Definition cut_inl : cmap := [(B "/a/b", mkPV (B "/a/b") (B "1") false 1); (B "/a", mkPV (B "/a") [] true 2)].
Definition cut_m : cmap := [(B "/a/b", mkPV (B "/a/b") [] true 2)].
Example restore_cut_wf_refuted :
  wf_pair cut_inl cut_m = true /\ wf_pair cut_inl (restore cut_m (overlay cut_inl cut_m)) = false /\
  abs_app (overlay cut_inl (restore cut_m (overlay cut_inl cut_m))) = abs_app (overlay cut_inl cut_m).
Proof. repeat split; vm_compute; reflexivity. Qed.

(** * apply_idem: the same request twice, as lists, for every device state and request *)
Lemma filter_nil {A} (f : A -> bool) l : (forall x, In x l -> f x = false) -> filter f l = [].
Proof.
  induction l as [|a l IH]; cbn; intros H; [reflexivity|]. rewrite (H a (or_introl eq_refl)). apply IH.
  intros x Hx. apply H. right. exact Hx.
Qed.

Definition notin (us : list (str * str)) (kv : str * str) : bool := negb (existsb (eqb_str (fst kv)) (map fst us)).

Lemma upd_fold_split us : forall d, fold_left upd_step us d = filter (notin us) d ++ fold_left upd_step us [].
Proof.
  induction us as [|u us IH]; intros d; cbn [fold_left].
  - unfold notin. cbn. rewrite app_nil_r. induction d as [|a d IHd]; cbn; [reflexivity|]. rewrite <- IHd. reflexivity.
  - rewrite (IH (upd_step d u)), (IH (upd_step [] u)). unfold upd_step. cbn [d_remove app].
    rewrite filter_app, <- app_assoc. f_equal. rewrite d_remove_filter, filter_filter. apply filter_ext. intros kv.
    unfold notin. cbn [map existsb]. rewrite negb_orb. rewrite (eqb_str_sym (fst u) (fst kv)). reflexivity.
Qed.

Lemma upd_fold_sub us : forall d x, In x (fold_left upd_step us d) -> In x us \/ In x d.
Proof.
  induction us as [|u us IH]; intros d x; cbn [fold_left]; [auto|]. intros H. apply IH in H.
  destruct H as [H|H]; [left; right; exact H|]. apply upd_step_in in H. destruct H as [[H _]| ->]; [auto|left; left; reflexivity].
Qed.

Theorem apply_idem_P2Pure d r : dev_apply (dev_apply d r) r = dev_apply d r.
Proof.
  rewrite !dev_apply_eq, !del_fold_filter. rewrite (upd_fold_split (r_upd r) (filter (keepb (r_del r)) d)).
  rewrite (upd_fold_split (r_upd r) (filter _ (_ ++ _))). f_equal.
  rewrite !filter_app.
  assert (Hnil : filter (notin (r_upd r)) (filter (keepb (r_del r)) (fold_left upd_step (r_upd r) [])) = []).
  { apply filter_nil. intros x Hx. apply filter_In in Hx. destruct Hx as [Hx _]. apply upd_fold_sub in Hx.
    destruct Hx as [Hx|[]]. unfold notin. apply negb_false_iff. apply existsb_exists. exists (fst x).
    split; [apply in_map; exact Hx|apply eqb_str_refl]. }
  rewrite Hnil, app_nil_r, !filter_filter. apply filter_ext. intros kv.
  destruct (keepb (r_del r) kv), (notin (r_upd r) kv); reflexivity.
Qed.
