(* C01, value level, on the executable instance: all or none, on the values.
     - run_persist: along a run of well-formed labels and complete invocations a live stored value of a target stays
       where it is unless a later commit of a proposal of that target touches its path;
     - all_or_none_values_partial: in a world reached from init by well-formed labels and complete invocations in
       which no reconciler has anything left to do, for every transaction EITHER every listed proposal is COMMITTED
       and the target's live view (what Get returns) shows every update of that proposal's change, unless a later
       commit of that target touched the path (that commit is exhibited as a position of the run), OR no proposal of
       the transaction ever had a Commit phase and no step of any of its proposals altered the live view of any target.
   Premise not discharged here ([committed_means_merged], a statement about the cursors): a proposal that is
   COMMITTED at the end was merged by a commit step of the run that found Committed.Index = PrevIndex (the code marks
   a committing proposal COMMITTED without merging when the index is elsewhere). *)
From stdpp Require Import gmap.
From OC Require Import Base.Bytes Model.P2Pure Model.Proto2 Model.P2Inst Proofs.P2_Converge Proofs.P2_ConvergeEx
     Proofs.P2_Order Proofs.P2_OrderStep.
From OC Require Import Proofs.P2PureApplyBase Proofs.P2PureReachInv Proofs.P2PureReachDyn Proofs.P2PureReachRun
     Proofs.P2PureReachLabels Proofs.P2PureAtomicCommit Proofs.P2PureAtomicFrame.
Open Scope N_scope.

Notation run_from := (fold_left p2_step).

Lemma cfg_step_some (w : Wd) (l : Label) t (C : Cfg) : cfgs w !! t = Some C -> exists C' : Cfg, cfgs (p2_step w l) !! t = Some C'.
Proof.
  intros HC. unfold p2_step. destruct l as [chs sy se|ri|c k o|c t0|c|c t0|t0 p|t0|t0]; cbn [Proto2.step]; try (exists C; exact HC).
  - eexists. apply (cfg_fold dev_apply []). exact HC.
  - destruct (conns w !! c); exists C; exact HC.
  - destruct (rels w !! c); exists C; exact HC.
Qed.

Lemma cfg_run_some (ls : list Label) : forall (w : Wd) t (C : Cfg),
  cfgs w !! t = Some C -> exists C' : Cfg, cfgs (run_from ls w) !! t = Some C'.
Proof.
  induction ls as [|l ls IH]; intros w t C HC; [eauto|]. destruct (cfg_step_some w l t C HC) as [C1 HC1]. exact (IH _ t C1 HC1).
Qed.

Lemma completes_app (a b : list Label) : forall w, completes w (a ++ b) <-> completes w a /\ completes (run_from a w) b.
Proof. induction a as [|l a IH]; intros w; cbn; [tauto|]. rewrite IH. tauto. Qed.

Section Run.
  Context (Lf : N -> str -> Prop) (Lf_free : forall t p q, Lf t p -> Lf t q -> ~ Below p q).

  (* the position of a commit step of a proposal of [t] whose values touch [p], in the run [ls] started in [w] *)
  Definition touched_in (w : Wd) (ls : list Label) (t : N) (p : str) : Prop :=
    exists ls1 ls2 j n o (Q : Prop2),
      ls = ls1 ++ LRec (CtlProp (t, j)) n o :: ls2 /\ props (run_from ls1 w) !! (t, j) = Some Q /\
      p_commit Q = Some Doing /\ touches (rb_change [] Q) p.

  Theorem run_persist (ls : list Label) : forall (w : Wd) t (C : Cfg) p e,
    Inv Lf w -> run_good Lf w ls -> cfgs w !! t = Some C -> plookup p (c_values C) = Some e -> pv_deleted e = false ->
    (exists C' : Cfg, cfgs (run_from ls w) !! t = Some C' /\ plookup p (c_values C') = Some e) \/ touched_in w ls t p.
  Proof.
    induction ls as [|l ls IH]; intros w t C p e HI Hg HC He Hlv; [left; exists C; auto|].
    destruct Hg as (G1 & G2 & G3). destruct (cfg_step_some w l t C HC) as [C1 HC1]. cbn [fold_left].
    destruct (live_value_persists Lf w l t C C1 p e HI G1 G2 HC HC1 He Hlv) as [H1|(j & n & o & Q & -> & HQ & Hc & _ & _ & _ & Ht)].
    - destruct (IH (p2_step w l) t C1 p e (inv_step Lf Lf_free w l HI G1 G2) G3 HC1 H1 Hlv) as [Hl|(ls1 & ls2 & j & n & o & Q & -> & HQ & Hc & Ht)]; [left; exact Hl|].
      right. exists (l :: ls1), ls2, j, n, o, Q. auto.
    - right. exists [], ls, j, n, o, Q. auto.
  Qed.

  (* the same on what Get shows *)
  Theorem run_shows (ls : list Label) (w : Wd) t (C : Cfg) p x :
    Inv Lf w -> run_good Lf w ls -> cfgs w !! t = Some C -> In (p, x) (live (view overlay C)) ->
    (exists C' : Cfg, cfgs (run_from ls w) !! t = Some C' /\ In (p, x) (live (view overlay C'))) \/ touched_in w ls t p.
  Proof.
    intros HI Hg HC Hl. pose proof HI as [HS HD]. apply (dc_live Lf w HS t C HC (HD t C HC)) in Hl. destruct Hl as (v & Hv1 & Hv2 & Hv3).
    destruct (run_persist ls w t C p v HI Hg HC Hv1 Hv2) as [(C' & HC' & Hk)|Ht]; [left|right; exact Ht].
    exists C'. split; [exact HC'|]. destruct (inv_run Lf Lf_free ls w HI Hg) as [HS' HD'].
    apply (dc_live Lf _ HS' t C' HC' (HD' t C' HC')). exists v. auto.
  Qed.
End Run.

(* the invariant at every position of a run from the initial world *)
Lemma inv_prefix (ls1 ls2 : list Label) :
  labels_wfb (ls1 ++ ls2) = true -> completes p2_init (ls1 ++ ls2) ->
  Inv (Lf_of (ls1 ++ ls2)) (x_run ls1) /\ run_good (Lf_of (ls1 ++ ls2)) (x_run ls1) ls2.
Proof.
  intros Hw Hc. pose proof (run_good_labels _ Hw Hc) as Hg. apply (run_good_app (Lf_of (ls1 ++ ls2))) in Hg. destruct Hg as [G1 G2].
  split; [|exact G2]. apply (inv_run _ (Lf_of_free _ Hw) ls1 p2_init (inv_init _) G1).
Qed.

(* every proposal that is COMMITTED at the end of the run was merged by a commit step of the run *)
Definition committed_means_merged (ls : list Label) : Prop :=
  forall t i (P : Prop2), props (x_run ls) !! (t, i) = Some P -> p_commit P = Some Done ->
    exists ls1 ls2 n o (P0 : Prop2) (C0 : Cfg),
      ls = ls1 ++ LRec (CtlProp (t, i)) n o :: ls2 /\ props (x_run ls1) !! (t, i) = Some P0 /\
      p_commit P0 = Some Doing /\ p_apply P0 = None /\ p_abort P0 = None /\
      cfgs (x_run ls1) !! t = Some C0 /\ c_committed C0 = p_prev P0.

Notation i_reconcile_nothing w := (forall c o, fst (p2_reconcile o w c) = []).
Notation i_run_mono := (run_mono candidate candidate_rb rollback_of overlay commit_merge payload record_applied touched restore
                                 resync_payload doc_ok dev_apply stamp [] [] []).

Theorem all_or_none_values_partial (ls : list Label) :
  labels_wfb ls = true -> completes p2_init ls -> i_reconcile_nothing (x_run ls) -> committed_means_merged ls ->
  forall i (T : Txn), txs (x_run ls) !! i = Some T ->
    (* every listed proposal committed, its updates shown unless a later commit touched the path *)
    (forall t, In t (default [] (t_props T)) ->
       exists (P : Prop2) (C : Cfg), props (x_run ls) !! (t, i) = Some P /\ p_commit P = Some Done /\ cfgs (x_run ls) !! t = Some C /\
         forall c p u, p_details P = PChange c -> In (p, u) c -> pv_deleted u = false ->
           In (p, pv_val u) (live (view overlay C)) \/
           exists ls1 ls2 n o, ls = ls1 ++ LRec (CtlProp (t, i)) n o :: ls2 /\
                               touched_in (x_run (ls1 ++ [LRec (CtlProp (t, i)) n o])) ls2 t p) \/
    (* no proposal ever in Commit, no live view altered by a step of its proposals *)
    ((forall t P, props (x_run ls) !! (t, i) = Some P -> p_commit P = None) /\
     forall ls1 ls2 t n o t' (C C' : Cfg), ls = ls1 ++ LRec (CtlProp (t, i)) n o :: ls2 ->
       cfgs (x_run ls1) !! t' = Some C -> cfgs (p2_step (x_run ls1) (LRec (CtlProp (t, i)) n o)) !! t' = Some C' ->
       live (view overlay C') = live (view overlay C)).
Proof.
  intros Hw Hc Hfix Hmm i T HT. pose proof (Lf_of_free ls Hw) as Lf_free.
  (* a proposal at a position of the run is still there, moved forward, at its end *)
  assert (Hlater : forall ls1 ls2 k (P0 : Prop2), ls = ls1 ++ ls2 -> props (x_run ls1) !! k = Some P0 ->
            exists P' : Prop2, props (x_run ls) !! k = Some P' /\ p_le P0 P').
  { intros ls1 ls2 k P0 -> HP0. rewrite x_run_app. exact (proj1 (proj2 (proj2 (i_run_mono ls2 (x_run ls1) (x_run_reach ls1)))) k P0 HP0). }
  assert (Hpos : forall ls1 l ls2, ls = ls1 ++ l :: ls2 ->
            Inv (Lf_of ls) (x_run ls1) /\ run_good (Lf_of ls) (x_run ls1) (l :: ls2)).
  { intros ls1 l ls2 ->. exact (inv_prefix ls1 (l :: ls2) Hw Hc). }
  destruct (all_or_none_at_fixpoint candidate candidate_rb rollback_of overlay commit_merge payload record_applied touched restore
              resync_payload doc_ok dev_apply stamp [] [] [] (x_run ls) (x_run_reach ls) Hfix i T HT) as [Hall|Hnone].
  - left. intros t Hin. destruct (Hall t Hin) as (P & HP & Hd).
    destruct (Hmm t i P HP Hd) as (ls1 & ls2 & n & o & P0 & C0 & Hsplit & HP0 & E1 & E2 & E3 & HC0 & E4).
    set (l := LRec (CtlProp (t, i)) n o) in *. destruct (Hpos ls1 l ls2 Hsplit) as [HI1 (G1 & G2 & G3)].
    destruct (cfg_step_some (x_run ls1) l t C0 HC0) as [C1 HC1].
    pose proof (inv_step _ Lf_free _ l HI1 G1 G2) as HI2.
    assert (Hend : x_run ls = run_from ls2 (p2_step (x_run ls1) l)) by (rewrite Hsplit; apply (x_run_app ls1 (l :: ls2))).
    destruct (cfg_run_some ls2 _ t C1 HC1) as [C HC]. rewrite <- Hend in HC. exists P, C. repeat split; auto.
    intros c p u Hdt Hin_c Hlv.
    assert (Hdt0 : p_details P0 = PChange c).
    { destruct (Hlater ls1 (l :: ls2) _ P0 Hsplit HP0) as (P' & HP' & Hdt' & _). congruence. }
    pose proof (commit_two o (x_run ls1) t i n P0 C0 HP0 HC0 E1 E2 E3 E4 G2) as Hn.
    destruct (commit_contains_change (Lf_of ls) (x_run ls1) t i n o P0 C0 C1 c HI1 HP0 Hdt0 HC0 E1 E2 E3 E4 Hn HC1) as (_ & Hshow & _).
    destruct (run_shows (Lf_of ls) Lf_free ls2 _ t C1 p (pv_val u) HI2 G3 HC1 (Hshow p u Hin_c Hlv)) as [(C' & HC' & Hk)|Ht].
    + left. rewrite <- Hend, HC in HC'. injection HC' as <-. exact Hk.
    + right. exists ls1, ls2, n, o. split; [exact Hsplit|]. rewrite x_run_app. exact Ht.
  - right. split; [exact Hnone|]. intros ls1 ls2 t n o t' C C' Hsplit HC HC'.
    set (l := LRec (CtlProp (t, i)) n o) in *. destruct (Hpos ls1 l ls2 Hsplit) as [HI1 (G1 & G2 & G3)].
    destruct (live_view_frame (Lf_of ls) Lf_free (x_run ls1) l t' C C' HI1 G1 G2 HC HC') as [E|(i0 & n0 & o0 & P0 & Hl & HP0 & E1 & _)]; [exact E|].
    exfalso. unfold l in Hl. injection Hl as <- <- _ _.
    destruct (Hlater ls1 (l :: ls2) _ P0 Hsplit HP0) as (P' & HP' & _ & _ & _ & Hco & _). rewrite (Hnone _ _ HP'), E1 in Hco. discriminate Hco.
Qed.

(** * The step theorems stated on runs from the initial world (no invariant hypothesis left) *)
Theorem commit_contains_change_run (ls : list Label) t i n (o : oracle) (P : Prop2) (C C' : Cfg) c :
  labels_wfb (ls ++ [LRec (CtlProp (t, i)) n o]) = true -> completes p2_init (ls ++ [LRec (CtlProp (t, i)) n o]) ->
  props (x_run ls) !! (t, i) = Some P -> p_details P = PChange c -> cfgs (x_run ls) !! t = Some C ->
  p_commit P = Some Doing -> p_apply P = None -> p_abort P = None -> c_committed C = p_prev P ->
  cfgs (p2_step (x_run ls) (LRec (CtlProp (t, i)) n o)) !! t = Some C' ->
  c_committed C' = i /\
  (forall p u, In (p, u) c -> pv_deleted u = false -> In (p, pv_val u) (live (view overlay C'))) /\
  (forall d u, In (d, u) c -> pv_deleted u = true ->
     forall k x, In (k, x) (live (view overlay C')) -> k <> d /\ ~ Below k d).
Proof.
  intros Hw Hc HP Hdt HC E1 E2 E3 E4 HC'. destruct (inv_prefix ls _ Hw Hc) as [HI (G1 & G2 & _)].
  exact (commit_contains_change _ (x_run ls) t i n o P C C' c HI HP Hdt HC E1 E2 E3 E4 (commit_two o _ t i n P C HP HC E1 E2 E3 E4 G2) HC').
Qed.

Theorem live_view_frame_run (ls : list Label) (l : Label) t (C C' : Cfg) :
  labels_wfb (ls ++ [l]) = true -> completes p2_init (ls ++ [l]) ->
  cfgs (x_run ls) !! t = Some C -> cfgs (p2_step (x_run ls) l) !! t = Some C' ->
  live (view overlay C') = live (view overlay C) \/
  exists i n o (P : Prop2), l = LRec (CtlProp (t, i)) n o /\ props (x_run ls) !! (t, i) = Some P /\
    p_commit P = Some Doing /\ p_apply P = None /\ p_abort P = None /\ c_committed C = p_prev P /\ (0 < n)%nat.
Proof.
  intros Hw Hc HC HC'. destruct (inv_prefix ls _ Hw Hc) as [HI (G1 & G2 & _)].
  exact (live_view_frame _ (Lf_of_free _ Hw) (x_run ls) l t C C' HI G1 G2 HC HC').
Qed.

Theorem other_target_keeps_run (ls : list Label) t' i n o t (C C' : Cfg) :
  labels_wfb (ls ++ [LRec (CtlProp (t', i)) n o]) = true -> completes p2_init (ls ++ [LRec (CtlProp (t', i)) n o]) -> t' <> t ->
  cfgs (x_run ls) !! t = Some C -> cfgs (p2_step (x_run ls) (LRec (CtlProp (t', i)) n o)) !! t = Some C' ->
  live (view overlay C') = live (view overlay C).
Proof.
  intros Hw Hc Hne HC HC'. destruct (inv_prefix ls _ Hw Hc) as [HI (G1 & G2 & _)].
  exact (other_target_keeps _ (Lf_of_free _ Hw) (x_run ls) t' i n o t C C' HI G2 Hne HC HC').
Qed.

Theorem live_value_persists_run (ls : list Label) (l : Label) t (C C' : Cfg) p e :
  labels_wfb (ls ++ [l]) = true -> completes p2_init (ls ++ [l]) ->
  cfgs (x_run ls) !! t = Some C -> cfgs (p2_step (x_run ls) l) !! t = Some C' ->
  plookup p (c_values C) = Some e -> pv_deleted e = false ->
  plookup p (c_values C') = Some e \/
  exists i n o (P : Prop2), l = LRec (CtlProp (t, i)) n o /\ props (x_run ls) !! (t, i) = Some P /\
    p_commit P = Some Doing /\ p_apply P = None /\ p_abort P = None /\ c_committed C = p_prev P /\
    touches (rb_change [] P) p.
Proof.
  intros Hw Hc HC HC' He Hlv. destruct (inv_prefix ls _ Hw Hc) as [HI (G1 & G2 & _)].
  exact (live_value_persists _ (x_run ls) l t C C' p e HI G1 G2 HC HC' He Hlv).
Qed.
