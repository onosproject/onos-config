(* C01, value level, on the executable instance (Model/P2Inst.v over Model/P2Pure.v):
   what the commit of a proposal shows.  Pure part: for every Go-map order, [commit_merge] stores a map whose live
   leaves hold every update of the change and nothing at or beneath a deleted path of the change, keep every live value
   the change does not touch, and gain nothing but the updates of the change - under the
   well-formedness that is an invariant of reachable worlds (Proofs/P2PureReach*.v: unique proper keys, no live value
   beneath a tombstone in the loaded view, the change is a wf_change, idx_compat) - NO freshness hypothesis on the
   stored indexes: a stored value store() skips because it carries the change's index says the same (idx_compat).
   World part: the complete commit step of proposal (t, i) of a Change moves Committed.Index to i and the live view of
   the target then shows the change.  Built on the lookup tables of Proofs/P2PureApplySem.v / P2PureApplySound.v
   (section Apply of the latter, instantiated with the view as mutated by AddDeleteChildren). *)
From stdpp Require Import gmap.
From RecordUpdate Require Import RecordUpdate.
From OC Require Import Base.Bytes Model.P2Pure Model.Proto2 Model.P2Inst Proofs.P2_Converge.
From OC Require Import Proofs.P2PureApplyDefs Proofs.P2PureApplyBase Proofs.P2PureApplySem Proofs.P2PureApplySound
     Proofs.P2PureApplyInst Proofs.P2PureRollbackAdc Proofs.P2PureReachPure Proofs.P2PureReachInv Proofs.P2PureReachDyn
     Proofs.P2PureReachRun.
Open Scope N_scope.

(** * Pure part *)
Section CommitShows.
  Context (ord i : N) (m vw ch : cmap).
  Context (Hm : WF m) (Hvw : WF vw) (Hsub : forall k e, plookup k m = Some e -> plookup k vw = Some e)
          (Hnlb : no_live_below vw = true) (Hch : WFC ch) (Hic : idx_compat m ch = true).

  Let upd' := fst (add_delete_children i (permute ord ch) vw).
  Let l := permute (rest_code (length ch) ord) upd'.
  Let st := markmap i ch vw.

  Lemma cs_spec : upd_spec i ch vw upd'.
  Proof. apply upd_spec_permuted. exact Hch. Qed.
  Lemma cs_perm : Permutation l upd'.
  Proof. apply permute_perm. Qed.

  Lemma cs_WF : WF (overlay [] (commit_merge ord i m vw ch)).
  Proof. rewrite commit_merge_eq. apply (stored_WF i m st vw ch upd' l (cm_st_WF i vw ch Hvw) Hm Hch cs_spec cs_perm). Qed.

  (* the live leaves of what is stored are the live leaves of the merged view *)
  Lemma cs_lvp p x : lvp (overlay [] (commit_merge ord i m vw ch)) p x <-> lvp (act_fold l st) p x.
  Proof.
    rewrite commit_merge_eq.
    apply (store_side i m st vw ch upd' l (cm_st_WF i vw ch Hvw) Hm (cm_st_nlb i vw ch Hvw Hnlb Hch) (cm_vam i m vw ch Hvw Hsub Hch)
                      Hch Hic cs_spec cs_perm).
  Qed.

  Theorem commit_shows_updates p v :
    In (p, v) ch -> pv_deleted v = false -> In (p, pv_val v) (live (overlay [] (commit_merge ord i m vw ch))).
  Proof.
    intros Hin Hd. apply (live_in _ _ _ cs_WF). apply cs_lvp.
    destruct (ch_live_Xc i st vw ch upd' l (cm_st_WF i vw ch Hvw) Hch cs_spec cs_perm p v Hin Hd) as [Ha Hb].
    exists v. auto.
  Qed.

  Theorem commit_hides_deletes d cv k x :
    In (d, cv) ch -> pv_deleted cv = true -> In (k, x) (live (overlay [] (commit_merge ord i m vw ch))) ->
    k <> d /\ ~ Below k d.
  Proof.
    intros Hin Hd Hl. apply (live_in _ _ _ cs_WF) in Hl. apply cs_lvp in Hl.
    apply (dev_side_sound i st vw ch upd' upd' l (cm_st_WF i vw ch Hvw) (cm_st_nlb i vw ch Hvw Hnlb Hch) Hch cs_spec cs_spec cs_perm) in Hl.
    destruct (ui_del _ _ _ _ cs_spec d cv Hin Hd) as (tv & Htv & Htd & Htp).
    pose proof (upd_WF _ _ _ _ Hch cs_spec) as Hwu.
    destruct (proj2 (proj1 Hch) _ _ Hin) as [_ Hpd].
    destruct Hl as [(v & H1 & H2 & H3 & H4)|(Hva & Hnd & Hnu)].
    - pose proof (upd_live _ _ _ _ _ _ cs_spec H1 H2) as Hink. split.
      + intros ->.
        pose proof (in_lookup _ _ _ (proj1 (proj1 Hch)) Hink) as E1. pose proof (in_lookup _ _ _ (proj1 (proj1 Hch)) Hin) as E2.
        rewrite E1 in E2. injection E2 as ->. congruence.
      + intros Hb. exact (proj2 Hch _ _ _ _ Hink H2 Hin Hd Hb).
    - assert (Htop : exists t e, plookup t upd' = Some e /\ pv_deleted e = true /\ covered upd' t = false /\ (t = d \/ Below d t)).
      { destruct (covered upd' d) eqn:Ec.
        - destruct (covered_top upd' (proj2 Hwu) (length d) d (le_n _) Ec) as (t & e & Ht & Hde & Hb & Hct).
          exists t, e. split; [apply in_lookup; [apply Hwu|exact Ht]|]. split; [exact Hde|]. split; [exact Hct|]. right.
          apply (below_spec _ _ (proj2 (proj2 Hwu _ _ Ht))). exact Hb.
        - exists d, tv. auto. }
      destruct Htop as (t & e & Ht & Hde & Hct & Hrel). destruct (Hnd t e Ht Hde Hct) as [Hne Hnb].
      assert (Hpt : proper t = true) by (apply (proj2 (proj2 Hwu _ _ (lookup_in _ _ _ Ht)))).
      split.
      + intros ->. destruct Hrel as [->|Hb]; [congruence|]. apply (below_spec _ _ Hpt) in Hb. congruence.
      + intros Hb. destruct Hrel as [->|Hb2].
        * apply (below_spec _ _ Hpd) in Hb. congruence.
        * pose proof (Below_trans _ _ _ Hb Hb2) as Hb3. apply (below_spec _ _ Hpt) in Hb3. congruence.
  Qed.

  (* an untouched path lies beneath no path the change deletes *)
  Lemma ck_free p kc cv : covered ch p = false -> In (kc, cv) ch -> pv_deleted cv = true -> ~ Below p kc.
  Proof.
    intros Hc H1 H2 Hb. rewrite (cov_intro _ kc cv p H1 H2) in Hc; [discriminate|]. apply below_spec; [apply (proj2 (proj1 Hch) _ _ H1)|exact Hb].
  Qed.

  (* nothing the change adds lies at an untouched path *)
  Lemma ck_upd_none p : plookup p ch = None -> covered ch p = false -> plookup p upd' = None.
  Proof.
    intros Hn Hc. destruct (plookup p upd') as [v|] eqn:E; [|reflexivity]. exfalso.
    destruct (ui_cases _ _ _ _ cs_spec _ _ E) as [Hin|(_ & _ & _ & _ & kc & cv & H6 & H7 & H8)].
    - rewrite (in_lookup _ _ _ (proj1 (proj1 Hch)) Hin) in Hn. discriminate.
    - exact (ck_free p kc cv Hc H6 H7 H8).
  Qed.

  Lemma ck_tomb_above p t d : covered ch p = false -> plookup t upd' = Some d -> pv_deleted d = true -> is_path_below p t = true -> False.
  Proof.
    intros Hc Ht Hd Hb. pose proof (upd_WF _ _ _ _ Hch cs_spec) as Hwu.
    pose proof (proj2 (proj2 Hwu _ _ (lookup_in _ _ _ Ht))) as Hpt.
    destruct (ui_cases _ _ _ _ cs_spec _ _ Ht) as [Hin|(_ & _ & _ & _ & kc & cv & H6 & H7 & H8)].
    - rewrite (cov_intro _ t d p Hin Hd Hb) in Hc. discriminate.
    - apply (ck_free p kc cv Hc H6 H7). eapply Below_trans; [apply (below_spec _ _ Hpt); exact Hb|exact H8].
  Qed.

  Theorem commit_keeps_untouched p e :
    plookup p m = Some e -> pv_deleted e = false -> plookup p ch = None -> covered ch p = false ->
    plookup p (commit_merge ord i m vw ch) = Some e.
  Proof.
    intros He Hlv Hn Hc. rewrite commit_merge_eq. fold upd' l st.
    pose proof (cm_st_WF i vw ch Hvw) as Hst. fold st in Hst.
    pose proof (Xc_WF i st vw ch upd' l Hst Hch cs_spec cs_perm) as HX.
    destruct (store_write_spec m _ HX Hm) as [_ Hs]. rewrite Hs. unfold sw_val.
    pose proof (Hsub _ _ He) as Hv. destruct (KO_lookup _ _ _ (proj2 Hm) He) as [Hpe Hpp].
    (* the entry of the marked view *)
    assert (Hstp : plookup p st = Some e).
    { unfold st. rewrite markmap_lookup, Hv. cbn [option_map].
      destruct (markif_cases i ch e (proj1 Hch)) as [->|(_ & kc & cv & H1 & H2 & H3)]; [reflexivity|]. exfalso.
      rewrite Hpe in H3. exact (ck_free p kc cv Hc H1 H2 H3). }
    assert (HXp : plookup p (act_fold l st) = Some e).
    { rewrite (Xc_lookup i st vw ch upd' l Hst Hch cs_spec cs_perm), (ck_upd_none p Hn Hc), Hstp, Hlv. reflexivity. }
    assert (Hcov : covered (act_fold l st) p = false).
    { destruct (covered (act_fold l st) p) eqn:E; [|reflexivity]. exfalso. apply covered_spec in E. destruct E as (t & d & Ht & Hd & Hb).
      apply (in_lookup _ _ _ (proj1 HX)) in Ht. rewrite (Xc_lookup i st vw ch upd' l Hst Hch cs_spec cs_perm) in Ht.
      destruct (plookup t upd') as [d0|] eqn:E0.
      - injection Ht as ->. exact (ck_tomb_above p t d Hc E0 Hd Hb).
      - destruct (plookup t st) as [d1|] eqn:E1; [|discriminate]. destruct (pv_deleted d1 && dropb upd' t); [discriminate|]. injection Ht as ->.
        unfold st in E1. rewrite markmap_lookup in E1. destruct (plookup t vw) as [e0|] eqn:Ev; [|discriminate]. cbn in E1. injection E1 as <-.
        destruct (markif_cases i ch e0 (proj1 Hch)) as [Em|(_ & kc & cv & H1 & H2 & H3)].
        + rewrite Em in Hd. pose proof (nlb_spec vw p e Hnlb Hv Hlv) as Hcv.
          rewrite (cov_intro _ t e0 p (lookup_in _ _ _ Ev) Hd Hb) in Hcv. discriminate.
        + destruct (KO_lookup _ _ _ (proj2 Hvw) Ev) as [Hpt Hptp]. rewrite Hpt in H3.
          apply (ck_free p kc cv Hc H1 H2). eapply Below_trans; [apply (below_spec _ _ Hptp); exact Hb|exact H3]. }
    rewrite HXp, Hcov, He, N.eqb_refl. reflexivity.
  Qed.

  Lemma mark_lvp c k x : lvp (markmap i c vw) k x -> lvp vw k x.
  Proof.
    intros (v' & L1 & L2 & L3 & L4). rewrite markmap_lookup in L1.
    destruct (plookup k vw) as [e|] eqn:Ee; cbn in L1; [|discriminate]. injection L1 as <-.
    unfold markif in L2, L3. destruct (cascb c (pv_path e)) eqn:Eh; [cbn in L2; discriminate|].
    exists e. split; [exact Ee|]. split; [exact L2|]. split; [exact L3|].
    destruct (covered vw k) eqn:Ec; [|reflexivity]. exfalso. apply covered_spec in Ec. destruct Ec as (t & e' & Ht & Hde & Hb).
    rewrite (cov_intro (markmap i c vw) t (markif i c e') k) in L4; [discriminate| | |exact Hb].
    - apply markmap_in. exists e'. auto.
    - unfold markif. destruct (cascb c (pv_path e')); [reflexivity|exact Hde].
  Qed.

  Theorem commit_adds_only_change k x :
    In (k, x) (live (overlay [] (commit_merge ord i m vw ch))) ->
    In (k, x) (live vw) \/ exists v, In (k, v) ch /\ pv_deleted v = false /\ pv_val v = x.
  Proof.
    intros Hl. apply (live_in _ _ _ cs_WF) in Hl. apply cs_lvp in Hl.
    apply (dev_side_sound i st vw ch upd' upd' l (cm_st_WF i vw ch Hvw) (cm_st_nlb i vw ch Hvw Hnlb Hch) Hch cs_spec cs_spec cs_perm) in Hl.
    destruct Hl as [(v & H1 & H2 & H3 & _)|(Hva & _ & _)].
    - right. exists v. split; [|auto]. exact (upd_live _ _ _ _ _ _ cs_spec H1 H2).
    - left. apply (live_in _ _ _ Hvw). exact (mark_lvp _ k x Hva).
  Qed.
End CommitShows.

(** * World part *)
Local Opaque restore record_applied commit_merge touched overlay rollback_of candidate candidate_rb payload resync_payload stamp doc_ok.

Section World.
  Context (Lf : N -> str -> Prop).

  Lemma commit_effects (o : oracle) (w : Wd) t i (P : Prop2) (C : Cfg) :
    props w !! (t, i) = Some P -> cfgs w !! t = Some C ->
    p_commit P = Some Doing -> p_apply P = None -> p_abort P = None -> c_committed C = p_prev P ->
    fst (p2_reconcile o w (CtlProp (t, i))) =
    [EPutValues t (commit_merge (o_order o) i (c_values C) (view overlay C) (rb_change [] P));
     EPutCfg t (C <| c_index := match p_details P with PChange _ => i | PRollback _ => p_rbindex P end |>
                  <| c_committed := i |> <| c_inline := [] |> <| c_ainline := aview overlay C |>);
     EPutProp (t, i) (P <| p_commit := Some Done |>)].
  Proof.
    intros HP HC Ec Ea Eb Hcm. unfold p2_reconcile. cbn [Proto2.reconcile]. unfold Proto2.rec_prop. cbv beta iota zeta.
    unfold dstate in *.
    match goal with |- context [match ?x with Some _ => _ | None => ([], RDone) end] => replace x with (Some P) by (symmetry; exact HP) end.
    rewrite Ea, Eb, Ec, HC, Hcm, N.eqb_refl. reflexivity.
  Qed.

  (* a complete commit invocation runs at least the two configuration writes *)
  Lemma commit_two (o : oracle) (w : Wd) t i n (P : Prop2) (C : Cfg) :
    props w !! (t, i) = Some P -> cfgs w !! t = Some C ->
    p_commit P = Some Doing -> p_apply P = None -> p_abort P = None -> c_committed C = p_prev P ->
    i_complete w (LRec (CtlProp (t, i)) n o) -> (2 <= n)%nat.
  Proof.
    intros HP HC Ec Ea Eb Hcm Hlen. change (length (fst (p2_reconcile o w (CtlProp (t, i)))) <= n)%nat in Hlen.
    rewrite (commit_effects o w t i P C HP HC Ec Ea Eb Hcm) in Hlen. cbn [length] in Hlen. lia.
  Qed.

  (* ... and the configuration entry after at least the two configuration writes *)
  Lemma commit_cfg (o : oracle) (w : Wd) t i n (P : Prop2) (C C' : Cfg) :
    props w !! (t, i) = Some P -> cfgs w !! t = Some C ->
    p_commit P = Some Doing -> p_apply P = None -> p_abort P = None -> c_committed C = p_prev P -> (2 <= n)%nat ->
    cfgs (p2_step w (LRec (CtlProp (t, i)) n o)) !! t = Some C' ->
    C' = C <| c_index := match p_details P with PChange _ => i | PRollback _ => p_rbindex P end |>
           <| c_committed := i |> <| c_inline := [] |> <| c_ainline := aview overlay C |>
           <| c_values := commit_merge (o_order o) i (c_values C) (view overlay C) (rb_change [] P) |>
           <| c_avalues := c_avalues C |>.
  Proof.
    intros HP HC Ec Ea Eb Hcm Hn HC'. unfold p2_step in HC'. cbn [Proto2.step] in HC'.
    change (Proto2.reconcile candidate candidate_rb rollback_of overlay commit_merge payload record_applied touched restore
              resync_payload doc_ok stamp [] [] [] o w (CtlProp (t, i))) with (p2_reconcile o w (CtlProp (t, i))) in HC'.
    rewrite (commit_effects o w t i P C HP HC Ec Ea Eb Hcm) in HC'.
    rewrite (cfg_fold dev_apply [] _ t w C HC) in HC'. injection HC' as <-.
    destruct n as [|[|[|n]]]; try lia; cbn [firstn]; rewrite ?firstn_nil; cbn [fold_left cfg_on]; rewrite !N.eqb_refl; reflexivity.
  Qed.

  Theorem commit_contains_change (w : Wd) t i n (o : oracle) (P : Prop2) (C C' : Cfg) c :
    Inv Lf w -> props w !! (t, i) = Some P -> p_details P = PChange c -> cfgs w !! t = Some C ->
    p_commit P = Some Doing -> p_apply P = None -> p_abort P = None -> c_committed C = p_prev P -> (2 <= n)%nat ->
    cfgs (p2_step w (LRec (CtlProp (t, i)) n o)) !! t = Some C' ->
    c_committed C' = i /\
    (forall p u, In (p, u) c -> pv_deleted u = false -> In (p, pv_val u) (live (view overlay C'))) /\
    (forall d u, In (d, u) c -> pv_deleted u = true ->
       forall k x, In (k, x) (live (view overlay C')) -> k <> d /\ ~ Below k d).
  Proof.
    intros [HS HD] HP Hdt HC Ec Ea Eb Hcm Hn HC'.
    rewrite (commit_cfg o w t i n P C C' HP HC Ec Ea Eb Hcm Hn HC'). cbn [c_committed set]. split; [reflexivity|].
    unfold view. cbn [c_inline c_values set].
    destruct (dc_commit_pre Lf w HS t C HC (HD t C HC) i P HP) as (H1 & Hvw & Hsub & Hnlb & R2 & Hic). rewrite (rbc_change P c Hdt) in *.
    split.
    - intros p u Hin Hlv. apply (commit_shows_updates (o_order o) i _ _ c H1 Hvw Hsub Hnlb R2 Hic p u Hin Hlv).
    - intros d u Hin Hdl k x Hl. apply (commit_hides_deletes (o_order o) i _ _ c H1 Hvw Hsub Hnlb R2 Hic d u k x Hin Hdl Hl).
  Qed.
End World.
