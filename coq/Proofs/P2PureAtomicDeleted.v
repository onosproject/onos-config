(* C01, value level, on the executable instance: deletions persist.
     - commit_adds (world): every live leaf (k, x) of the target after the complete commit step of a proposal (Change or
       Rollback; the values merged are [rb_change [] P]) was a live leaf of the loaded view, or k is the path of a
       non-deleted value of those values whose value is x (commit_adds_only_change of Proofs/P2PureAtomicCommit.v);
     - run_deleted_persists: along a run of well-formed labels and complete invocations, a path d of target t with
       nothing live at or beneath it stays that way unless a later commit step of a proposal of t merges values that
       hold a non-deleted value at d or beneath d ([created_in]: that step is exhibited as a position of the run);
     - deleted_persists_run / deleted_path_stays_deleted_run: the same on runs from the initial world, the second
       one starting from the commit of a change that deletes d. *)
From stdpp Require Import gmap.
From RecordUpdate Require Import RecordUpdate.
From OC Require Import Base.Bytes Model.P2Pure Model.Proto2 Model.P2Inst Proofs.P2_ConvergeEx.
From OC Require Import Proofs.P2PureApplyDefs Proofs.P2PureApplyBase Proofs.P2PureApplySem Proofs.P2PureApplySound
     Proofs.P2PureReachPure Proofs.P2PureReachInv Proofs.P2PureReachDyn Proofs.P2PureReachRun
     Proofs.P2PureReachLabels Proofs.P2PureAtomicCommit Proofs.P2PureAtomicFrame Proofs.P2PureAtomicAll.
Open Scope N_scope.

(** * Decidability of "the values hold a non-deleted value at d or beneath d" *)
Lemma Below_dec (p a : str) : Below p a \/ ~ Below p a.
Proof.
  revert p. induction a as [|y a IH]; intros p.
  - destruct p as [|c r]; [right; intros (c & r & _ & E); discriminate E|].
    destruct (bnd c) eqn:Eb; [left; exists c, r; auto|right]. intros (c' & r' & Hb & E). cbn in E. injection E as -> ->. congruence.
  - destruct p as [|z p]; [right; intros (c & r & _ & E); discriminate E|].
    destruct (N.eq_dec z y) as [->|Hne]; [|right; intros (c & r & _ & E); cbn in E; injection E as E _; contradiction].
    destruct (IH p) as [(c & r & Hb & ->)|Hn]; [left; exists c, r; auto|right].
    intros (c & r & Hb & E). cbn in E. injection E as ->. apply Hn. exists c, r. auto.
Qed.

(* the values [ch] hold a non-deleted value at [d] or beneath [d] *)
Definition creates (ch : cmap) (d : str) : Prop :=
  exists k v, In (k, v) ch /\ pv_deleted v = false /\ (k = d \/ Below k d).

Lemma creates_dec (ch : cmap) (d : str) : creates ch d \/ ~ creates ch d.
Proof.
  induction ch as [|[k v] ch IH]; [right; intros (k & v & [] & _)|].
  destruct IH as [(k' & v' & H1 & H2)|Hn]; [left; exists k', v'; split; [right; exact H1|exact H2]|].
  assert (Hhere : (pv_deleted v = false /\ (k = d \/ Below k d)) \/ ~ (pv_deleted v = false /\ (k = d \/ Below k d))).
  { destruct (pv_deleted v); [right; intros [E _]; discriminate E|].
    destruct (str_eq_dec k d) as [E|Hne]; [left; auto|]. destruct (Below_dec k d) as [Hb|Hnb]; [left; auto|].
    right. intros [_ [E|Hb]]; contradiction. }
  destruct Hhere as [Hh|Hnh]; [left; exists k, v; split; [left; reflexivity|exact Hh]|].
  right. intros (k' & v' & [E|Hin] & H2); [injection E as <- <-; contradiction|]. apply Hn. exists k', v'. auto.
Qed.

(** * World part *)
Local Opaque restore record_applied commit_merge touched overlay rollback_of candidate candidate_rb payload resync_payload stamp doc_ok.

Section World.
  Context (Lf : N -> str -> Prop) (Lf_free : forall t p q, Lf t p -> Lf t q -> ~ Below p q).

  Theorem commit_adds (w : Wd) t i n (o : oracle) (P : Prop2) (C C' : Cfg) :
    Inv Lf w -> props w !! (t, i) = Some P -> cfgs w !! t = Some C ->
    p_commit P = Some Doing -> p_apply P = None -> p_abort P = None -> c_committed C = p_prev P -> (2 <= n)%nat ->
    cfgs (p2_step w (LRec (CtlProp (t, i)) n o)) !! t = Some C' ->
    forall k x, In (k, x) (live (view overlay C')) ->
      In (k, x) (live (view overlay C)) \/ exists v, In (k, v) (rb_change [] P) /\ pv_deleted v = false /\ pv_val v = x.
  Proof.
    intros [HS HD] HP HC Ec Ea Eb Hcm Hn HC' k x.
    rewrite (commit_cfg o w t i n P C C' HP HC Ec Ea Eb Hcm Hn HC').
    unfold view at 1. cbn [c_inline c_values set].
    destruct (dc_commit_pre Lf w HS t C HC (HD t C HC) i P HP) as (H1 & Hvw & Hsub & Hnlb & R2 & Hic).
    apply (commit_adds_only_change (o_order o) i _ _ _ H1 Hvw Hsub Hnlb R2 Hic k x).
  Qed.

  (* the position of a commit step of a proposal of [t] whose values hold a non-deleted value at [d] or beneath [d],
     in the run [ls] started in [w] *)
  Definition created_in (w : Wd) (ls : list Label) (t : N) (d : str) : Prop :=
    exists ls1 ls2 j n o (Q : Prop2),
      ls = ls1 ++ LRec (CtlProp (t, j)) n o :: ls2 /\ props (run_from ls1 w) !! (t, j) = Some Q /\
      p_commit Q = Some Doing /\ creates (rb_change [] Q) d.

  (* nothing live at [d] or beneath [d] *)
  Definition nothing_at (C : Cfg) (d : str) : Prop :=
    forall k x, In (k, x) (live (view overlay C)) -> k <> d /\ ~ Below k d.

  Theorem run_deleted_persists (ls : list Label) : forall (w : Wd) t (C : Cfg) d,
    Inv Lf w -> run_good Lf w ls -> cfgs w !! t = Some C ->
    nothing_at C d ->
    (exists C' : Cfg, cfgs (run_from ls w) !! t = Some C' /\ nothing_at C' d) \/
    created_in w ls t d.
  Proof.
    induction ls as [|l ls IH]; intros w t C d HI Hg HC Hno; [left; exists C; auto|].
    destruct Hg as (G1 & G2 & G3). destruct (cfg_step_some w l t C HC) as [C1 HC1]. cbn [fold_left].
    pose proof (inv_step Lf Lf_free w l HI G1 G2) as HI1.
    assert (Hnext : nothing_at C1 d ->
                    (exists C' : Cfg, cfgs (run_from ls (p2_step w l)) !! t = Some C' /\ nothing_at C' d) \/
                    created_in w (l :: ls) t d).
    { intros Hno1. destruct (IH (p2_step w l) t C1 d HI1 G3 HC1 Hno1) as [Hl|(ls1 & ls2 & j & n & o & Q & -> & HQ & Hc & Ht)]; [left; exact Hl|].
      right. exists (l :: ls1), ls2, j, n, o, Q. auto. }
    destruct (live_view_frame Lf Lf_free w l t C C1 HI G1 G2 HC HC1) as [E|(i & n & o & P & -> & HP & E1 & E2 & E3 & E4 & _)].
    - apply Hnext. unfold nothing_at. rewrite E. exact Hno.
    - destruct (creates_dec (rb_change [] P) d) as [Hcr|Hncr].
      + right. exists [], ls, i, n, o, P. auto.
      + apply Hnext. intros k x Hin.
        pose proof (commit_two o w t i n P C HP HC E1 E2 E3 E4 G2) as Hn.
        destruct (commit_adds w t i n o P C C1 HI HP HC E1 E2 E3 E4 Hn HC1 k x Hin) as [Hold|(v & Hv1 & Hv2 & _)]; [exact (Hno k x Hold)|].
        split.
        * intros ->. apply Hncr. exists d, v. auto.
        * intros Hb. apply Hncr. exists k, v. auto.
  Qed.
End World.

(** * On runs from the initial world *)
Theorem deleted_persists_run (ls1 ls2 : list Label) t (C : Cfg) d :
  labels_wfb (ls1 ++ ls2) = true -> completes p2_init (ls1 ++ ls2) ->
  cfgs (x_run ls1) !! t = Some C ->
  nothing_at C d ->
  (exists C' : Cfg, cfgs (x_run (ls1 ++ ls2)) !! t = Some C' /\ nothing_at C' d) \/
  created_in (x_run ls1) ls2 t d.
Proof.
  intros Hw Hc HC Hno. destruct (inv_prefix ls1 ls2 Hw Hc) as [HI Hg].
  rewrite x_run_app.
  exact (run_deleted_persists _ (Lf_of_free _ Hw) ls2 (x_run ls1) t C d HI Hg HC Hno).
Qed.

(* after the commit of a change that deletes [d], nothing is live at [d] or beneath [d] at the end of the run unless
   a later commit step of a proposal of the same target merged values holding a non-deleted value at or beneath [d] *)
Theorem deleted_path_stays_deleted_run (ls1 ls2 : list Label) t i n (o : oracle) (P : Prop2) (C : Cfg) c d u :
  labels_wfb (ls1 ++ LRec (CtlProp (t, i)) n o :: ls2) = true ->
  completes p2_init (ls1 ++ LRec (CtlProp (t, i)) n o :: ls2) ->
  props (x_run ls1) !! (t, i) = Some P -> p_details P = PChange c -> cfgs (x_run ls1) !! t = Some C ->
  p_commit P = Some Doing -> p_apply P = None -> p_abort P = None -> c_committed C = p_prev P ->
  In (d, u) c -> pv_deleted u = true ->
  (exists C' : Cfg, cfgs (x_run (ls1 ++ LRec (CtlProp (t, i)) n o :: ls2)) !! t = Some C' /\ nothing_at C' d) \/
  created_in (x_run (ls1 ++ [LRec (CtlProp (t, i)) n o])) ls2 t d.
Proof.
  intros Hw Hc HP Hdt HC E1 E2 E3 E4 Hin Hdel. set (l := LRec (CtlProp (t, i)) n o) in *.
  destruct (inv_prefix ls1 (l :: ls2) Hw Hc) as [HI (G1 & G2 & _)].
  destruct (cfg_step_some (x_run ls1) l t C HC) as [C1 HC1].
  pose proof (commit_two o (x_run ls1) t i n P C HP HC E1 E2 E3 E4 G2) as Hn.
  destruct (commit_contains_change _ (x_run ls1) t i n o P C C1 c HI HP Hdt HC E1 E2 E3 E4 Hn HC1) as (_ & _ & Hhide).
  assert (HC1' : cfgs (x_run (ls1 ++ [l])) !! t = Some C1).
  { rewrite x_run_app. exact HC1. }
  assert (Hsplit : ls1 ++ l :: ls2 = (ls1 ++ [l]) ++ ls2) by (rewrite <- app_assoc; reflexivity).
  rewrite Hsplit in Hw, Hc |- *.
  exact (deleted_persists_run (ls1 ++ [l]) ls2 t C1 d Hw Hc HC1' (Hhide d u Hin Hdel)).
Qed.
