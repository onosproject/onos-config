(* C01, value level: on a run of the executable instance the evaluable hypotheses of the theorems of
   Proofs/P2PureAtomic*.v hold (labels_wfb, completesb, the state of the committing proposal), and what the theorems
   conclude is what evaluation shows (vm_compute).  The fixed-point hypothesis of C01_all_or_none_values_partial
   (no reconcile has an effect, for every oracle) is not evaluated.  The run is the one of
   Proofs/P2_OrderEx.v: one Set naming two targets (/a = 1 on target 1, /b = 2 on target 2) driven to COMMITTING. *)
From stdpp Require Import gmap.
From OC Require Import Base.Bytes Model.P2Pure Model.Proto2 Model.P2Inst Proofs.P2_ConvergeEx Proofs.P2_OrderEx.
From OC Require Import Proofs.P2PureReachLabels Proofs.P2PureReachEx.
Open Scope N_scope.

Definition ls_c : list Label := ls_validating ++ ls_committing.
Definition commit1 : Label := pr 1 o_acc.

(* C01_commit_contains_change / C01_untouched_targets_keep_values / C01_committed_value_persists: the run up to and
   including the commit step of proposal (1,1) is well-formed and complete, the proposal is COMMITTING on top of its
   predecessor *)
Example ex_commit_premises :
  labels_wfb (ls_c ++ [commit1]) = true /\ completesb p2_init (ls_c ++ [commit1]) = true /\
  exists (P : Prop2) (C : Cfg), props (x_run ls_c) !! (1, 1) = Some P /\ cfgs (x_run ls_c) !! 1 = Some C /\
    p_details P = PChange [(B "/a", mkPV (B "/a") (B "1") false 1)] /\
    p_commit P = Some Doing /\ p_apply P = None /\ p_abort P = None /\ c_committed C = p_prev P.
Proof.
  split; [vm_compute; reflexivity|]. split; [vm_compute; reflexivity|].
  eexists _, _. split; [vm_compute; reflexivity|]. split; [vm_compute; reflexivity|]. repeat split; vm_compute; reflexivity.
Qed.

(* ... and what the theorems conclude: target 1 shows the change, target 2 is untouched *)
Example ex_commit_shows :
  option_map (fun C : Cfg => (c_committed C, live (view overlay C))) (cfgs (p2_step (x_run ls_c) commit1) !! 1) = Some (1, [(B "/a", B "1")]) /\
  option_map (fun C : Cfg => live (view overlay C)) (cfgs (p2_step (x_run ls_c) commit1) !! 2) =
  option_map (fun C : Cfg => live (view overlay C)) (cfgs (x_run ls_c) !! 2).
Proof. split; vm_compute; reflexivity. Qed.

(* C01_all_or_none_values_partial: the run continued by both commit steps and four transaction invocations; evaluated
   are labels_wfb, completesb, the live views (both show their share) and p_commit (both proposals COMMITTED) - not that
   no reconcile has anything left to do *)
Definition ls_idle : list Label := ls_c ++ [pr 1 o_acc; pr 2 o_acc; tx 9; tx 9; tx 9; tx 9].
Example ex_idle_values :
  labels_wfb ls_idle = true /\ completesb p2_init ls_idle = true /\
  map (fun tc => (fst tc, live (view overlay (snd tc)))) (w_cfgs (x_run ls_idle)) = [(1, [(B "/a", B "1")]); (2, [(B "/b", B "2")])] /\
  map (fun kp => (fst kp, p_commit (snd kp))) (w_props (x_run ls_idle)) = [((1, 1), Some Done); ((2, 1), Some Done)].
Proof. repeat split; vm_compute; reflexivity. Qed.
