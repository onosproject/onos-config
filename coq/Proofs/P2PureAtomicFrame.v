(* C01, value level, on the executable instance: what a step leaves alone.
     - live_view_frame: a complete step changes the live view (what Get shows) of a target only if it is the commit of
       a proposal of THAT target (instance of the abstract values_only_by_commit + the reachability invariant: the
       inlined values never show a key the stored map does not hold);
     - live_value_persists: a live stored value survives every complete step, the commit of another proposal of the
       same target included, unless that proposal's values touch its path (hold the path, or delete a path above it) -
       for every Go-map order (commit_keeps_untouched of Proofs/P2PureAtomicCommit.v). *)
From stdpp Require Import gmap.
From OC Require Import Base.Bytes Model.P2Pure Model.Proto2 Model.P2Inst Proofs.P2_OrderStep.
From OC Require Import Proofs.P2PureApplyDefs Proofs.P2PureApplyBase Proofs.P2PureApplySem Proofs.P2PureApplySound
     Proofs.P2PureApplyInst Proofs.P2PureReachPure Proofs.P2PureReachInv Proofs.P2PureReachDyn
     Proofs.P2PureReachRun Proofs.P2PureAtomicCommit.
Open Scope N_scope.

Lemma cmap_eq_dec (a b : cmap) : {a = b} + {a <> b}.
Proof. repeat (decide equality; try apply N.eq_dec). Defined.

(* the values of [ch] touch path [p]: they hold it, or delete a path above it *)
Definition touches (ch : cmap) (p : str) : Prop := plookup p ch <> None \/ covered ch p = true.

Notation i_values_only_by_commit :=
  (values_only_by_commit candidate candidate_rb rollback_of overlay commit_merge payload record_applied touched restore
                         resync_payload doc_ok dev_apply stamp [] [] []).

(** * World part *)
Section World.
  Context (Lf : N -> str -> Prop) (Lf_free : forall t p q, Lf t p -> Lf t q -> ~ Below p q).

  (* two entries of an invariant world with the same stored map show the same live view *)
  Lemma same_values_same_live (w w' : Wd) t (C C' : Cfg) :
    Inv Lf w -> Inv Lf w' -> cfgs w !! t = Some C -> cfgs w' !! t = Some C' -> c_values C' = c_values C ->
    live (view overlay C') = live (view overlay C).
  Proof.
    intros [HS HD] [HS' HD'] HC HC' E.
    pose proof (dc_view_wf Lf w HS t C HC) as W. pose proof (dc_view_wf Lf w' HS' t C' HC') as W'.
    assert (Hlk : forall k, plookup k (view overlay C') = plookup k (view overlay C)).
    { intros k. rewrite (dc_view_lookup Lf w' HS' t C' HC' (HD' t C' HC')), (dc_view_lookup Lf w HS t C HC (HD t C HC)), E. reflexivity. }
    apply live_ext; [assumption..|]. apply prune_equiv; [assumption..| |].
    - intros k v Hk _. exists v. split; [rewrite Hlk; exact Hk|apply same_content_refl].
    - intros k. rewrite Hlk. auto.
  Qed.

  Theorem live_view_frame (w : Wd) (l : Label) t (C C' : Cfg) :
    Inv Lf w -> label_ok Lf l -> i_complete w l -> cfgs w !! t = Some C -> cfgs (p2_step w l) !! t = Some C' ->
    live (view overlay C') = live (view overlay C) \/
    exists i n o (P : Prop2), l = LRec (CtlProp (t, i)) n o /\ props w !! (t, i) = Some P /\
      p_commit P = Some Doing /\ p_apply P = None /\ p_abort P = None /\ c_committed C = p_prev P /\ (0 < n)%nat.
  Proof.
    intros HI Hl Hc HC HC'. destruct (cmap_eq_dec (c_values C') (c_values C)) as [E|Hne].
    - left. apply (same_values_same_live w (p2_step w l) t C C' HI (inv_step Lf Lf_free w l HI Hl Hc) HC HC' E).
    - right. destruct (i_values_only_by_commit w l t C C' HC HC' Hne) as (i & n & o & P & H1 & H2 & H3 & H4 & H5 & H6 & H7 & _).
      exists i, n, o, P. auto 10.
  Qed.

  Corollary other_target_keeps (w : Wd) t' i n o t (C C' : Cfg) :
    Inv Lf w -> i_complete w (LRec (CtlProp (t', i)) n o) -> t' <> t ->
    cfgs w !! t = Some C -> cfgs (p2_step w (LRec (CtlProp (t', i)) n o)) !! t = Some C' ->
    live (view overlay C') = live (view overlay C).
  Proof.
    intros HI Hc Hne HC HC'. destruct (live_view_frame w (LRec (CtlProp (t', i)) n o) t C C' HI I Hc HC HC') as [E|(i0 & n0 & o0 & P & [= -> _ _ _] & _)]; [exact E|congruence].
  Qed.

  Theorem live_value_persists (w : Wd) (l : Label) t (C C' : Cfg) p e :
    Inv Lf w -> label_ok Lf l -> i_complete w l -> cfgs w !! t = Some C -> cfgs (p2_step w l) !! t = Some C' ->
    plookup p (c_values C) = Some e -> pv_deleted e = false ->
    plookup p (c_values C') = Some e \/
    exists i n o (P : Prop2), l = LRec (CtlProp (t, i)) n o /\ props w !! (t, i) = Some P /\
      p_commit P = Some Doing /\ p_apply P = None /\ p_abort P = None /\ c_committed C = p_prev P /\
      touches (rb_change [] P) p.
  Proof.
    intros [HS HD] Hl Hc HC HC' He Hlv. destruct (cmap_eq_dec (c_values C') (c_values C)) as [E|Hne]; [left; rewrite E; exact He|].
    destruct (i_values_only_by_commit w l t C C' HC HC' Hne) as (i & n & o & P & H1 & H2 & H3 & H4 & H5 & H6 & H7 & H8).
    destruct (plookup p (rb_change [] P)) as [u|] eqn:Eu.
    { right. exists i, n, o, P. repeat split; auto. left. congruence. }
    destruct (covered (rb_change [] P) p) eqn:Ec.
    { right. exists i, n, o, P. repeat split; auto. right. exact Ec. }
    left. rewrite H8. destruct (dc_commit_pre Lf w HS t C HC (HD t C HC) i P H2) as (W1 & Hvw & Hsub & Hnlb & R2 & _).
    apply commit_keeps_untouched; assumption.
  Qed.
End World.
