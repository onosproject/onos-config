(* C01, value level: the premise [committed_means_merged] of [all_or_none_values_partial] (Proofs/P2PureAtomicAll.v)
   discharged for runs of COMPLETE reconcile invocations from the initial world.
     - B_inv (every reachable world): no proposal of the target lies strictly between a proposal and its PrevIndex;
     - J_inv (worlds reached by complete invocations): a proposal that is neither applying, nor aborting, nor COMMITTED
       has its index above Committed.Index (with partial invocations this fails: the commit invocation cut after the
       configuration write leaves Committed.Index = i with the proposal still committing);
     - done_step: the Commit phase of a proposal becomes Done only by the step of its own controller;
     - committed_means_merged_holds, all_or_none_values. *)
From stdpp Require Import gmap.
From RecordUpdate Require Import RecordUpdate.
From OC Require Import Model.Proto2 Proofs.P2Base Proofs.P2_Cursor Proofs.P2_CursorInv Proofs.P2_CursorChain
     Proofs.P2_CursorLink Proofs.P2_CursorChainInv Proofs.P2_CursorGuard Proofs.P2_Converge Proofs.P2_Order.
Open Scope N_scope.

Section Merged.
  Context {V Ch Req D : Type}.
  Context (candidate : V -> Ch -> V) (candidate_rb : V -> Ch -> V) (rollback_of : V -> Ch -> Ch)
          (overlay : V -> V -> V) (commit_merge : N -> N -> V -> V -> Ch -> V)
          (payload : N -> V -> Ch -> option Req) (record_applied : N -> N -> V -> V -> V -> Ch -> V)
          (touched : N -> V -> Ch -> V) (restore : V -> V -> V)
          (resync_payload : V -> list (option Req)) (doc_ok : V -> bool)
          (dev_apply : D -> Req -> D) (stamp : N -> Ch -> Ch) (v_empty : V) (d_empty : D) (ch_empty : Ch).

  Notation world := (@world V Ch Req D).
  Notation prop := (@prop Ch).
  Notation config := (@config V).
  Notation step := (@step V Ch Req D candidate candidate_rb rollback_of overlay commit_merge payload record_applied
                          touched restore resync_payload doc_ok dev_apply stamp v_empty d_empty ch_empty).
  Notation reach := (@reach V Ch Req D candidate candidate_rb rollback_of overlay commit_merge payload record_applied
                            touched restore resync_payload doc_ok dev_apply stamp v_empty d_empty ch_empty).
  Notation complete := (complete candidate candidate_rb rollback_of overlay commit_merge payload record_applied touched restore
                                 resync_payload doc_ok stamp v_empty d_empty ch_empty).

  Local Notation "'inst' f" := (f candidate candidate_rb rollback_of overlay commit_merge payload record_applied touched restore
                                  resync_payload doc_ok dev_apply stamp v_empty d_empty ch_empty) (at level 10, f at level 9).

  Local Notation "'instp' f" := (f candidate candidate_rb rollback_of overlay commit_merge payload record_applied touched restore
                                   doc_ok v_empty d_empty ch_empty) (at level 10, f at level 9).

  (** * No proposal strictly between a proposal and its PrevIndex *)
  Definition B_inv (w : world) : Prop :=
    forall t i j (Pi Pj : prop), props w !! (t, i) = Some Pi -> props w !! (t, j) = Some Pj ->
      p_prev Pj <> 0 -> p_prev Pj < i -> i < j -> False.

  Lemma B_init : B_inv (@init V Ch Req D).
  Proof. intros t i j Pi Pj H. cbn in H. rewrite lookup_empty in H. discriminate H. Qed.

  Lemma B_step (w : world) l : reach w -> B_inv w -> B_inv (step w l).
  Proof.
    intros Hr HB t i j Pi' Pj' HPi' HPj' Hnz Hlt1 Hlt2.
    destruct (inst prop_post _ _ _ _ HPj') as [(_ & Hz & _)|(Pj & HPj & Hrel)]; [congruence|].
    assert (HexI : exists Pi : prop, props w !! (t, i) = Some Pi).
    { destruct (inst prop_post _ _ _ _ HPi') as [(_ & _ & _ & _ & n & o & _ & Hin)|(Pi & HPi & _)]; [|eauto].
      exfalso. cbn [snd] in Hin. exact (inst no_create_below w t i j Pi' Pj Hr Hin HPj Hlt2). }
    destruct HexI as [Pi HPi].
    destruct Hrel as [(Hp & _)|(t0 & i0 & n & o & Hl & Hlw)].
    - rewrite Hp in *. exact (HB t i j Pi Pj HPi HPj Hnz Hlt1 Hlt2).
    - destruct Hlw as [(Hp & _)|[(C & Pi0 & _ & _ & _ & _ & _ & _ & _ & ->)|(C & Q & HC & Hk & Hdo & Hlt & Hpos & HQ & _ & Hz & ->)]].
      + rewrite Hp in *. exact (HB t i j Pi Pj HPi HPj Hnz Hlt1 Hlt2).
      + cbn in *. exact (HB t i j Pi Pj HPi HPj Hnz Hlt1 Hlt2).
      + cbn in *. injection Hk as <- <-.
        pose proof (inst open_is_last w t i j Pi Pj Hr HPi HPj Hlt2) as Hd.
        destruct (ci_reg _ (inst C_inv_reach _ Hr) _ _ _ HPi Hd) as (C0 & HC0 & Hle).
        rewrite HC in HC0. injection HC0 as <-. lia.
  Qed.

  Theorem B_reach (w : world) : reach w -> B_inv w.
  Proof.
    apply (inst reach_ind B_inv).
    - exact B_init.
    - intros w0 l Hr Hi. apply B_step; assumption.
  Qed.

  (** * A proposal that is still open lies above Committed.Index *)
  Lemma open_below (w : world) t i (P : prop) (C : config) :
    reach w -> props w !! (t, i) = Some P -> cfgs w !! t = Some C -> p_init P <> Some Done -> c_committed C < i.
  Proof.
    intros Hr HP HC Hnd. pose proof (inst prop_index_pos _ _ _ _ Hr HP) as Hpos.
    destruct (N.eq_dec (c_committed C) 0) as [Hz|Hnz]; [lia|].
    destruct (ci_committed _ (inst C_inv_reach _ Hr) _ _ HC Hnz) as (Pc & HPc & Hd).
    destruct (N.lt_trichotomy (c_committed C) i) as [Hlt|[He|Hgt]]; [exact Hlt| |].
    - rewrite He in HPc. congruence.
    - exfalso. apply Hnd. exact (inst open_is_last w t i (c_committed C) P Pc Hr HP HPc Hgt).
  Qed.

  Definition J_inv (w : world) : Prop :=
    forall t i (P : prop) (C : config), props w !! (t, i) = Some P -> cfgs w !! t = Some C ->
      p_apply P = None -> p_abort P = None -> p_commit P <> Some Done -> c_committed C < i.

  Lemma J_init : J_inv (@init V Ch Req D).
  Proof. intros t i P C H. cbn in H. rewrite lookup_empty in H. discriminate H. Qed.

  (* a complete commit invocation marks the proposal COMMITTED *)
  Lemma commit_complete (w : world) t i n o (P : prop) (C : config) :
    props w !! (t, i) = Some P -> p_apply P = None -> p_abort P = None -> p_commit P = Some Doing -> cfgs w !! t = Some C ->
    complete w (LRec (CtlProp (t, i)) n o) ->
    props (step w (LRec (CtlProp (t, i)) n o)) !! (t, i) = Some (P <| p_commit := Some Done |>).
  Proof.
    intros HP Ha Hb Hc HC Hlen. unfold P2_Converge.complete in Hlen. cbn [Proto2.step Proto2.reconcile] in *.
    rewrite firstn_all2 by exact Hlen.
    destruct (instp rec_prop_commit_effs o w t i P C HP Ha Hb Hc HC) as (v & c' & _ & ->).
    rewrite fold_left_app. cbn [fold_left]. rewrite props_apply_eff. apply lookup_insert.
  Qed.

  Lemma J_step (w : world) l : reach w -> J_inv w -> complete w l -> J_inv (step w l).
  Proof.
    intros Hr HJ Hcp t i P' C' HP' HC' Hap Hab Hco.
    pose proof (inst reach_step w l Hr) as Hr'. pose proof (B_reach w Hr) as HB. pose proof (inst C_inv_reach _ Hr) as HCI.
    assert (Hid : p_init P' = Some Done \/ p_init P' <> Some Done) by (destruct (p_init P') as [[]|]; auto; right; discriminate).
    destruct Hid as [Hid|Hid]; [|exact (open_below _ _ _ _ _ Hr' HP' HC' Hid)].
    assert (Hpre : exists P : prop, props w !! (t, i) = Some P /\ p_apply P = None /\ p_abort P = None /\ p_commit P <> Some Done).
    { (* the proposal is not new, and phases only move forward *)
      destruct (inst prop_post _ _ _ _ HP') as [(_ & _ & _ & Hn & _)|(P & HP & _)]; [congruence|].
      destruct (proj1 (proj2 (inst step_mono w l Hr)) _ _ HP) as (P'' & HP'' & _ & _ & _ & Lc & La & Lb & _).
      rewrite HP' in HP''. injection HP'' as <-. rewrite Hap in La. rewrite Hab in Lb.
      exists P. split; [exact HP|].
      split; [destruct (p_apply P) as [[]|]; [discriminate La..|reflexivity]|].
      split; [destruct (p_abort P) as [[]|]; [discriminate Lb..|reflexivity]|].
      intros E. rewrite E in Lc. destruct (p_commit P') as [[]|]; try discriminate Lc. congruence. }
    destruct Hpre as (P & HP & Hap0 & Hab0 & Hco0).
    apply cfg_step in HC'. destruct HC' as [(C & HC & Hrel)|(Hn & i1 & k & o & _ & _ & Hcore)].
    2:{ unfold core in Hcore. injection Hcore as _ _ Hc3 _ _ _ _ _ _. rewrite Hc3.
        pose proof (inst prop_index_pos _ _ _ _ Hr' HP'). lia. }
    pose proof (HJ t i P C HP HC Hap0 Hab0 Hco0) as Hlt.
    destruct Hrel as [S|(ctl & k & o & c0 & -> & Hw & S)]; [sim_cbn S; rewrite <- S3; exact Hlt|].
    assert (Hmove : forall i0 (P0 : prop), props w !! (t, i0) = Some P0 -> c_committed C = p_prev P0 ->
                    p_commit P0 = Some Doing /\ i0 <> i \/ p_abort P0 = Some Doing -> i0 < i).
    { intros i0 P0 HP0 Hpr Hs.
      destruct (N.lt_trichotomy i0 i) as [Hl|[->|Hg]]; [exact Hl|destruct Hs as [[_ Hne]|E]; congruence|]. exfalso.
      assert (Hd0 : p_init P0 = Some Done) by (eapply (inst phase_linked); [exact Hr|exact HP0|]; destruct Hs as [[E _]|E]; rewrite E; eauto).
      pose proof (inst open_is_last w t i i0 P P0 Hr HP HP0 Hg) as Hd.
      destruct (N.eq_dec (p_prev P0) 0) as [Hz|Hnz].
      - destruct (ci_reg _ HCI _ _ _ HP Hd) as (C1 & HC1 & Hle1). rewrite HC in HC1. injection HC1 as <-.
        destruct (ci_reg _ HCI _ _ _ HP0 Hd0) as (C2 & HC2 & Hle2). rewrite HC in HC2. injection HC2 as <-.
        pose proof (ci_first _ HCI t C i0 i P0 P HC HP0 HP Hle2 Hle1 Hz). lia.
      - apply (HB t i i0 P P0 HP HP0 Hnz); [lia|exact Hg]. }
    inversion Hw; subst; sim_cbn S; rewrite <- ?S3; try exact Hlt.
    - (* the commit write *)
      destruct (N.eq_dec i0 i) as [->|Hne].
      + exfalso. match goal with HP1 : props w !! (t, i) = Some ?P1, E : p_commit ?P1 = Some Doing |- _ =>
                   rewrite (commit_complete w t i k o P1 C HP1) in HP' by assumption end.
        injection HP' as <-. cbn in Hco. congruence.
      + eapply Hmove; try eassumption. left. split; assumption.
    - eapply Hmove; try eassumption. right. assumption.
    - eapply Hmove; try eassumption. right. assumption.
  Qed.

  (** * The Commit phase becomes Done only by the step of the proposal's own controller *)
  Lemma done_step (w : world) l t i (P' : prop) :
    props (step w l) !! (t, i) = Some P' -> p_commit P' = Some Done ->
    (exists P : prop, props w !! (t, i) = Some P /\ p_commit P = Some Done) \/
    (exists (P : prop) n o, l = LRec (CtlProp (t, i)) n o /\ props w !! (t, i) = Some P /\
       p_commit P = Some Doing /\ p_apply P = None /\ p_abort P = None).
  Proof.
    intros HP' Hd. pose proof HP' as H. apply prop_step in H. destruct H as [H|(ctl & n & o & -> & [H|[H _]])].
    - left. exists P'. auto.
    - destruct ctl as [j|[t0 i0]|t0|t0|c0]; cbn [Proto2.reconcile] in H.
      + apply rec_tx_putprop in H. destruct H as (t1 & p & T & _ & _ & _ & Hp & Hs). left. exists p. split; [exact Hp|].
        destruct Hs as [(_ & _ & ->)|[(_ & _ & _ & ->)|[(_ & _ & _ & _ & ->)|(_ & _ & _ & _ & _ & ->)]]]; cbn in Hd; try exact Hd; discriminate Hd.
      + pose proof H as H1. apply rec_prop_putprop in H1. destruct H1 as (P & HP & _ & _ & (_ & Hc & _)).
        destruct Hc as [E|(E1 & E2 & E3)].
        * left. exists P. split; [exact HP|congruence].
        * right. destruct (instp rec_prop_commit_write _ _ _ _ _ _ _ H HP E1 E2) as ([= <- <-] & Ha & Hb).
          exists P, n, o. auto.
      + apply rec_cfg_kinds in H. destruct H.
      + apply rec_master_only_putcfg in H. destruct H.
      + apply rec_conn_only_rel in H. destruct H.
    - apply reconcile_createprop in H. destruct H as (T & _ & _ & _ & _ & _ & _ & _ & _ & _ & [(c & ->)|(ri & ->)]); discriminate Hd.
  Qed.

  (* the commit step of a run of complete invocations finds Committed.Index = PrevIndex *)
  Lemma commit_from_prev (w : world) t i (P : prop) :
    reach w -> J_inv w -> props w !! (t, i) = Some P -> p_commit P = Some Doing -> p_apply P = None -> p_abort P = None ->
    exists C : config, cfgs w !! t = Some C /\ c_committed C = p_prev P.
  Proof.
    intros Hr HJ HP Hc Ha Hb.
    assert (Hd : p_init P = Some Done).
    { eapply (inst phase_linked); [exact Hr|exact HP|]. right. left. rewrite Hc. eexists; reflexivity. }
    destruct (ci_reg _ (inst C_inv_reach _ Hr) _ _ _ HP Hd) as (C & HC & _). exists C. split; [exact HC|].
    destruct (inst commit_guard_reach w Hr t i P C HP HC Hc Hb Ha) as [He|Hle]; [exact He|].
    assert (Hne : p_commit P <> Some Done) by congruence.
    pose proof (HJ t i P C HP HC Ha Hb Hne). lia.
  Qed.
End Merged.

(** * On the executable instance *)
From OC Require Import Model.P2Pure Model.P2Inst Proofs.P2_ConvergeEx Proofs.P2PureReachLabels Proofs.P2PureAtomicAll.

Lemma x_run_snoc (ls : list Label) (l : Label) : x_run (ls ++ [l]) = p2_step (x_run ls) l.
Proof. exact (P2PureReachRun.x_run_app ls [l]). Qed.

Lemma J_run (ls : list Label) : completes p2_init ls -> J_inv (x_run ls).
Proof.
  induction ls as [|l ls IH] using rev_ind; intros Hc.
  - exact J_init.
  - apply completes_app in Hc. destruct Hc as [Hc1 [Hc2 _]]. rewrite x_run_snoc.
    apply J_step; [apply x_run_reach|exact (IH Hc1)|exact Hc2].
Qed.

Theorem committed_means_merged_holds (ls : list Label) : completes p2_init ls -> committed_means_merged ls.
Proof.
  induction ls as [|l ls IH] using rev_ind; intros Hc t i P HP Hd.
  - unfold x_run in HP. cbn in HP. rewrite lookup_empty in HP. discriminate HP.
  - pose proof Hc as Hc0. apply completes_app in Hc0. destruct Hc0 as [Hc1 _]. rewrite x_run_snoc in HP.
    apply done_step in HP; [|exact Hd]. destruct HP as [(P1 & HP1 & Hd1)|(P0 & n & o & -> & HP0 & E1 & E2 & E3)].
    + destruct (IH Hc1 t i P1 HP1 Hd1) as (ls1 & ls2 & n & o & P0 & C0 & -> & H).
      exists ls1, (ls2 ++ [l]), n, o, P0, C0. split; [|exact H]. rewrite <- app_assoc. reflexivity.
    + destruct (commit_from_prev candidate candidate_rb rollback_of overlay commit_merge payload record_applied touched restore
                  resync_payload doc_ok dev_apply stamp [] [] [] (x_run ls) t i P0 (x_run_reach ls) (J_run ls Hc1) HP0 E1 E2 E3)
        as (C0 & HC0 & E4).
      exists ls, [], n, o, P0, C0. repeat split; auto.
Qed.

Theorem all_or_none_values (ls : list Label) :
  labels_wfb ls = true -> completes p2_init ls -> i_reconcile_nothing (x_run ls) ->
  forall i (T : Txn), txs (x_run ls) !! i = Some T ->
    (forall t, In t (default [] (t_props T)) ->
       exists (P : Prop2) (C : Cfg), props (x_run ls) !! (t, i) = Some P /\ p_commit P = Some Done /\ cfgs (x_run ls) !! t = Some C /\
         forall c p u, p_details P = PChange c -> In (p, u) c -> pv_deleted u = false ->
           In (p, pv_val u) (live (view overlay C)) \/
           exists ls1 ls2 n o, ls = ls1 ++ LRec (CtlProp (t, i)) n o :: ls2 /\
                               touched_in (x_run (ls1 ++ [LRec (CtlProp (t, i)) n o])) ls2 t p) \/
    ((forall t P, props (x_run ls) !! (t, i) = Some P -> p_commit P = None) /\
     forall ls1 ls2 t n o t' (C C' : Cfg), ls = ls1 ++ LRec (CtlProp (t, i)) n o :: ls2 ->
       cfgs (x_run ls1) !! t' = Some C -> cfgs (p2_step (x_run ls1) (LRec (CtlProp (t, i)) n o)) !! t' = Some C' ->
       live (view overlay C') = live (view overlay C)).
Proof.
  intros Hw Hc Hfix. exact (all_or_none_values_partial ls Hw Hc Hfix (committed_means_merged_holds ls Hc)).
Qed.
