(* C04, reachability invariant of the instance, part 3: the DYNAMIC part - after every COMPLETE reconcile invocation,
   for every configuration: no live value beneath a tombstone in the stored committed map, the inlined committed values
   hold no key the map does not hold, and no live value beneath a tombstone in the loaded applied values
   (wf_pair of the inlined applied values and the stored applied map).  [Inv] = static + dynamic part, and that it is
   preserved by every environment label whose changes are well-formed and by every complete invocation:
   Proofs/P2PureReachRun.v. *)
From stdpp Require Import gmap.
From OC Require Import Base.Bytes Model.P2Pure Model.Proto2 Model.P2Inst Proofs.P2_Cursor Proofs.P2_Converge.
From OC Require Import Proofs.P2PureApplyDefs Proofs.P2PureApplyBase Proofs.P2PureApplySem Proofs.P2PureApplySound
     Proofs.P2PureApplyStatus Proofs.P2PureReachPure Proofs.P2PureReachInv Proofs.P2PureReachEff.
Open Scope N_scope.

Definition cfg_neutral (t : N) (e : Eff) : Prop :=
  match e with EPutCfg t' _ | EPutValues t' _ | EPutAValues t' _ => t' <> t | _ => True end.

Lemma cfg_neutral_on t (C : Cfg) (e : Eff) : cfg_neutral t e -> cfg_on t C e = C.
Proof.
  destruct e as [| | | |t0 c|t0 v|t0 v| | |]; cbn; try reflexivity; intros Hne; (destruct (N.eqb_spec t0 t); [contradiction|reflexivity]).
Qed.
Lemma cfg_neutral_fold t (es : list Eff) (C : Cfg) : Forall (cfg_neutral t) es -> fold_left (cfg_on t) es C = C.
Proof.
  induction es as [|e es IH]; intros Hf; [reflexivity|]. inversion Hf; subst. cbn. rewrite cfg_neutral_on by assumption. auto.
Qed.

Lemma wfk_of (m : cmap) : WF m -> wfk m = true.
Proof. apply wfk_WF. Qed.

Lemma wf_pair_nlb (inl m : cmap) : wf_pair inl m = true -> no_live_below (overlay inl m) = true.
Proof. unfold wf_pair. intros H. apply andb_true_iff in H. apply H. Qed.

Section Dyn.
  Context (Lf : N -> str -> Prop) (Lf_free : forall t p q, Lf t p -> Lf t q -> ~ Below p q).
  Notation SInv := (SInv Lf).

  (** * the pairs a complete invocation leaves behind *)
  Section OneCfg.
    Context (w : Wd) (HS : SInv w) (t : N) (C : Cfg) (HC : cfgs w !! t = Some C) (HD : dyn C).

    Lemma dc_wf : WF (c_values C) /\ WF (c_avalues C) /\ WF (c_inline C) /\ WF (c_ainline C).
    Proof. destruct (si_cfg Lf w HS t C HC) as ([H1 _] & [H2 _] & [H3 _] & [H4 _]). auto. Qed.

    Lemma dc_view_lookup k : plookup k (view overlay C) = plookup k (c_values C).
    Proof. destruct dc_wf as (H1 & _). destruct HD as (_ & D2 & _). apply overlay_keysub_lookup; assumption. Qed.

    Lemma dc_view_wf : WF (view overlay C).
    Proof. destruct dc_wf as (H1 & _ & H3 & _). apply WF_overlay; assumption. Qed.

    Lemma dc_view_nlb : no_live_below (view overlay C) = true.
    Proof. exact (cg_view_nlb Lf w HS t C HC HD). Qed.

    (* what Get shows: the live values of the stored map *)
    Lemma dc_live p x :
      In (p, x) (live (view overlay C)) <-> exists v, plookup p (c_values C) = Some v /\ pv_deleted v = false /\ pv_val v = x.
    Proof.
      rewrite (live_in _ _ _ dc_view_wf). unfold lvp. split; intros (v & H1 & H2 & H3); exists v; rewrite dc_view_lookup in *; [tauto|].
      split; [exact H1|]. split; [exact H2|]. split; [exact H3|].
      apply (nlb_spec _ _ v dc_view_nlb); [rewrite dc_view_lookup; exact H1|exact H2].
    Qed.

    Lemma dc_keysub_view : keysub (view overlay C) (c_values C).
    Proof. intros k H. rewrite dc_view_lookup in H. exact H. Qed.

    Lemma dc_restore_nlb : no_live_below (overlay nil (restore (c_avalues C) (aview overlay C))) = true.
    Proof.
      destruct dc_wf as (_ & H2 & _ & H4). apply wf_pair_nlb, (restore_wf (c_ainline C) (c_avalues C) (wfk_of _ H4) (wfk_of _ H2)).
    Qed.

    Section OneProp.
      Context (i : N) (P : Prop2) (HP : props w !! (t, i) = Some P).

      Lemma dc_keysub_touched : keysub (touched i (view overlay C) (rb_change nil P)) (c_values C).
      Proof.
        intros k H. apply dc_keysub_view. intros Hn. apply H. apply lookup_none. rewrite touched_keys. apply lookup_none. exact Hn.
      Qed.

      (* the hypotheses of the pure commit theorems *)
      Lemma dc_commit_pre :
        WF (c_values C) /\ WF (view overlay C) /\ (forall k e, plookup k (c_values C) = Some e -> plookup k (view overlay C) = Some e) /\
        no_live_below (view overlay C) = true /\ WFC (rb_change nil P) /\ idx_compat (c_values C) (rb_change nil P) = true.
      Proof.
        destruct (rb_change_ok Lf w t i P HS HP) as [R1 R2].
        split; [apply dc_wf|]. split; [exact dc_view_wf|]. split; [intros k e H; rewrite dc_view_lookup; exact H|]. split; [exact dc_view_nlb|].
        split; [exact R2|]. apply (cgood_idx_compat Lf w t); [exact HS|apply (si_cfg Lf w HS t C HC)|exact R1].
      Qed.

      Lemma dc_wf_apply : wf_apply (c_ainline C) (c_avalues C) (rb_change nil P) = true.
      Proof.
        destruct dc_wf as (_ & H2 & _ & H4). destruct HD as (_ & _ & D3). destruct (rb_change_ok Lf w t i P HS HP) as [R1 R2].
        unfold wf_apply, wf_pair. rewrite (wfk_of _ H4), (wfk_of _ H2), D3. cbn. apply andb_true_iff. split; [apply wf_change_WFC; exact R2|].
        apply (cgood_idx_compat Lf w t); [exact HS| |exact R1]. apply (si_cfg Lf w HS t C HC).
      Qed.

      Lemma dp_commit ord :
        dynp (commit_merge ord i (c_values C) (view overlay C) (rb_change nil P)) nil (aview overlay C) (c_avalues C).
      Proof.
        destruct dc_commit_pre as (H1 & Hvw & Hsub & Hnlb & R2 & Hic). destruct dc_wf as (_ & H2 & _ & H4).
        split; [|split].
        - apply neb_nlb. apply (commit_merge_wf ord i (c_values C) (view overlay C) (rb_change nil P)); assumption.
        - intros k H. exfalso. apply H. reflexivity.
        - apply inline_no_live_below; [assumption..|apply HD].
      Qed.
    End OneProp.

    (* after a status write *)
    Lemma astore_dyn av inl : astore w t C av inl -> dynp (c_values C) inl nil av.
    Proof.
      intros Ha. split; [apply HD|]. destruct Ha as [|i P HP|ord i P HP]; (split; [first [apply dc_keysub_view|exact (dc_keysub_touched i P)]|]);
        try apply dc_restore_nlb.
      apply wf_pair_nlb, (record_applied_wf ord i (c_ainline C) (c_avalues C) (view overlay C) (rb_change nil P) (dc_wf_apply i P HP)).
    Qed.
  End OneCfg.

  (** * one complete invocation, seen from one configuration that exists *)
  Lemma writes_dyn (w : Wd) (es : list Eff) t (C : Cfg) :
    SInv w -> cfgs w !! t = Some C -> dyn C -> writes w es -> dyn (fold_left (cfg_on t) es C).
  Proof.
    intros HS HC HD Hw.
    assert (Hp : forall l (C0 : Cfg), Forall (plain w) l -> fold_left (cfg_on t) l C0 = C0).
    { intros l C0 Hl. apply cfg_neutral_fold. revert Hl. apply List.Forall_impl. intros e. destruct e; cbn; tauto. }
    destruct Hw as [es Hes|t0 C0 C' av inl pre post HC0 Ha Hpre Hpost|t0 i ord P C0 C' post HP HC0 Hpost].
    - rewrite Hp by exact Hes. exact HD.
    - rewrite fold_left_app, (Hp pre C Hpre). cbn [fold_left cfg_on]. rewrite (Hp post _ Hpost).
      destruct (N.eqb_spec t0 t) as [->|Hne]; [|exact HD]. assert (C0 = C) as -> by congruence.
      exact (astore_dyn w HS t C HC HD av inl Ha).
    - cbn [fold_left cfg_on]. rewrite (Hp post _ Hpost).
      destruct (N.eqb_spec t0 t) as [->|Hne]; [|exact HD]. assert (C0 = C) as -> by congruence.
      exact (dp_commit w HS t C HC HD i P HP ord).
  Qed.

  Lemma devs_neutral t m term og a (rs : list req) (C : Cfg) t0 :
    fold_left (cfg_on t) (map (fun r => EDev (DevSet t0 m term og r a)) rs : list Eff) C = C.
  Proof. apply cfg_fold_devs. Qed.

  Theorem reconcile_dyn (o : oracle) (w : Wd) c t (C : Cfg) :
    SInv w -> cfgs w !! t = Some C -> dyn C -> dyn (fold_left (cfg_on t) (fst (p2_reconcile o w c)) C).
  Proof.
    intros HS HC HD. destruct c as [i|k|t'|t'|cc]; [|apply (writes_dyn w _ t C HS HC HD), reconcile_writes; discriminate..].
    unfold p2_reconcile. cbn [Proto2.reconcile]. rewrite cfg_neutral_fold; [exact HD|].
    eapply Forall_impl; [apply rec_tx_tp|]. intros e. destruct e; cbn; tauto.
  Qed.
End Dyn.
