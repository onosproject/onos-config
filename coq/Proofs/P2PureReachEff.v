(* C04, reachability invariant of the instance, part 2: what one reconcile invocation writes as values ([writes]: the
   proposal, configuration, mastership and connection reconcilers write at most one configuration, on the applied side
   or on the committed side; the rest keeps values) and that every effect of every invocation carries good values
   (eff_ok of Proofs/P2PureReachInv.v), given the static invariant and - for the rollback values recorded at validation -
   a committed view without live values beneath tombstones. *)
From stdpp Require Import gmap.
From RecordUpdate Require Import RecordUpdate.
From OC Require Import Base.Bytes Model.P2Pure Model.Proto2 Model.P2Inst Proofs.P2Base Proofs.P2Phases
     Proofs.P2_Cursor.
From OC Require Import Proofs.P2PureApplyDefs Proofs.P2PureApplyBase Proofs.P2PureApplySem Proofs.P2PureApplySound
     Proofs.P2PureReachPure Proofs.P2PureReachInv.
Open Scope N_scope.

(** * same lookups, same cleanliness *)
Lemma nlb_ext (M1 M2 : cmap) : WF M1 -> WF M2 -> (forall k, plookup k M1 = plookup k M2) ->
  no_live_below M1 = true -> no_live_below M2 = true.
Proof.
  intros H1 H2 He Hn. apply nlb_iff. intros k v Hin Ed.
  apply (in_lookup _ _ _ (proj1 H2)) in Hin. rewrite <- He in Hin.
  pose proof (nlb_spec M1 k v Hn Hin Ed) as Hc.
  destruct (covered M2 k) eqn:Ec; [|reflexivity]. exfalso. apply covered_spec in Ec. destruct Ec as (t & e & Ht & Hd & Hb).
  apply (in_lookup _ _ _ (proj1 H2)) in Ht. rewrite <- He in Ht.
  rewrite (cov_intro M1 t e k (lookup_in _ _ _ Ht) Hd Hb) in Hc. discriminate.
Qed.

Definition keysub (a b : cmap) : Prop := forall k, plookup k a <> None -> plookup k b <> None.

Lemma overlay_keysub_lookup (inl m : cmap) k : WF m -> keysub inl m -> plookup k (overlay inl m) = plookup k m.
Proof.
  intros Hm Hs. rewrite (overlay_lookup m inl k (proj1 Hm)). destruct (plookup k m) eqn:E; [reflexivity|].
  destruct (plookup k inl) eqn:E2; [|reflexivity]. exfalso. apply (Hs k); congruence.
Qed.

(* the dynamic part, per configuration *)
Definition dynp (vals inl ainl avals : cmap) : Prop :=
  no_live_below vals = true /\ keysub inl vals /\ no_live_below (overlay ainl avals) = true.
Definition dyn (C : Cfg) : Prop := dynp (c_values C) (c_inline C) (c_ainline C) (c_avalues C).

(** * stamping *)
Lemma stamp_in i c k v' : In (k, v') (stamp i c) <-> exists v, In (k, v) c /\ v' = mkPV (pv_path v) (pv_val v) (pv_deleted v) i.
Proof.
  unfold stamp. rewrite in_map_iff. split.
  - intros ([k0 v] & E & Hin). injection E as <- <-. exists v. auto.
  - intros (v & Hin & ->). exists (k, v). auto.
Qed.

Lemma stamp_keys i c : map fst (stamp i c) = map fst c.
Proof. unfold stamp. rewrite map_map. apply map_ext. intros [k v]. reflexivity. Qed.

(** * what one reconcile invocation writes *)
Definition empty4 (C : Cfg) : Prop := c_values C = [] /\ c_avalues C = [] /\ c_inline C = [] /\ c_ainline C = [].

(* an effect that writes no value of an existing configuration; a proposal keeps its change, and the rollback values
   it gains are those computed from the loaded view or those recorded on another proposal of the target *)
Definition plain (w : Wd) (e : Eff) : Prop :=
  match e with
  | EPutProp (t, i) P' =>
    exists P0 : Prop2, props w !! (t, i) = Some P0 /\ p_details P' = p_details P0 /\
      (p_rbvalues P' = p_rbvalues P0 \/
       (exists (C : Cfg) c, cfgs w !! t = Some C /\ p_details P0 = PChange c /\ p_rbvalues P' = Some (rollback_of (view overlay C) c)) \/
       exists j (Q : Prop2), props w !! (t, j) = Some Q /\ p_rbvalues P' = p_rbvalues Q)
  | ECreateCfg _ C0 => empty4 C0
  | ERelCreate _ _ | ERelDelete _ | EDev _ => True
  | _ => False
  end.

(* the applied map stored and the values inlined by a status write of the configuration [C] of [t] *)
Inductive astore (w : Wd) (t : N) (C : Cfg) : cmap -> cmap -> Prop :=
| AS_status : astore w t C (restore (c_avalues C) (aview overlay C)) (view overlay C)
| AS_failed i (P : Prop2) : props w !! (t, i) = Some P ->
    astore w t C (restore (c_avalues C) (aview overlay C)) (touched i (view overlay C) (rb_change nil P))
| AS_applied ord i (P : Prop2) : props w !! (t, i) = Some P ->
    astore w t C (record_applied ord i (c_avalues C) (aview overlay C) (view overlay C) (rb_change nil P))
           (touched i (view overlay C) (rb_change nil P)).

(* the effects of one invocation of a reconciler other than the transaction reconciler: at most one configuration is
   written, on the applied side (UpdateStatus, apply) or on the committed side (commit) *)
Inductive writes (w : Wd) : list Eff -> Prop :=
| W_plain es : Forall (plain w) es -> writes w es
| W_applied t (C C' : Cfg) av inl pre post : cfgs w !! t = Some C -> astore w t C av inl ->
    Forall (plain w) pre -> Forall (plain w) post ->
    writes w (pre ++ EPutAValues t av :: EPutCfg t (C' <| c_inline := inl |> <| c_ainline := nil |>) :: post)
| W_commit t i ord (P : Prop2) (C C' : Cfg) post : props w !! (t, i) = Some P -> cfgs w !! t = Some C -> Forall (plain w) post ->
    writes w (EPutValues t (commit_merge ord i (c_values C) (view overlay C) (rb_change nil P)) ::
              EPutCfg t (C' <| c_inline := nil |> <| c_ainline := aview overlay C |>) :: post).

Lemma upd_status_writes (w : Wd) t (C C' : Cfg) pre : cfgs w !! t = Some C -> Forall (plain w) pre ->
  writes w (pre ++ upd_status overlay restore nil t C C').
Proof. intros HC Hp. apply (W_applied w t C); [exact HC|apply AS_status|exact Hp|apply List.Forall_nil]. Qed.

Lemma resync_plain (w : Wd) t m term a reqs : Forall (plain w) (fst (@resync_effs cmap cmap req t m term a reqs)).
Proof. apply List.Forall_forall. intros e He. apply resync_effs_in in He. destruct He as (r & -> & _). exact I. Qed.

Section Writes.
  Local Opaque restore record_applied commit_merge touched overlay rollback_of candidate candidate_rb payload resync_payload stamp doc_ok.

  Ltac plain_tac :=
    repeat first [apply List.Forall_nil | apply List.Forall_cons]; cbn [plain];
    try first [ exact I
              | eexists; split; [eassumption|]; split; [reflexivity|]; cbn;
                first [ left; reflexivity
                      | right; left; eexists _, _; split; [eassumption|]; split; [eassumption|reflexivity]
                      | right; right; eexists _, _; split; [eassumption|reflexivity] ]
              | repeat split ].

  (* one step of the enumeration of the branches: the innermost scrutinee first *)
  Ltac step_match :=
    match goal with |- context [match ?x with _ => _ end] =>
      lazymatch x with context [match _ with _ => _ end] => fail | _ => destruct x eqn:? end end.

  Lemma rec_prop_writes (o : oracle) (w : Wd) k : writes w (fst (p2_reconcile o w (CtlProp k))).
  Proof.
    destruct k as [t i]. unfold p2_reconcile. cbn [Proto2.reconcile]. unfold Proto2.rec_prop, Proto2.vfail.
    repeat step_match; cbn [fst app].
    all: first [ apply W_plain; plain_tac; fail
               | eapply W_applied with (pre := []); [eassumption|apply AS_status|plain_tac..]
               | eapply W_applied with (pre := [_]); [eassumption|eapply AS_applied; eassumption|plain_tac..]
               | eapply W_applied with (pre := [_; _]); [eassumption|eapply AS_failed; eassumption|plain_tac..]
               | eapply W_commit; [eassumption|eassumption|plain_tac] ].
  Qed.

  Lemma rec_cfg_writes (o : oracle) (w : Wd) t : writes w (fst (p2_reconcile o w (CtlCfg t))).
  Proof.
    unfold p2_reconcile. cbn [Proto2.reconcile]. unfold Proto2.rec_cfg.
    destruct_matches; cbn [fst]; try (apply W_plain, List.Forall_nil); try (eapply (upd_status_writes w t _ _ []); [eassumption|apply List.Forall_nil]).
    all: match goal with E : resync_effs ?t0 ?m0 ?te0 ?a0 ?rq0 = (?es, _) |- _ =>
           pose proof (resync_plain w t0 m0 te0 a0 rq0) as Hr; rewrite E in Hr; cbn [fst] in Hr end.
    all: first [apply W_plain; exact Hr | apply upd_status_writes; assumption].
  Qed.

  Lemma rec_master_writes (o : oracle) (w : Wd) t : writes w (fst (p2_reconcile o w (CtlMaster t))).
  Proof.
    unfold p2_reconcile. cbn [Proto2.reconcile]. unfold Proto2.rec_master.
    destruct_matches; cbn [fst]; try (apply W_plain, List.Forall_nil);
      (eapply (upd_status_writes w t _ _ []); [eassumption|apply List.Forall_nil]).
  Qed.

  Lemma rec_conn_writes (o : oracle) (w : Wd) c : writes w (fst (p2_reconcile o w (CtlConn c))).
  Proof.
    unfold p2_reconcile. cbn [Proto2.reconcile]. unfold Proto2.rec_conn.
    destruct_matches; cbn [fst]; apply W_plain; repeat (apply List.Forall_cons; [exact I|]); apply List.Forall_nil.
  Qed.
End Writes.

Section Eff.
  Context (Lf : N -> str -> Prop) (Lf_free : forall t p q, Lf t p -> Lf t q -> ~ Below p q).
  Notation SInv := (SInv Lf).
  Notation chg_ok := (chg_ok Lf).
  Notation nb_ok := (nb_ok Lf).
  Notation tx_ok := (tx_ok Lf).
  Notation eff_ok := (eff_ok Lf).

  Lemma stamp_chg_ok t i c : nb_ok t c -> chg_ok t i (stamp i c).
  Proof.
    intros [[[Hn Hk] Hw] Hl]. split; [split; [split|]|split].
    - unfold ND. rewrite stamp_keys. exact Hn.
    - intros k v' Hin. apply stamp_in in Hin. destruct Hin as (v & Hin & ->). cbn. apply Hk. exact Hin.
    - intros k v' kd d' H1 Hlv H2 Hd. apply stamp_in in H1. destruct H1 as (v & H1 & ->). apply stamp_in in H2. destruct H2 as (d & H2 & ->).
      cbn in Hlv, Hd. exact (Hw _ _ _ _ H1 Hlv H2 Hd).
    - intros k v' Hin. apply stamp_in in Hin. destruct Hin as (v & Hin & ->). reflexivity.
    - intros k v' Hin Hlv. apply stamp_in in Hin. destruct Hin as (v & Hin & ->). cbn in Hlv. exact (Hl _ _ Hin Hlv).
  Qed.

  Lemma chg_nb_ok t i c : chg_ok t i c -> nb_ok t c.
  Proof. intros (H1 & _ & H3). split; assumption. Qed.

  (** * values of one configuration *)
  Section OneCfg.
    Context (w : Wd) (HS : SInv w) (t : N) (C : Cfg) (HC : cfgs w !! t = Some C).

    Lemma cg_parts : cgood w t (c_values C) /\ cgood w t (c_avalues C) /\ cgood w t (c_inline C) /\ cgood w t (c_ainline C).
    Proof. exact (si_cfg Lf w HS t C HC). Qed.

    Lemma cg_overlay a b : cgood w t a -> cgood w t b -> cgood w t (overlay a b).
    Proof.
      intros [A1 A2] [B1 B2]. split; [apply WF_overlay; assumption|]. intros k v Hin. apply In_overlay in Hin.
      destruct Hin; [eapply A2|eapply B2]; eassumption.
    Qed.

    Lemma cg_view : cgood w t (view overlay C).
    Proof. destruct cg_parts as (H1 & H2 & H3 & H4). apply cg_overlay; assumption. Qed.
    Lemma cg_aview : cgood w t (aview overlay C).
    Proof. destruct cg_parts as (H1 & H2 & H3 & H4). apply cg_overlay; assumption. Qed.

    (* the inlined values never show a key the stored map does not hold: the view is as clean as the stored map *)
    Lemma cg_view_nlb : dyn C -> no_live_below (view overlay C) = true.
    Proof.
      intros (D1 & D2 & _). destruct cg_parts as ([A1 _] & _). apply (nlb_ext (c_values C)); [exact A1|apply cg_view| |exact D1].
      intros k. symmetry. apply overlay_keysub_lookup; assumption.
    Qed.

    Lemma cg_restore : cgood w t (restore (c_avalues C) (aview overlay C)).
    Proof.
      destruct cg_parts as (_ & [A1 A2] & _). destruct cg_aview as [B1 B2]. split; [apply store_write_spec; assumption|].
      intros k v Hin. apply store_write_In in Hin; [|assumption..]. destruct Hin; [eapply A2|eapply B2]; eassumption.
    Qed.

    Section OneProp.
      Context (i : N) (P : Prop2) (HP : props w !! (t, i) = Some P).

      Lemma cg_made srcs m : (forall s, In s srcs -> cgood w t s) -> made_of srcs i (rb_change nil P) m -> cgood w t m.
      Proof.
        intros Hs [Hw Hin]. split; [exact Hw|]. intros k v H. destruct (Hin _ H) as [Hc|Hm]; [|exact (mark_vgood Lf w t i P (k, v) HS HP Hm)].
        apply in_concat in Hc. destruct Hc as (s & Hs1 & Hs2). exact (proj2 (Hs s Hs1) k v Hs2).
      Qed.

      Lemma cg_touched : cgood w t (touched i (view overlay C) (rb_change nil P)).
      Proof.
        destruct (rb_change_ok Lf w t i P HS HP) as [R1 R2]. pose proof cg_view as V.
        apply (cg_made [view overlay C]); [intros s [<-|[]]; exact V|]. apply touched_made; [apply V|exact R2].
      Qed.

      Lemma cg_record ord : cgood w t (record_applied ord i (c_avalues C) (aview overlay C) (view overlay C) (rb_change nil P)).
      Proof.
        destruct cg_parts as (_ & A & _). destruct (rb_change_ok Lf w t i P HS HP) as [R1 R2]. pose proof cg_aview as V.
        apply (cg_made [c_avalues C; rb_change nil P; aview overlay C]); [intros s [<-|[<-|[<-|[]]]]; assumption|].
        apply record_applied_made; [apply A|apply V|exact R2].
      Qed.

      Lemma cg_commit ord : cgood w t (commit_merge ord i (c_values C) (view overlay C) (rb_change nil P)).
      Proof.
        destruct cg_parts as (A & _). destruct (rb_change_ok Lf w t i P HS HP) as [R1 R2]. pose proof cg_view as V.
        apply (cg_made [c_values C; rb_change nil P; view overlay C]); [intros s [<-|[<-|[<-|[]]]]; assumption|].
        apply commit_merge_made; [apply A|apply V|exact R2].
      Qed.

      Lemma vgood_leaf v : vgood w t v -> pv_deleted v = false -> Lf t (pv_path v).
      Proof.
        intros [[_ H]|(Q & HQ & H)] Hlv; [congruence|]. destruct (si_prop Lf w HS _ _ _ HQ) as (_ & Hc & _).
        destruct (p_details Q) as [c|ri]; [|congruence]. rewrite Hlv in H. destruct (Hc c eq_refl) as (_ & _ & Hl). exact (Hl _ _ H Hlv).
      Qed.

      Lemma cg_rollback c : p_details P = PChange c -> dyn C ->
        cgood w t (rollback_of (view overlay C) c) /\ WFC (rollback_of (view overlay C) c).
      Proof.
        intros Hd HD. pose proof (cg_view_nlb HD) as Hn. destruct cg_view as [V1 V2].
        destruct (si_prop Lf w HS _ _ _ HP) as (_ & Hc & _). destruct (Hc c Hd) as (Hw & _ & Hl).
        assert (Hlv : leaves_ok (view overlay C) c).
        { intros k u p x H1 H2 H3 H4. apply (Lf_free t); [|apply (Hl _ _ H1 H2)].
          destruct (proj2 V1 _ _ H3) as [-> _]. apply vgood_leaf; [eapply V2; eassumption|exact H4]. }
        destruct (rollback_of_ok (view overlay C) c V1 Hw Hn Hlv) as [R1 R2]. split; [|exact R1].
        split; [apply R1|]. intros k r Hin. destruct (R2 _ _ Hin) as [H| ->]; [eapply V2; eassumption|]. left. split; reflexivity.
      Qed.
    End OneProp.
  End OneCfg.

  (** * the transaction reconciler *)
  Lemma phase_scan_ok (w : Wd) i (T : Txn) tg get start stop on_failed on_all_done :
    SInv w -> i <> 0 ->
    (forall p : Prop2, p_details (start p) = p_details p /\ p_rbvalues (start p) = p_rbvalues p) ->
    (forall p, tx_ok (t_details (on_failed p))) -> tx_ok (t_details on_all_done) ->
    Forall (eff_ok w) (fst (phase_scan w i T tg get start stop on_failed on_all_done)).
  Proof.
    intros HS Hi Hs Hf Ha. unfold phase_scan.
    destruct (scan_props w i tg _) as [r|] eqn:Es; [destruct r as [[]|[t p]]; [apply List.Forall_nil|]|].
    - apply (scan_props_inr w i tg _ t p) in Es. destruct Es as [Hp _]. destruct (si_prop Lf w HS _ _ _ Hp) as (_ & _ & Hr).
      destruct (is_none (get p)); cbn [fst]; (apply List.Forall_cons; [|apply List.Forall_nil]); cbn.
      + exists p. destruct (Hs p) as [E1 E2]. split; [exact Hp|]. split; [exact E1|]. rewrite E2. exact Hr.
      + split; [exact Hi|apply Hf].
    - destruct (default false _); cbn [fst]; [|apply List.Forall_nil]. apply List.Forall_cons; [|apply List.Forall_nil]. cbn. split; [exact Hi|exact Ha].
  Qed.

  Lemma gate_ok (w : Wd) i (T : Txn) tg need next r :
    i <> 0 -> tx_ok (t_details next) -> Forall (eff_ok w) (fst (gate w i T tg need next r)).
  Proof.
    intros Hi Hn. unfold gate. destruct (all_props w i tg _); [|apply List.Forall_nil].
    destruct (blocked_by_prev w i tg need); cbn [fst]; [apply List.Forall_nil|]. apply List.Forall_cons; [|apply List.Forall_nil]. cbn. auto.
  Qed.

  Lemma create_props_ok (w : Wd) i l :
    (forall tp, In tp l -> props w !! (fst tp, i) = None ->
       i <> 0 /\ p_rbvalues (snd tp) = None /\ forall c, p_details (snd tp) = PChange c -> chg_ok (fst tp) i c) ->
    Forall (eff_ok w) (create_props w i l).
  Proof.
    induction l as [|[t p] l IH]; intros H; cbn; [apply List.Forall_nil|].
    destruct (props w !! (t, i)) eqn:E; cbn.
    - apply IH. intros tp Hin. apply H. right. exact Hin.
    - apply List.Forall_cons; [|apply IH; intros tp Hin; apply H; right; exact Hin]. cbn. apply (H (t, p) (or_introl eq_refl) E).
  Qed.

  Lemma rec_tx_ok (w : Wd) i : SInv w -> Forall (eff_ok w) (fst (rec_tx stamp w i)).
  Proof.
    intros HS. unfold Proto2.rec_tx, fail_init. destruct (txs w !! i) as [T|] eqn:HT; [|apply List.Forall_nil].
    destruct (si_tx Lf w HS _ _ HT) as [Hi Ht].
    repeat match goal with
           | |- Forall _ (fst (phase_scan _ _ _ _ _ _ _ _ _)) =>
             apply phase_scan_ok; [exact HS|exact Hi|intros ?; split; reflexivity|intros ?; exact Ht|exact Ht]
           | |- Forall _ (fst (gate _ _ _ _ _ _ _)) => apply gate_ok; [exact Hi|exact Ht]
           | |- Forall _ (fst ([], _)) => apply List.Forall_nil
           | |- Forall _ (fst ([EPutTx _ _], _)) => cbn [fst]; apply List.Forall_cons; [exact (si_tx Lf w HS _ _ HT)|apply List.Forall_nil]
           | |- Forall _ (fst ([EPutProp _ _], _)) => fail
           | |- context [match ?x with _ => _ end] => destruct x eqn:?
           end.
    - (* the apply phase is started on a proposal *)
      match goal with E : scan_props _ _ _ _ = Some (inr (?t, ?p)) |- _ => apply (scan_props_inr w i _ _ t p) in E; destruct E as [Hp _] end.
      cbn [fst]. apply List.Forall_cons; [|apply List.Forall_nil]. cbn. eexists. split; [exact Hp|]. split; [reflexivity|].
      apply (si_prop Lf w HS _ _ _ Hp).
    - (* the proposals of a change are created, stamped *)
      cbn [fst]. apply Forall_app_2.
      + apply create_props_ok. intros [tt pp] Hin Hn. cbn [fst snd] in *. apply in_map_iff in Hin. destruct Hin as ([t' c'] & [= <- <-] & Hin).
        apply in_map_iff in Hin. destruct Hin as ([t0 c0] & E & Hin). cbn [fst snd] in E.
        destruct (props w !! (t0, i)) eqn:E0; injection E as <- <-; [congruence|].
        split; [exact Hi|]. split; [reflexivity|]. intros c [= <-]. apply stamp_chg_ok. exact (Ht _ _ Hin).
      + apply List.Forall_cons; [|apply List.Forall_nil]. cbn. split; [exact Hi|]. intros t' c' Hin.
        apply in_map_iff in Hin. destruct Hin as ([t0 c0] & E & Hin). cbn [fst snd] in E.
        destruct (props w !! (t0, i)); injection E as <- <-; [exact (Ht _ _ Hin)|].
        apply (chg_nb_ok t0 i). apply stamp_chg_ok. exact (Ht _ _ Hin).
    - (* the proposals of a rollback are created *)
      cbn [fst]. apply Forall_app_2.
      + apply create_props_ok. intros [tt pp] Hin Hn. cbn [fst snd] in *. apply in_map_iff in Hin. destruct Hin as ([t' c'] & [= <- <-] & Hin).
        split; [exact Hi|]. split; [reflexivity|]. intros c H. discriminate H.
      + apply List.Forall_cons; [exact (si_tx Lf w HS _ _ HT)|apply List.Forall_nil].
  Qed.

  (** * the proposal, configuration, mastership and connection reconcilers *)
  Lemma plain_ok (w : Wd) (e : Eff) : SInv w -> (forall t (C : Cfg), cfgs w !! t = Some C -> dyn C) -> plain w e -> eff_ok w e.
  Proof.
    intros HS HD. destruct e as [| |[t i] P'|t C0| | | | | |]; cbn; try tauto; [|intros H; exact H].
    intros (P0 & HP0 & Hd & Hrb). exists P0. split; [exact HP0|]. split; [exact Hd|]. intros rb Hr.
    destruct Hrb as [E|[(C & c & HC & Hc & E)|(j & Q & HQ & E)]].
    - apply (si_prop Lf w HS _ _ _ HP0). congruence.
    - rewrite E in Hr. injection Hr as <-. exact (cg_rollback w HS t C HC i P0 HP0 c Hc (HD t C HC)).
    - apply (si_prop Lf w HS _ _ _ HQ). congruence.
  Qed.

  Lemma astore_good (w : Wd) t (C : Cfg) av inl :
    SInv w -> cfgs w !! t = Some C -> astore w t C av inl -> cgood w t av /\ cgood w t inl.
  Proof.
    intros HS HC [|i P HP|ord i P HP]; split;
      first [exact (cg_restore w HS t C HC) | exact (cg_view w HS t C HC) | exact (cg_touched w HS t C HC i P HP) | exact (cg_record w HS t C HC i P HP ord)].
  Qed.

  Lemma writes_ok (w : Wd) (es : list Eff) :
    SInv w -> (forall t (C : Cfg), cfgs w !! t = Some C -> dyn C) -> writes w es -> Forall (eff_ok w) es.
  Proof.
    intros HS HD Hw.
    assert (Hp : forall l, Forall (plain w) l -> Forall (eff_ok w) l).
    { intros l. apply List.Forall_impl. intros e. apply plain_ok; assumption. }
    destruct Hw as [es Hes|t C C' av inl pre post HC Ha Hpre Hpost|t i ord P C C' post HP HC Hpost].
    - apply Hp. exact Hes.
    - destruct (astore_good w t C av inl HS HC Ha) as [Gav Ginl]. apply Forall_app_2; [apply Hp; exact Hpre|].
      apply List.Forall_cons; [exact Gav|]. apply List.Forall_cons; [split; [exact Ginl|apply cgood_nil]|apply Hp; exact Hpost].
    - apply List.Forall_cons; [exact (cg_commit w HS t C HC i P HP ord)|].
      apply List.Forall_cons; [split; [apply cgood_nil|exact (cg_aview w HS t C HC)]|apply Hp; exact Hpost].
  Qed.

  Theorem reconcile_writes (o : oracle) (w : Wd) c : (forall i, c <> CtlTx i) -> writes w (fst (p2_reconcile o w c)).
  Proof.
    destruct c as [i|k|t|t|cc]; intros Hc; [destruct (Hc i eq_refl)|apply rec_prop_writes|apply rec_cfg_writes|apply rec_master_writes|apply rec_conn_writes].
  Qed.

  Theorem reconcile_ok (o : oracle) (w : Wd) c :
    SInv w -> (forall t (C : Cfg), cfgs w !! t = Some C -> dyn C) -> Forall (eff_ok w) (fst (p2_reconcile o w c)).
  Proof.
    intros HS HD. destruct c as [i|k|t|t|cc]; [apply rec_tx_ok; exact HS|apply (writes_ok w _ HS HD); apply reconcile_writes; discriminate..].
  Qed.
End Eff.
