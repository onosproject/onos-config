(* C04: the premises of converged_from_init are decidable on concrete label lists and hold on a non-trivial run
   (cascading delete, re-creation beneath the tombstones, rollback, connection loss, re-push in a new term); and the
   "values live at leaves" part of labels_wfb is needed: a run whose requests are each well-formed but that updates a path
   and a path beneath it, then rolls that change back, ends SYNCHRONIZED with a device that does not hold the applied
   values (the rollback values recorded at validation are "delete /a/b + update /a/b/c": the overlap of finding F-14). *)
From stdpp Require Import gmap.
From OC Require Import Base.Bytes Model.P2Pure Model.Proto2 Model.P2Inst Proofs.P2_Converge Proofs.P2_ConvergeEx.
From OC Require Import Proofs.P2PureReachRun Proofs.P2PureReachLabels Proofs.P2PureReachInit.
Open Scope N_scope.

Fixpoint completesb (w : Wd) (ls : list Label) : bool :=
  match ls with
  | [] => true
  | l :: r => match l with LRec c k o => Nat.leb (length (fst (p2_reconcile o w c))) k | _ => true end && completesb (p2_step w l) r
  end.
Lemma completesb_sound (ls : list Label) : forall w, completesb w ls = true -> completes w ls.
Proof.
  induction ls as [|l ls IH]; intros w H; [exact I|]. cbn [completesb] in H. apply andb_true_iff in H. destruct H as [H1 H2].
  split; [|apply IH; exact H2]. destruct l; try exact I. cbn [complete]. apply Nat.leb_le. exact H1.
Qed.

Definition quietb (t : N) (ls : list Label) : bool :=
  forallb (fun l => match l with LDevRestart t' => negb (t' =? t) | LTarget t' p => negb ((t' =? t) && p) | _ => true end) ls.
Lemma quietb_sound t (ls : list Label) : quietb t ls = true -> quiet_env t ls.
Proof.
  unfold quietb, quiet_env. rewrite forallb_forall, List.Forall_forall. intros H l Hl. specialize (H l Hl).
  split; intros ->; rewrite N.eqb_refl in H; discriminate H.
Qed.

(* all premises, as one boolean *)
Definition run_premises (t : N) (ls : list Label) : bool := labels_wfb ls && completesb p2_init ls && quietb t ls.

Theorem checked_from_init (ls : list Label) t (C' : Cfg) :
  run_premises t ls = true ->
  cfgs (x_run ls) !! t = Some C' -> c_state C' = CSynchronized -> c_aterm C' = c_term C' -> i_agrees (x_run ls) t.
Proof.
  unfold run_premises. intros H. apply andb_true_iff in H. destruct H as [H H3]. apply andb_true_iff in H. destruct H as [H1 H2].
  apply converged_from_init; [exact H1|apply completesb_sound; exact H2|apply quietb_sound; exact H3].
Qed.

(** * a non-trivial run from the initial world *)
(* /a/b/x = 1, /a/c = 2 | delete /a (cascades) | /a/b/y = 3 (re-creation beneath the tombstone of /a) | rollback of that change
   (a delete beneath a delete) | connection lost and replaced: re-push in term 2 *)
Definition good_run (ord : N) : list Label :=
  let o := x_oracle_ord ord in
  [LTarget 1 false; LConnUp 10 1; LChange [(1, x_ch "/a/b/x" "1" ++ x_ch "/a/c" "2")] true false] ++ x_rounds 14 o 10 1 [1]
  ++ [LChange [(1, x_del "/a")] true false] ++ x_rounds 12 o 10 1 [1; 2]
  ++ [LChange [(1, x_ch "/a/b/y" "3")] true false] ++ x_rounds 12 o 10 1 [1; 2; 3]
  ++ [LRollback 3] ++ x_rounds 20 o 10 1 [1; 2; 3; 4]
  ++ [LConnDown 10; LRec (CtlConn 10) 9 (x_oracle COk); LRec (CtlMaster 1) 9 (x_oracle COk); LConnUp 11 1]
  ++ x_rounds 4 (x_oracle COk) 11 1 [].

Example good_run_premises : Forall (fun ord => run_premises 1 (good_run ord) = true) [0; 1; 2; 5].
Proof. repeat (apply List.Forall_cons; [vm_compute; reflexivity|]). apply List.Forall_nil. Qed.

Example good_run_end :
  lag_summary (x_run (good_run 1)) =
    ([(1, TApplied); (3, TApplied); (2, TApplied); (4, TApplied)], [(4, 4, CSynchronized, 2, 2, [], [])], [[]]).
Proof. vm_compute. reflexivity. Qed.

Example good_run_agrees_from_init : i_agrees (x_run (good_run 1)) 1.
Proof.
  eapply (checked_from_init (good_run 1) 1).
  - exact (List.Forall_inv (List.Forall_inv_tail good_run_premises)).
  - vm_compute. reflexivity.
  - vm_compute. reflexivity.
  - vm_compute. reflexivity.
Qed.

(** * values must live at leaves: the witness *)
(* /a/b/c = 5 | /a/b = 1 and /a/b/c = 2 in one request (well-formed: two updates) | rollback of that request.
   The rollback values recorded at validation: a tombstone for /a/b (it did not exist) and /a/b/c = 5. *)
Definition leaf_run (ord : N) : list Label :=
  [LTarget 1 false; LConnUp 10 1; LChange [(1, x_ch "/a/b/c" "5")] true false] ++ x_rounds 12 (x_oracle_ord ord) 10 1 [1]
  ++ [LChange [(1, x_ch "/a/b" "1" ++ x_ch "/a/b/c" "2")] true false] ++ x_rounds 12 (x_oracle_ord ord) 10 1 [1; 2]
  ++ [LRollback 2] ++ x_rounds 20 (x_oracle_ord ord) 10 1 [1; 2; 3].

Example leaf_hypothesis_needed :
  (* every request is a well-formed change, every invocation is complete, no restart - only the leaf condition fails *)
  forallb label_wfb (leaf_run 0) = true /\ completesb p2_init (leaf_run 0) = true /\ quietb 1 (leaf_run 0) = true /\
  labels_wfb (leaf_run 0) = false /\
  (* the rollback values of proposal (1, 2) are not a well-formed change *)
  (match props (x_run (leaf_run 0)) !! (1, 2) with
   | Some P => option_map (fun rb => (map (fun kv => (fst kv, pv_val (snd kv), pv_deleted (snd kv), pv_index (snd kv))) rb, wf_changeb rb)) (p_rbvalues P)
   | None => None
   end) = Some ([(B "/a/b", [], true, 0); (B "/a/b/c", B "5", false, 1)], false) /\
  (* all transactions APPLIED, SYNCHRONIZED in the current term: the applied values say /a/b = 1, /a/b/c = 5, the device is empty *)
  lag_summary (x_run (leaf_run 0)) =
    ([(1, TApplied); (3, TApplied); (2, TApplied)],
     [(3, 3, CSynchronized, 1, 1, [(B "/a/b", B "1"); (B "/a/b/c", B "5")], [])], [[]]) /\
  ~ i_agrees (x_run (leaf_run 0)) 1.
Proof.
  repeat (split; [vm_compute; reflexivity|]). intros (C & HC & Ha). vm_compute in HC. injection HC as <-. vm_compute in Ha. discriminate Ha.
Qed.
