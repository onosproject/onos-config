(* C04, the run theorem of the instance from the INITIAL world: no start condition left.
   Along any run from init made of well-formed labels (labels_wfb) and complete reconcile invocations, in which the device
   of [t] is never restarted and [t] is never declared persistent, whenever the configuration of [t] is reported
   SYNCHRONIZED in its current term the device holds exactly the live leaves of the applied values.
   (Before the configuration of [t] exists nothing is sent to its device; when it is created everything is empty.) *)
From stdpp Require Import gmap.
From OC Require Import Base.Bytes Model.P2Pure Model.Proto2 Model.P2Inst Proofs.P2Base Proofs.P2_Converge
     Proofs.P2_ConvergeEx.
From OC Require Import Proofs.P2PureApplyBase Proofs.P2PureApplyInst Proofs.P2PureReachEff Proofs.P2PureReachRun
     Proofs.P2PureReachLabels.
Open Scope N_scope.

Section FromInit.
  Context (Lf : N -> str -> Prop) (Lf_free : forall t p q, Lf t p -> Lf t q -> ~ Below p q) (t : N).

  (* the configuration of [t] does not exist yet and its device is empty, or the start condition of the run theorem holds *)
  Definition pre (w : Wd) : Prop :=
    Inv Lf w /\ i_reach w /\ targets w !! t <> Some true /\
    ((cfgs w !! t = None /\ i_dstate_of w t = []) \/ i_conv w t).

  Lemma pre_init : pre p2_init.
  Proof.
    split; [apply inv_init|]. split; [exists []; reflexivity|]. split; [cbn; rewrite lookup_empty; discriminate|].
    left. split; [cbn; apply lookup_empty|]. reflexivity.
  Qed.

  Lemma conv_of_empty (w : Wd) (C0 : Cfg) :
    cfgs w !! t = Some C0 -> empty4 C0 -> targets w !! t <> Some true -> i_dstate_of w t = [] -> i_conv w t.
  Proof.
    intros HC (E1 & E2 & E3 & E4) HT Hd.
    assert (Ha : abs_app_i (aview overlay C0) = abs_dev_i []) by (unfold Proto2.aview; rewrite E2, E4; reflexivity).
    exists C0. split; [exact HC|]. split; [exact HT|]. split; [intros _; exact Ha|]. left. exists C0. split; [exact HC|].
    rewrite Hd, Ha. reflexivity.
  Qed.

  Lemma pre_step (w : Wd) (l : Label) :
    pre w -> label_ok Lf l -> i_complete w l -> l <> LDevRestart t -> l <> LTarget t true -> pre (p2_step w l).
  Proof.
    intros (HI & Hr & HT & Hmode) Hl Hc Hnr Hnp.
    assert (HI' : Inv Lf (p2_step w l)) by (apply inv_step; assumption).
    assert (Hr' : i_reach (p2_step w l)).
    { apply reach_step. exact Hr. }
    assert (HT' : targets (p2_step w l) !! t <> Some true).
    { unfold p2_step. destruct l as [chs sy se|ri|c k o|c t0|c|c t0|t0 p|t0|t0]; cbn [Proto2.step]; try exact HT.
      - rewrite (targets_fold dev_apply nil). exact HT.
      - destruct (conns w !! c); exact HT.
      - destruct (rels w !! c); exact HT.
      - cbn. destruct (decide (t0 = t)) as [->|Hne]; [|rewrite lookup_insert_ne by exact Hne; exact HT].
        rewrite fin_maps.lookup_insert. intros [= ->]. apply Hnp. reflexivity.
      - cbn. destruct (decide (t0 = t)) as [->|Hne]; [rewrite lookup_delete; discriminate|rewrite lookup_delete_ne by exact Hne; exact HT]. }
    split; [exact HI'|]. split; [exact Hr'|]. split; [exact HT'|].
    destruct Hmode as [[Hn Hd]|Hcv].
    - (* the configuration does not exist yet *)
      assert (Hd' : i_dstate_of (p2_step w l) t = []).
      { unfold p2_step. destruct l as [chs sy se|ri|c k o|c t0|c|c t0|t0 p|t0|t0]; try (cbn [Proto2.step]; exact Hd).
        - rewrite device_state_after_invocation.
          assert (Hq : i_ok_reqs t (fst (p2_reconcile o w c)) = []).
          { destruct (i_ok_reqs t (fst (p2_reconcile o w c))) as [|r0 rest] eqn:E; [reflexivity|]. exfalso.
            assert (Hne : i_ok_reqs t (fst (p2_reconcile o w c)) <> []) by (rewrite E; discriminate).
            apply not_quiet_cases in Hne. destruct Hne as [(i & m & term & r & _ & Hs)|(m & term & r & _ & Hs)].
            - destruct Hs as (C & P & HC & _). discriminate (eq_trans (eq_sym HC) Hn).
            - destruct Hs as (C & HC & _). discriminate (eq_trans (eq_sym HC) Hn). }
          pose proof (ok_reqs_firstn_nil t _ k Hq) as Hq'.
          match goal with |- fold_left _ ?l _ = _ => replace l with (@nil req) by (symmetry; exact Hq') end. exact Hd.
        - cbn [Proto2.step]. destruct (conns w !! c); exact Hd.
        - cbn [Proto2.step]. destruct (rels w !! c); exact Hd.
        - cbn [Proto2.step]. unfold dstate_of, Proto2.dev_of in *. cbn. rewrite lookup_insert_ne; [exact Hd|]. intros ->. apply Hnr. reflexivity. }
      assert (Hcases : cfgs (p2_step w l) !! t = None \/ exists C0 : Cfg, cfgs (p2_step w l) !! t = Some C0 /\ empty4 C0).
      { unfold p2_step. destruct l as [chs sy se|ri|c k o|c t0|c|c t0|t0 p|t0|t0]; cbn [Proto2.step]; try (left; exact Hn).
        - cbn [complete] in Hc. rewrite firstn_all2 by exact Hc.
          apply (fold_nocfg t (fst (p2_reconcile o w c)) w (or_introl Hn)). apply (reconcile_nocfg o w c t Hn).
        - destruct (conns w !! c); left; exact Hn.
        - destruct (rels w !! c); left; exact Hn. }
      destruct Hcases as [Hn'|(C0 & HC0 & He)]; [left; auto|]. right. apply (conv_of_empty _ C0); assumption.
    - right.
      apply conv_step; [exact Hr|exact Hcv|].
      split; [exact Hc|]. split; [exact Hnr|]. split; [exact Hnp|]. apply pure_ok_inst. apply (inv_wf_step Lf). exact HI.
  Qed.

  Lemma pre_run (ls : list Label) : forall w, pre w -> run_good Lf w ls -> quiet_env t ls -> pre (fold_left p2_step ls w).
  Proof.
    induction ls as [|l ls IH]; intros w Hp Hg Hq; [exact Hp|]. destruct Hg as (H1 & H2 & H3). inversion Hq as [|? ? [Q1 Q2] Qr]; subst.
    cbn [fold_left]. apply IH; [apply pre_step; assumption|exact H3|exact Qr].
  Qed.

  Theorem converged_from_init_Lf (ls : list Label) (C' : Cfg) :
    run_good Lf p2_init ls -> quiet_env t ls ->
    cfgs (x_run ls) !! t = Some C' -> c_state C' = CSynchronized -> c_aterm C' = c_term C' -> i_agrees (x_run ls) t.
  Proof.
    intros Hg Hq HC' Hst Hat. destruct (pre_run ls p2_init pre_init Hg Hq) as (_ & _ & _ & [[Hn _]|Hcv]).
    - discriminate (eq_trans (eq_sym HC') Hn).
    - destruct Hcv as (C & HC & _ & _ & [Hag|(_ & Hu)]); [exact Hag|].
      injection (eq_trans (eq_sym HC') HC) as ->.
      destruct Hu as [Hlt|Hs]; [lia|congruence].
  Qed.
End FromInit.

Theorem converged_from_init (ls : list Label) t (C' : Cfg) :
  labels_wfb ls = true -> completes p2_init ls -> quiet_env t ls ->
  cfgs (x_run ls) !! t = Some C' -> c_state C' = CSynchronized -> c_aterm C' = c_term C' -> i_agrees (x_run ls) t.
Proof.
  intros Hw Hc. apply (converged_from_init_Lf (Lf_of ls) (Lf_of_free ls Hw)). apply run_good_labels; assumption.
Qed.
