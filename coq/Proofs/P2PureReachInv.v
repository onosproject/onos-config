(* C04: the well-formedness of the values of the executable instance (Model/P2Inst.v) as an invariant.
   Part 1 (this file): the STATIC part - holds in every world reached by labels whose changes are well-formed, cut
   prefixes included:
     - every stored map / inlined map of a configuration has unique proper keys (= paths) and holds only values that
       are (a) a live value of the stamped change of an existing proposal of that target, carried verbatim, or (b) a
       tombstone whose index is 0 or that of an existing proposal whose change does not update that path;
     - every proposal's change is a well-formed change stamped with the proposal's index whose updates are leaves;
     - the rollback values recorded on a proposal are a well-formed change of such values.
   Consequence: idx_compat between any stored map and any proposal's change of the same target (same path and index =>
   same content).  [Lf t p]: p is a leaf path of target t; leaves are never beneath leaves. *)
From stdpp Require Import gmap.
From OC Require Import Base.Bytes Model.P2Pure Model.Proto2 Model.P2Inst Proofs.P2Base.
From OC Require Import Proofs.P2PureApplyDefs Proofs.P2PureApplyBase Proofs.P2PureApplySem Proofs.P2PureApplySound
     Proofs.P2PureReachPure.
Open Scope N_scope.

Notation plookup := P2Pure.lookup.

Section Static.
  Context (Lf : N -> str -> Prop).

  (** * Good values *)
  Definition vgood (w : Wd) (t : N) (v : pv) : Prop :=
    (pv_index v = 0 /\ pv_deleted v = true) \/
    exists P : Prop2, props w !! (t, pv_index v) = Some P /\
      match p_details P with
      | PChange c => if pv_deleted v then (forall e, plookup (pv_path v) c = Some e -> pv_deleted e = true)
                     else In (pv_path v, v) c
      | PRollback _ => pv_deleted v = true
      end.
  Definition cgood (w : Wd) (t : N) (m : cmap) : Prop := WF m /\ forall k v, In (k, v) m -> vgood w t v.
  (* the change of proposal (t, i) *)
  Definition chg_ok (t i : N) (c : cmap) : Prop :=
    WFC c /\ (forall k v, In (k, v) c -> pv_index v = i) /\ (forall k v, In (k, v) c -> pv_deleted v = false -> Lf t k).
  (* a change as it came from the northbound *)
  Definition nb_ok (t : N) (c : cmap) : Prop := WFC c /\ (forall k v, In (k, v) c -> pv_deleted v = false -> Lf t k).
  Definition tx_ok (d : @tdetails cmap) : Prop :=
    match d with TChange chs => forall t c, In (t, c) chs -> nb_ok t c | TRollback _ => True end.

  Definition pstable (w w' : Wd) : Prop :=
    forall k P, props w !! k = Some P -> exists P', props w' !! k = Some P' /\ p_details P' = p_details P.

  Lemma pstable_refl w : pstable w w.
  Proof. intros k P H. exists P. auto. Qed.
  Lemma pstable_trans w1 w2 w3 : pstable w1 w2 -> pstable w2 w3 -> pstable w1 w3.
  Proof.
    intros H1 H2 k P H. destruct (H1 _ _ H) as (P' & H' & E'). destruct (H2 _ _ H') as (P'' & H'' & E''). exists P''. split; [exact H''|congruence].
  Qed.

  Lemma vgood_mono w w' t v : vgood w t v -> pstable w w' -> vgood w' t v.
  Proof.
    intros [H|(P & HP & H)] Hs; [left; exact H|]. destruct (Hs _ _ HP) as (P' & HP' & E). right. exists P'. split; [exact HP'|].
    rewrite E. exact H.
  Qed.
  Lemma cgood_mono w w' t m : cgood w t m -> pstable w w' -> cgood w' t m.
  Proof. intros [H1 H2] Hs. split; [exact H1|]. intros k v Hin. exact (vgood_mono w w' t v (H2 k v Hin) Hs). Qed.

  Ltac split4 := split; [|split; [|split]].

  Lemma cgood_nil w t : cgood w t [].
  Proof. split; [apply WF_nil|intros k v []]. Qed.

  (** * The static invariant *)
  Record SInv (w : Wd) : Prop := {
    si_next : next_index w <> 0;
    si_tx : forall i (T : Txn), txs w !! i = Some T -> i <> 0 /\ tx_ok (t_details T);
    si_prop : forall t i (P : Prop2), props w !! (t, i) = Some P ->
                i <> 0 /\ (forall c, p_details P = PChange c -> chg_ok t i c) /\
                (forall rb, p_rbvalues P = Some rb -> cgood w t rb /\ WFC rb);
    si_cfg : forall t (C : Cfg), cfgs w !! t = Some C ->
               cgood w t (c_values C) /\ cgood w t (c_avalues C) /\ cgood w t (c_inline C) /\ cgood w t (c_ainline C) }.

  Lemma change_vgood w t i (P : Prop2) c k v :
    props w !! (t, i) = Some P -> p_details P = PChange c -> chg_ok t i c -> In (k, v) c -> vgood w t v.
  Proof.
    intros HP Hd (Hc & Hi & _) Hin. right. rewrite (Hi _ _ Hin). exists P. split; [exact HP|]. rewrite Hd.
    destruct (proj2 (proj1 Hc) _ _ Hin) as [Hk _]. rewrite <- Hk.
    destruct (pv_deleted v) eqn:Ed; [|exact Hin]. intros e He. rewrite (in_lookup _ _ _ (proj1 (proj1 Hc)) Hin) in He.
    injection He as <-. exact Ed.
  Qed.

  Lemma rbc_change (P : Prop2) c : p_details P = PChange c -> rb_change nil P = c.
  Proof. destruct P; cbn. intros ->. reflexivity. Qed.
  Lemma rbc_rollback (P : Prop2) ri : p_details P = PRollback ri -> rb_change nil P = default nil (p_rbvalues P).
  Proof. destruct P; cbn. intros ->. reflexivity. Qed.

  Lemma rb_change_ok w t i (P : Prop2) : SInv w -> props w !! (t, i) = Some P ->
    cgood w t (rb_change nil P) /\ WFC (rb_change nil P).
  Proof.
    intros HS HP. destruct (si_prop w HS _ _ _ HP) as (Hi & Hc & Hr).
    destruct (p_details P) as [c|ri] eqn:Ed.
    - rewrite (rbc_change P c Ed). destruct (Hc c eq_refl) as (Hw & H2 & H3). split; [|exact Hw]. split; [apply Hw|]. intros k v Hin.
      apply (change_vgood w t i P c k v HP Ed (Hc c eq_refl) Hin).
    - rewrite (rbc_rollback P ri Ed). destruct (p_rbvalues P) as [rb|] eqn:Er; cbn; [apply Hr; reflexivity|].
      split; [apply cgood_nil|]. split; [apply WF_nil|]. intros k v kd d [].
  Qed.

  (** * Same path and index, same content *)
  Lemma vgood_coherent w t e v : SInv w -> vgood w t e -> vgood w t v ->
    pv_path e = pv_path v -> pv_index e = pv_index v -> same_content e v = true.
  Proof.
    intros HS He Hv Hp Hi.
    assert (Hdd : pv_deleted e = true -> pv_deleted v = true -> same_content e v = true).
    { intros H1 H2. unfold same_content. rewrite H1, H2. reflexivity. }
    destruct He as [[He0 Hed]|(P & HP & He)].
    - destruct Hv as [[_ Hvd]|(Q & HQ & _)]; [auto|]. rewrite <- Hi, He0 in HQ. destruct (si_prop w HS _ _ _ HQ) as [Hne _]. congruence.
    - destruct Hv as [[Hv0 Hvd]|(Q & HQ & Hv)].
      + rewrite Hi, Hv0 in HP. destruct (si_prop w HS _ _ _ HP) as [Hne _]. congruence.
      + rewrite <- Hi, HP in HQ. injection HQ as <-. destruct (si_prop w HS _ _ _ HP) as (_ & Hc & _).
        destruct (p_details P) as [c|ri]; [|auto]. destruct (Hc c eq_refl) as ((Hwc & _) & _ & _).
        destruct (pv_deleted e) eqn:Ee, (pv_deleted v) eqn:Ev.
        * auto.
        * rewrite <- Hp in Hv. apply (in_lookup _ _ _ (proj1 Hwc)) in Hv. apply He in Hv. congruence.
        * rewrite Hp in He. apply (in_lookup _ _ _ (proj1 Hwc)) in He. apply Hv in He. congruence.
        * rewrite Hp in He. apply (in_lookup _ _ _ (proj1 Hwc)) in He. apply (in_lookup _ _ _ (proj1 Hwc)) in Hv.
          rewrite He in Hv. injection Hv as <-. apply same_content_refl.
  Qed.

  Lemma cgood_idx_compat w t m ch : SInv w -> cgood w t m -> cgood w t ch -> idx_compat m ch = true.
  Proof.
    intros HS [Hm1 Hm2] [Hc1 Hc2]. unfold idx_compat. apply forallb_forall. intros [k e] Hin. cbn.
    destruct (plookup k ch) as [v|] eqn:Ev; [|reflexivity].
    destruct (pv_index e =? pv_index v) eqn:Ei; [|reflexivity]. cbn. apply N.eqb_eq in Ei.
    apply lookup_in in Ev. apply (vgood_coherent w t e v HS (Hm2 _ _ Hin) (Hc2 _ _ Ev)); [|exact Ei].
    destruct (proj2 Hm1 _ _ Hin) as [<- _]. destruct (proj2 Hc1 _ _ Ev) as [<- _]. reflexivity.
  Qed.

  Lemma mark_vgood w t i (P : Prop2) x : SInv w -> props w !! (t, i) = Some P -> is_mark i (rb_change nil P) x -> vgood w t (snd x).
  Proof.
    intros HS HP (H1 & H2 & H3 & kc & cv & H4 & H5 & H6). right. rewrite H3. exists P. split; [exact HP|].
    destruct (si_prop w HS _ _ _ HP) as (_ & Hc & _).
    destruct (p_details P) as [c|ri] eqn:Edt; [|exact H2]. rewrite (rbc_change P c Edt) in H4. rewrite H2. intros e He.
    destruct (Hc c eq_refl) as (Hw & _ & _). destruct (pv_deleted e) eqn:Ed; [reflexivity|]. exfalso.
    rewrite H1 in He. exact (proj2 Hw _ _ _ _ (lookup_in _ _ _ He) Ed H4 H5 H6).
  Qed.

  (** * What one effect may carry, relative to the snapshot [w] it was computed from *)
  Definition eff_ok (w : Wd) (e : Eff) : Prop :=
    match e with
    | EPutTx i T' => i <> 0 /\ tx_ok (t_details T')
    | ECreateProp (t, i) P' => i <> 0 /\ p_rbvalues P' = None /\ forall c, p_details P' = PChange c -> chg_ok t i c
    | EPutProp (t, i) P' =>
      exists P0 : Prop2, props w !! (t, i) = Some P0 /\ p_details P' = p_details P0 /\
                 forall rb, p_rbvalues P' = Some rb -> cgood w t rb /\ WFC rb
    | ECreateCfg t C' => c_values C' = [] /\ c_avalues C' = [] /\ c_inline C' = [] /\ c_ainline C' = []
    | EPutCfg t C' => cgood w t (c_inline C') /\ cgood w t (c_ainline C')
    | EPutValues t v => cgood w t v
    | EPutAValues t v => cgood w t v
    | _ => True
    end.

  (* the invariant in a later world: the stores hold what they held, or entries that are good there *)
  Lemma sinv_next (w w' : Wd) :
    SInv w -> pstable w w' -> next_index w' <> 0 ->
    (forall i (T : Txn), txs w' !! i = Some T -> txs w !! i = Some T \/ (i <> 0 /\ tx_ok (t_details T))) ->
    (forall t i (P : Prop2), props w' !! (t, i) = Some P -> props w !! (t, i) = Some P \/
       (i <> 0 /\ (forall c, p_details P = PChange c -> chg_ok t i c) /\ forall rb, p_rbvalues P = Some rb -> cgood w' t rb /\ WFC rb)) ->
    (forall t (C : Cfg), cfgs w' !! t = Some C -> cfgs w !! t = Some C \/
       (cgood w' t (c_values C) /\ cgood w' t (c_avalues C) /\ cgood w' t (c_inline C) /\ cgood w' t (c_ainline C))) ->
    SInv w'.
  Proof.
    intros HS Hst Hn Ht Hp Hc. split; [exact Hn|..].
    - intros i T H. destruct (Ht i T H) as [H0|H0]; [exact (si_tx w HS i T H0)|exact H0].
    - intros t i P H. destruct (Hp t i P H) as [H0|H0]; [|exact H0]. destruct (si_prop w HS t i P H0) as (H1 & H2 & H3).
      split; [exact H1|]. split; [exact H2|]. intros rb Hrb. destruct (H3 rb Hrb) as [G1 G2]. split; [exact (cgood_mono w w' t rb G1 Hst)|exact G2].
    - intros t C H. destruct (Hc t C H) as [H0|H0]; [|exact H0]. destruct (si_cfg w HS t C H0) as (H1 & H2 & H3 & H4).
      split4; eapply cgood_mono; eassumption.
  Qed.

  Lemma apply_eff_static (w w' : Wd) (e : Eff) :
    SInv w' -> pstable w w' -> eff_ok w e -> SInv (p2_apply_eff w' e) /\ pstable w (p2_apply_eff w' e).
  Proof.
    intros HS Hst He. unfold p2_apply_eff.
    assert (Hst' : pstable w' (apply_eff dev_apply nil w' e)).
    { intros k P H. rewrite (props_apply_eff dev_apply nil). destruct e as [|k' P'|[t i] P'| | | | | | |]; try (exists P; auto; fail).
      - destruct (props w' !! k') eqn:E; [exists P; auto|]. rewrite lookup_insert_ne by congruence. exists P. auto.
      - destruct He as (P0 & HP0 & Hd & _). destruct (Hst _ _ HP0) as (P1 & HP1 & Hd1).
        destruct (decide ((t, i) = k)) as [<-|Hne]; [|rewrite lookup_insert_ne by exact Hne; exists P; auto].
        rewrite fin_maps.lookup_insert. exists P'. split; [reflexivity|congruence]. }
    pose proof (pstable_trans _ _ _ Hst Hst') as Hst2. split; [|exact Hst2].
    apply (sinv_next w' _ HS Hst').
    - rewrite (next_index_apply_eff dev_apply nil). apply HS.
    - intros j T. rewrite (txs_apply_eff dev_apply nil). destruct e as [i T'| | | | | | | | |]; auto.
      intros H. apply lookup_insert_Some in H. destruct H as [[<- <-]|[_ H]]; [right; exact He|left; exact H].
    - intros t i P. rewrite (props_apply_eff dev_apply nil). destruct e as [|[t0 i0] P'|[t0 i0] P'| | | | | | |]; auto.
      + destruct (props w' !! (t0, i0)); [auto|]. intros H. apply lookup_insert_Some in H. destruct H as [[[= <- <-] <-]|[_ H]]; [right|left; exact H].
        destruct He as (Hi & Hr & Hc). split; [exact Hi|]. split; [exact Hc|]. rewrite Hr. discriminate.
      + intros H. apply lookup_insert_Some in H. destruct H as [[[= <- <-] <-]|[_ H]]; [right|left; exact H].
        destruct He as (P0 & HP0 & Hd & Hrb). destruct (Hst _ _ HP0) as (P1 & HP1 & Hd1). destruct (si_prop w' HS _ _ _ HP1) as (H1 & H2 & _).
        split; [exact H1|]. split; [intros c Hc; apply H2; congruence|]. intros rb Hr. destruct (Hrb rb Hr) as [G1 G2].
        split; [exact (cgood_mono _ _ _ _ G1 Hst2)|exact G2].
    - intros t C. rewrite (cfgs_apply_eff dev_apply nil).
      destruct e as [| | |t0 C'|t0 C'|t0 v|t0 v| | |]; auto; destruct (cfgs w' !! t0) as [c0|] eqn:E0; auto;
        intros H; apply lookup_insert_Some in H; destruct H as [[<- <-]|[_ H]]; auto; right; cbn.
      + destruct He as (-> & -> & -> & ->). split4; apply cgood_nil.
      + destruct (si_cfg w' HS _ _ E0) as (H1 & H2 & _). destruct He as [G1 G2]. split4; eapply cgood_mono; eassumption.
      + destruct (si_cfg w' HS _ _ E0) as (H1 & H2 & H3 & H4). split4; eapply cgood_mono; eassumption.
      + destruct (si_cfg w' HS _ _ E0) as (H1 & H2 & H3 & H4). split4; eapply cgood_mono; eassumption.
  Qed.

  Lemma fold_static (es : list Eff) : forall (w w' : Wd) (k : nat),
    SInv w' -> pstable w w' -> Forall (eff_ok w) es -> SInv (fold_left p2_apply_eff (firstn k es) w').
  Proof.
    induction es as [|e es IH]; intros w w' k HS Hst Hf; [rewrite firstn_nil; exact HS|].
    destruct k as [|k]; [exact HS|]. cbn [firstn fold_left]. inversion Hf as [|? ? He Hr]; subst.
    destruct (apply_eff_static w w' e HS Hst He) as [HS' Hst']. apply (IH w); assumption.
  Qed.
End Static.
