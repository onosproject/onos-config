(* C04, reachability invariant of the instance, part 5: the environment hypothesis as a BOOLEAN predicate on the label list,
   and the run theorems of Proofs/P2PureReachRun.v stated with it:
     labels_wfb ls := every change of every LChange label is a wf_change (unique proper keys = paths, no update beneath a
                      delete of the same request: finding F-14 excluded), and no updated path of the run lies beneath
                      another updated path of the same target (values live at leaves - what a schema guarantees)
     completes w ls := every reconcile invocation of ls runs to its end
     reach_inv, reach_wf_step, converged_reach. *)
From stdpp Require Import gmap.
From OC Require Import Base.Bytes Model.P2Pure Model.Proto2 Model.P2Inst Proofs.P2_ConvergeEx.
From OC Require Import Proofs.P2PureApplyBase Proofs.P2PureApplySem Proofs.P2PureApplyInst Proofs.P2PureReachRun.
Open Scope N_scope.

Notation wf_changeb := P2PureApplyDefs.wf_change.

Definition change_upds (t : N) (c : cmap) : list (N * str) :=
  map (fun kv => (t, fst kv)) (List.filter (fun kv => negb (pv_deleted (snd kv))) c).
Definition label_upds (l : Label) : list (N * str) :=
  match l with LChange chs _ _ => flat_map (fun tc => change_upds (fst tc) (snd tc)) chs | _ => [] end.
Definition upd_paths (ls : list Label) : list (N * str) := flat_map label_upds ls.
Definition label_wfb (l : Label) : bool :=
  match l with LChange chs _ _ => forallb (fun tc => wf_changeb (snd tc)) chs | _ => true end.
Definition leaf_freeb (ps : list (N * str)) : bool :=
  forallb (fun tp => forallb (fun tq => negb ((fst tp =? fst tq) && is_path_below (snd tp) (snd tq))) ps) ps.
Definition labels_wfb (ls : list Label) : bool := forallb label_wfb ls && leaf_freeb (upd_paths ls).

Definition Lf_of (ls : list Label) (t : N) (p : str) : Prop := In (t, p) (upd_paths ls).

Lemma Lf_of_in ls t p : Lf_of ls t p <->
  exists chs sy se c v, In (LChange chs sy se) ls /\ In (t, c) chs /\ In (p, v) c /\ pv_deleted v = false.
Proof.
  unfold Lf_of, upd_paths. rewrite in_flat_map. split.
  - intros (l & Hl & Hin). destruct l as [chs sy se| | | | | | | |]; try (destruct Hin). cbn in Hin. apply in_flat_map in Hin.
    destruct Hin as ([t' c] & Hc & Hin). cbn [fst snd] in Hin. unfold change_upds in Hin. apply in_map_iff in Hin. destruct Hin as ([k v] & E & Hin).
    cbn in E. injection E as <- <-. apply filter_In in Hin. destruct Hin as [Hin Hlv]. apply negb_true_iff in Hlv.
    exists chs, sy, se, c, v. auto.
  - intros (chs & sy & se & c & v & H1 & H2 & H3 & H4). exists (LChange chs sy se). split; [exact H1|]. cbn. apply in_flat_map.
    exists (t, c). split; [exact H2|]. unfold change_upds. apply in_map_iff. exists (p, v). split; [reflexivity|]. apply filter_In.
    split; [exact H3|]. cbn. rewrite H4. reflexivity.
Qed.

Lemma labels_wfb_change ls chs sy se t c : labels_wfb ls = true -> In (LChange chs sy se) ls -> In (t, c) chs -> WFC c.
Proof.
  unfold labels_wfb. rewrite andb_true_iff, forallb_forall. intros [H _] Hl Hc. specialize (H _ Hl). cbn in H.
  rewrite forallb_forall in H. specialize (H _ Hc). cbn in H. apply wf_change_WFC. exact H.
Qed.

Lemma Lf_of_free ls : labels_wfb ls = true -> forall t p q, Lf_of ls t p -> Lf_of ls t q -> ~ Below p q.
Proof.
  intros Hw t p q Hp Hq Hb. pose proof Hw as Hw'. unfold labels_wfb in Hw'. apply andb_true_iff in Hw'. destruct Hw' as [_ Hf].
  unfold leaf_freeb in Hf. rewrite forallb_forall in Hf. specialize (Hf _ Hp). rewrite forallb_forall in Hf. specialize (Hf _ Hq).
  cbn in Hf. rewrite N.eqb_refl in Hf. cbn in Hf. apply negb_true_iff in Hf.
  apply Lf_of_in in Hq. destruct Hq as (chs & sy & se & c & v & H1 & H2 & H3 & _).
  pose proof (labels_wfb_change ls chs sy se t c Hw H1 H2) as Hc. destruct (proj2 (proj1 Hc) _ _ H3) as [_ Hpr].
  apply (below_spec _ _ Hpr) in Hb. congruence.
Qed.

Lemma labels_ok ls l : labels_wfb ls = true -> In l ls -> label_ok (Lf_of ls) l.
Proof.
  intros Hw Hl. destruct l as [chs sy se| | | | | | | |]; try exact I. intros t c Hc. split.
  - exact (labels_wfb_change ls chs sy se t c Hw Hl Hc).
  - intros k v Hin Hlv. apply Lf_of_in. exists chs, sy, se, c, v. auto.
Qed.

Fixpoint completes (w : Wd) (ls : list Label) : Prop :=
  match ls with [] => True | l :: r => i_complete w l /\ completes (p2_step w l) r end.

Lemma run_good_of Lf (ls : list Label) : forall w, (forall l, In l ls -> label_ok Lf l) -> completes w ls -> run_good Lf w ls.
Proof.
  induction ls as [|l ls IH]; intros w Hl Hc; [exact I|]. destruct Hc as [H1 H2]. split; [apply Hl; left; reflexivity|].
  split; [exact H1|]. apply IH; [intros l' H; apply Hl; right; exact H|exact H2].
Qed.

Lemma run_good_labels (ls : list Label) : labels_wfb ls = true -> completes p2_init ls -> run_good (Lf_of ls) p2_init ls.
Proof. intros Hw Hc. apply run_good_of; [intros l Hl; apply labels_ok; assumption|exact Hc]. Qed.

(* the invariant in every world reached by well-formed labels and complete invocations *)
Theorem reach_inv (ls : list Label) : labels_wfb ls = true -> completes p2_init ls -> Inv (Lf_of ls) (x_run ls).
Proof.
  intros Hw Hc. apply (inv_run (Lf_of ls) (Lf_of_free ls Hw) ls p2_init (inv_init _)). apply run_good_labels; assumption.
Qed.

Theorem reach_wf_step (ls : list Label) t (l : Label) : labels_wfb ls = true -> completes p2_init ls -> wf_step (x_run ls) t l.
Proof. intros Hw Hc. apply (inv_wf_step (Lf_of ls)). apply reach_inv; assumption. Qed.

Theorem converged_reach (ls0 ls : list Label) t (C' : Cfg) :
  labels_wfb (ls0 ++ ls) = true -> completes p2_init (ls0 ++ ls) -> quiet_env t ls -> i_conv (x_run ls0) t ->
  cfgs (x_run (ls0 ++ ls)) !! t = Some C' -> c_state C' = CSynchronized -> c_aterm C' = c_term C' ->
  i_agrees (x_run (ls0 ++ ls)) t.
Proof.
  intros Hw Hc. apply (converged_reach_Lf (Lf_of (ls0 ++ ls)) (Lf_of_free _ Hw)). apply run_good_labels; assumption.
Qed.
