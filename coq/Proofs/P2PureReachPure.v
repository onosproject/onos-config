(* C04, concrete pure layer, what the reachability invariant (Proofs/P2PureReachInv.v) needs of Model/P2Pure.v:
   - the loaded view as mutated by AddDeleteChildren (touched) in closed form;
   - commit_merge: what the commit stores is well-formed again with no entry beneath a tombstone;
   - where the values of every stored map come from (the inputs, or tombstones marked by AddDeleteChildren);
   - the recorded rollback values are a well-formed change when values live at leaves (uses the specification of
     rollback_of proved in Proofs/P2PureRollbackRb.v).  Stdlib only. *)
From Coq Require Import List NArith Bool Permutation.
From OC Require Import Base.Bytes Model.P2Pure Proofs.P2PureApplyDefs Proofs.P2PureApplyBase Proofs.P2PureApplySem
     Proofs.P2PureApplySound Proofs.P2PureRollbackAdc.
From OC Require Proofs.P2PureRollbackRb.
Import ListNotations.
Open Scope N_scope.

(** * touched: the view after AddDeleteChildren *)
Lemma touched_markmap i vw ch : touched i vw ch = markmap i ch vw.
Proof. apply adc_snd. Qed.

Lemma markmap_WF i c vw : WF vw -> WF (markmap i c vw).
Proof. intros H. apply P2PureRollbackBase.wf_WF, markmap_wf, P2PureRollbackBase.wf_WF, H. Qed.

Lemma markif_cases i c v : WF c ->
  markif i c v = v \/
  (markif i c v = mark i v /\ exists kc cv, In (kc, cv) c /\ pv_deleted cv = true /\ Below (pv_path v) kc).
Proof.
  intros Hc. unfold markif. destruct (cascb c (pv_path v)) eqn:E; [right|left; reflexivity]. split; [reflexivity|].
  apply (cascb_Below c _ (proj2 (P2PureRollbackBase.wf_WF c) Hc)). exact E.
Qed.

Lemma permute_incl {A} ord (l : list A) x : In x (permute ord l) -> In x l.
Proof. apply Permutation_in, permute_perm. Qed.

Lemma markmap_nlb i c vw : WF vw -> WF c -> no_live_below vw = true -> no_live_below (markmap i c vw) = true.
Proof.
  intros Hw Hc Hn. apply nlb_iff. intros k v' Hin Ed. apply markmap_in in Hin. destruct Hin as (v & Hin & ->).
  unfold markif in Ed. destruct (cascb c (pv_path v)) eqn:Eh; [discriminate|].
  destruct (covered (markmap i c vw) k) eqn:Ec; [|reflexivity]. exfalso. apply covered_spec in Ec.
  destruct Ec as (t & e' & Ht & Hde & Hb). apply markmap_in in Ht. destruct Ht as (e & Ht & ->).
  destruct (proj2 Hw _ _ Hin) as [Hpk _]. destruct (proj2 Hw _ _ Ht) as [Hpt _]. rewrite Hpk, Hpt in Hb.
  unfold markif in Hde. destruct (cascb c (pv_path e)) eqn:Ehe.
  - rewrite (cascb_down c _ _ (proj2 (P2PureRollbackBase.wf_WF c) Hc) Ehe Hb) in Eh. discriminate.
  - rewrite <- Hpk, <- Hpt in Hb. pose proof (proj1 (nlb_iff vw) Hn k v Hin Ed) as Hcv.
    rewrite (cov_intro vw t e k Ht Hde Hb) in Hcv. discriminate.
Qed.

(** * commit_merge *)
Lemma commit_merge_eq ord i m vw ch :
  commit_merge ord i m vw ch =
  store_write m (act_fold (permute (rest_code (length ch) ord) (fst (add_delete_children i (permute ord ch) vw)))
                          (markmap i ch vw)).
Proof.
  unfold commit_merge. rewrite (surjective_pairing (add_delete_children i (permute ord ch) vw)), adc_snd,
    (markmap_perm i _ ch vw (permute_perm ord ch)). reflexivity.
Qed.

Section Commit.
  Context (ord i : N) (m vw ch : cmap).
  Context (Hm : WF m) (Hvw : WF vw) (Hsub : forall k e, lookup k m = Some e -> lookup k vw = Some e)
          (Hnlb : no_live_below vw = true) (Hch : WFC ch) (Hic : idx_compat m ch = true).

  Let upd' := fst (add_delete_children i (permute ord ch) vw).
  Let l := permute (rest_code (length ch) ord) upd'.
  Let st := markmap i ch vw.

  Lemma cm_st_WF : WF st.
  Proof. apply markmap_WF. exact Hvw. Qed.
  Lemma cm_st_nlb : no_live_below st = true.
  Proof. apply markmap_nlb; [exact Hvw|apply Hch|exact Hnlb]. Qed.
  Lemma cm_vam k e : lookup k m = Some e ->
    lookup k st = Some e \/ (In k (paths vw) /\ exists kc cv, In (kc, cv) ch /\ pv_deleted cv = true /\ Below k kc).
  Proof.
    intros H. pose proof (Hsub _ _ H) as Hv. unfold st. rewrite markmap_lookup, Hv. cbn [option_map].
    destruct (KO_lookup _ _ _ (proj2 Hvw) Hv) as [Hpe _].
    destruct (markif_cases i ch e (proj1 Hch)) as [->|(_ & Hc)]; [left; reflexivity|right]. rewrite Hpe in Hc. split; [|exact Hc].
    unfold paths. apply in_map_iff. exists (k, e). split; [exact Hpe|apply lookup_in; exact Hv].
  Qed.

  Theorem commit_merge_wf : WF (commit_merge ord i m vw ch) /\ no_entry_below (commit_merge ord i m vw ch) = true.
  Proof.
    pose proof (upd_spec_permuted ord i ch vw Hch) as Hu'. fold upd' in Hu'.
    pose proof (permute_perm (rest_code (length ch) ord) upd') as Hl. fold l in Hl.
    rewrite commit_merge_eq. fold upd' l st.
    pose proof (stored_no_entry_below i m st vw ch upd' l cm_st_WF Hm cm_st_nlb cm_vam Hch Hic Hu' Hl) as Hne.
    assert (HwR : WF (store_write m (act_fold l st))).
    { apply store_write_spec; [|exact Hm]. apply (Xc_WF i st vw ch upd' l); [apply cm_st_WF|assumption..]. }
    rewrite (overlay_nil _ (proj1 HwR)) in Hne. split; [exact HwR|exact (neb_intro _ (proj1 HwR) Hne)].
  Qed.
End Commit.

(** * Where the values come from *)
(* a tombstone written by AddDeleteChildren for the change [ch] of index [i] *)
Definition is_mark (i : N) (ch : cmap) (x : str * pv) : Prop :=
  pv_path (snd x) = fst x /\ pv_deleted (snd x) = true /\ pv_index (snd x) = i /\
  exists kc cv, In (kc, cv) ch /\ pv_deleted cv = true /\ Below (fst x) kc.

(* [m] is well-formed and holds only entries of the maps [srcs] and such tombstones *)
Definition made_of (srcs : list cmap) (i : N) (ch m : cmap) : Prop :=
  WF m /\ forall x, In x m -> In x (concat srcs) \/ is_mark i ch x.

Lemma markmap_made i ch vw : WF vw -> WFC ch -> made_of [vw] i ch (markmap i ch vw).
Proof.
  intros Hvw Hch. split; [apply markmap_WF; exact Hvw|]. intros [k v'] Hin. apply markmap_in in Hin. destruct Hin as (v & Hin & ->).
  destruct (proj2 Hvw _ _ Hin) as [Hk _].
  destruct (markif_cases i ch v (proj1 Hch)) as [->|(-> & Hc)]; [left; cbn; rewrite app_nil_r; exact Hin|right].
  rewrite <- Hk in Hc. repeat split; [symmetry; exact Hk|exact Hc].
Qed.

Lemma touched_made i vw ch : WF vw -> WFC ch -> made_of [vw] i ch (touched i vw ch).
Proof. rewrite touched_markmap. apply markmap_made. Qed.

Lemma touched_keys i vw ch : map fst (touched i vw ch) = map fst vw.
Proof. rewrite touched_markmap. apply markmap_keys. Qed.

(* what store() writes after AddDeleteChildren and applyChangeToConfig on [st] *)
Lemma stored_made ord i m st vw ch srcs : WF m -> WFC ch -> made_of srcs i ch st ->
  made_of (m :: ch :: srcs) i ch
          (store_write m (act_fold (permute (rest_code (length ch) ord) (fst (add_delete_children i (permute ord ch) vw))) st)).
Proof.
  intros Hm Hch [Hst Hfrom]. pose proof (upd_spec_permuted ord i ch vw Hch) as Hu. pose proof (upd_WF i ch vw _ Hch Hu) as Hwu.
  assert (HX : WF (act_fold (permute (rest_code (length ch) ord) (fst (add_delete_children i (permute ord ch) vw))) st)).
  { apply act_fold_WF; [exact Hst|]. intros k v H. apply permute_incl in H. exact (proj2 Hwu k v H). }
  split; [apply store_write_spec; assumption|]. intros x Hin. cbn [concat]. rewrite !in_app_iff.
  apply (store_write_In _ _ _ HX Hm) in Hin. destruct Hin as [H|H]; [tauto|].
  apply act_fold_In in H; [|apply Hst]. destruct H as [H|H]; [|destruct (Hfrom x H); tauto].
  apply permute_incl in H. destruct x as [k v]. apply (in_lookup _ _ _ (proj1 Hwu)) in H.
  destruct (ui_cases _ _ _ _ Hu _ _ H) as [H0|(H1 & H2 & H3 & _ & kc & cv & H6 & H7 & H8)]; [tauto|].
  right. repeat split; eauto.
Qed.

Lemma record_applied_made ord i m va vw ch : WF m -> WF va -> WFC ch -> made_of [m; ch; va] i ch (record_applied ord i m va vw ch).
Proof.
  intros Hm Hva Hch. rewrite record_applied_eq. apply stored_made; [exact Hm|exact Hch|]. split; [exact Hva|]. intros x H. left. cbn. rewrite app_nil_r. exact H.
Qed.

Lemma commit_merge_made ord i m vw ch : WF m -> WF vw -> WFC ch -> made_of [m; ch; vw] i ch (commit_merge ord i m vw ch).
Proof.
  intros Hm Hvw Hch. rewrite commit_merge_eq. apply stored_made; [exact Hm|exact Hch|]. apply markmap_made; assumption.
Qed.

(** * The recorded rollback values *)
(* values live at leaves: nothing live in [V] beneath a path the change updates *)
Definition leaves_ok (V c : cmap) : Prop :=
  forall k u p x, In (k, u) c -> pv_deleted u = false -> In (p, x) V -> pv_deleted x = false -> ~ Below p k.

Theorem rollback_of_ok V c : WF V -> WFC c -> no_live_below V = true -> leaves_ok V c ->
  WFC (rollback_of V c) /\
  forall k r, In (k, r) (rollback_of V c) -> In (k, r) V \/ r = mkPV k [] true 0.
Proof.
  intros HV Hc Hn Hl.
  destruct (P2PureRollbackRb.rollback_of_spec V c (proj2 (P2PureRollbackBase.wf_WF V) HV) (proj2 (P2PureRollbackBase.wf_WF c) (proj1 Hc))
              (P2PureRollbackCommit.WFC_no_delete_above_update c Hc)) as [R1 R2 R3 R4].
  apply P2PureRollbackBase.wf_WF in R1.
  assert (Hfrom : forall k r, In (k, r) (rollback_of V c) -> In (k, r) V \/ r = mkPV k [] true 0).
  { intros k r Hin. apply (in_lookup _ _ _ (proj1 R1)) in Hin. destruct (R2 _ _ Hin) as [H|(_ & H & _)]; [left; apply lookup_in; exact H|right; exact H]. }
  split; [|exact Hfrom]. split; [exact R1|].
  intros k v kd d Hk Hlv Hd Hdel Hb.
  (* a live recorded value is a value of V *)
  destruct (Hfrom _ _ Hk) as [HkV| ->]; [|discriminate].
  apply (in_lookup _ _ _ (proj1 R1)) in Hd. destruct (R2 _ _ Hd) as [HdV|(_ & _ & u & Hu & Hul)].
  - (* a tombstone of V above it *)
    assert (Hcv : covered V k = false) by (apply (nlb_spec V k v Hn); [apply in_lookup; [apply HV|exact HkV]|exact Hlv]).
    destruct (KO_lookup _ _ _ (proj2 HV) HdV) as [_ Hpd].
    rewrite (cov_intro V kd d k (lookup_in _ _ _ HdV) Hdel (proj2 (below_spec _ _ Hpd) Hb)) in Hcv. discriminate.
  - (* a path the change creates: nothing live of V lies beneath it *)
    exact (Hl kd u k v (lookup_in _ _ _ Hu) Hul HkV Hlv Hb).
Qed.
