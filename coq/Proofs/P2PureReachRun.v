(* C04, reachability invariant of the instance, part 4: the invariant along runs and the run theorem without a per-step
   well-formedness premise.
     Inv w            static part (Proofs/P2PureReachInv.v) + dynamic part for every configuration (P2PureReachDyn.v)
     inv_step         Inv is kept by every environment label whose changes are well-formed and by every COMPLETE invocation
     inv_wf_step      Inv w -> wf_step w t l for every target and label
     run_good w ls    every label of ls carries well-formed changes at leaves and every invocation runs to its end
     converged_reach_Lf  the run theorem: run_good + the start condition conv (Proofs/P2PureReachLabels.v states it with
                      a boolean predicate on the labels). *)
From stdpp Require Import gmap.
From RecordUpdate Require Import RecordUpdate.
From OC Require Import Base.Bytes Model.P2Pure Model.Proto2 Model.P2Inst Proofs.P2Base Proofs.P2_Cursor
     Proofs.P2_Converge Proofs.P2_ConvergeEx.
From OC Require Import Proofs.P2PureApplyBase Proofs.P2PureApplyInst Proofs.P2PureReachInv Proofs.P2PureReachEff
     Proofs.P2PureReachDyn.
Open Scope N_scope.

Lemma dyn_empty (C : Cfg) : empty4 C -> dyn C.
Proof.
  intros (E1 & E2 & E3 & E4). unfold dyn. rewrite E1, E2, E3, E4. split; [reflexivity|]. split; [intros k H; exact H|reflexivity].
Qed.

(** * a configuration that does not exist yet *)
Definition nocfg_eff (t : N) (e : Eff) : Prop :=
  match e with
  | EPutCfg t' _ | EPutValues t' _ | EPutAValues t' _ => t' <> t
  | ECreateCfg t' C0 => t' = t -> empty4 C0
  | _ => True
  end.

Lemma writes_nocfg (w : Wd) (es : list Eff) t : cfgs w !! t = None -> writes w es -> Forall (nocfg_eff t) es.
Proof.
  intros Hn Hw.
  assert (Hp : forall l, Forall (plain w) l -> Forall (nocfg_eff t) l)
    by (intros l; apply List.Forall_impl; intros e; destruct e; cbn; tauto).
  destruct Hw as [es Hes|t0 C0 C' av inl pre post HC0 Ha Hpre Hpost|t0 i ord P C0 C' post HP HC0 Hpost]; [apply Hp; exact Hes| |];
    assert (Hne : t0 <> t) by congruence.
  - apply Forall_app_2; [apply Hp; exact Hpre|]. repeat (apply List.Forall_cons; [exact Hne|]). apply Hp. exact Hpost.
  - repeat (apply List.Forall_cons; [exact Hne|]). apply Hp. exact Hpost.
Qed.

Lemma reconcile_nocfg (o : oracle) (w : Wd) c t : cfgs w !! t = None -> Forall (nocfg_eff t) (fst (p2_reconcile o w c)).
Proof.
  intros Hn. destruct c as [i|k|t'|t'|cc]; [|apply (writes_nocfg w _ t Hn), reconcile_writes; discriminate..].
  eapply Forall_impl; [apply (rec_tx_tp stamp)|]. intros e. destruct e; cbn; tauto.
Qed.

Lemma fold_nocfg t (es : list Eff) : forall w : Wd,
  (cfgs w !! t = None \/ exists C0 : Cfg, cfgs w !! t = Some C0 /\ empty4 C0) -> Forall (nocfg_eff t) es ->
  (cfgs (fold_left p2_apply_eff es w) !! t = None \/ exists C0 : Cfg, cfgs (fold_left p2_apply_eff es w) !! t = Some C0 /\ empty4 C0).
Proof.
  induction es as [|e es IH]; intros w Hw Hf; [exact Hw|]. inversion Hf as [|? ? He Hr]; subst. cbn [fold_left]. apply IH; [|exact Hr].
  unfold p2_apply_eff. rewrite (cfgs_apply_eff dev_apply nil).
  destruct e as [| | |t' C0|t' C0|t' v|t' v| | |]; try exact Hw; cbn in He.
  - destruct (cfgs w !! t') eqn:E; [exact Hw|]. destruct (decide (t' = t)) as [->|Hne].
    + right. exists C0. rewrite fin_maps.lookup_insert. split; [reflexivity|apply He; reflexivity].
    + rewrite lookup_insert_ne by exact Hne. exact Hw.
  - destruct (cfgs w !! t'); [|exact Hw]. rewrite lookup_insert_ne by exact He. exact Hw.
  - destruct (cfgs w !! t'); [|exact Hw]. rewrite lookup_insert_ne by exact He. exact Hw.
  - destruct (cfgs w !! t'); [|exact Hw]. rewrite lookup_insert_ne by exact He. exact Hw.
Qed.

Lemma x_run_app (ls1 ls2 : list Label) : x_run (ls1 ++ ls2) = fold_left p2_step ls2 (x_run ls1).
Proof. apply fold_left_app. Qed.

Section Run.
  Context (Lf : N -> str -> Prop) (Lf_free : forall t p q, Lf t p -> Lf t q -> ~ Below p q).

  Definition Inv (w : Wd) : Prop := SInv Lf w /\ forall t (C : Cfg), cfgs w !! t = Some C -> dyn C.

  Definition label_ok (l : Label) : Prop :=
    match l with LChange chs _ _ => forall t c, In (t, c) chs -> nb_ok Lf t c | _ => True end.

  Lemma inv_init : Inv p2_init.
  Proof.
    split; [|intros t C H; cbn in H; rewrite lookup_empty in H; discriminate H].
    split; cbn; [discriminate|intros i T H|intros t i P H|intros t C H]; rewrite lookup_empty in H; discriminate H.
  Qed.

  (* a step of the environment: proposals and configurations stay, transactions stay or are well-formed *)
  Lemma inv_env (w w' : Wd) :
    props w' = props w -> cfgs w' = cfgs w -> next_index w' <> 0 ->
    (forall i (T : Txn), txs w' !! i = Some T -> txs w !! i = Some T \/ (i <> 0 /\ tx_ok Lf (t_details T))) -> Inv w -> Inv w'.
  Proof.
    intros Hp Hc Hn Ht [HS HD]. split; [|rewrite Hc; exact HD].
    apply (sinv_next Lf w w' HS); [intros k P H; exists P; rewrite Hp; auto|exact Hn|exact Ht|rewrite Hp; auto|rewrite Hc; auto].
  Qed.

  Theorem inv_step (w : Wd) (l : Label) : Inv w -> label_ok l -> i_complete w l -> Inv (p2_step w l).
  Proof.
    intros HI Hl Hc. pose proof HI as [HS HD]. unfold p2_step.
    assert (Hnew : forall (T : Txn), tx_ok Lf (t_details T) ->
              Inv (w <| txs := <[next_index w := T]> (txs w) |> <| next_index := next_index w + 1 |>)).
    { intros T HT. apply (inv_env w); try reflexivity; [cbn; lia| |exact HI]. intros i T0 H. cbn in H.
      apply lookup_insert_Some in H. destruct H as [[<- <-]|[_ H]]; [right; split; [apply (si_next Lf w HS)|exact HT]|left; exact H]. }
    destruct l as [chs sy se|ri|c k o|c t0|c|c t0|t0 p|t0|t0]; cbn [Proto2.step];
      [apply Hnew; exact Hl|apply Hnew; exact I| |
       (* the other labels leave transactions, proposals and configurations alone *)
       try destruct (conns w !! c); try destruct (rels w !! c); try exact HI;
       (apply (inv_env w); try reflexivity; [apply HS|auto|exact HI])..].
    (* a complete invocation *)
    cbn [complete] in Hc. rewrite firstn_all2 by exact Hc.
    pose proof (reconcile_ok Lf Lf_free o w c HS HD) as Hok.
    split.
    - pose proof (fold_static Lf (fst (p2_reconcile o w c)) w w (length (fst (p2_reconcile o w c))) HS (pstable_refl w) Hok) as H.
      rewrite firstn_all in H. exact H.
    - intros t C' HC'. destruct (cfgs w !! t) as [C|] eqn:HC.
      + pose proof (cfg_fold dev_apply nil (fst (p2_reconcile o w c)) t w C HC) as Hf.
        injection (eq_trans (eq_sym HC') Hf) as ->. apply (reconcile_dyn Lf o w c t C HS HC (HD t C HC)).
      + destruct (fold_nocfg t (fst (p2_reconcile o w c)) w (or_introl HC) (reconcile_nocfg o w c t HC)) as [Hn|(C0 & H0 & He)].
        * discriminate (eq_trans (eq_sym HC') Hn).
        * injection (eq_trans (eq_sym HC') H0) as ->. apply dyn_empty. exact He.
  Qed.

  Fixpoint run_good (w : Wd) (ls : list Label) : Prop :=
    match ls with [] => True | l :: r => label_ok l /\ i_complete w l /\ run_good (p2_step w l) r end.

  Lemma run_good_app (a b : list Label) : forall w, run_good w (a ++ b) <-> run_good w a /\ run_good (fold_left p2_step a w) b.
  Proof. induction a as [|l a IH]; intros w; cbn; [tauto|]. rewrite IH. tauto. Qed.

  Theorem inv_run (ls : list Label) : forall w, Inv w -> run_good w ls -> Inv (fold_left p2_step ls w).
  Proof.
    induction ls as [|l ls IH]; intros w HI Hg; [exact HI|]. destruct Hg as (H1 & H2 & H3). cbn [fold_left].
    apply IH; [apply inv_step; assumption|exact H3].
  Qed.

  (** * the invariant gives the well-formedness every step needs *)
  Theorem inv_wf_step (w : Wd) t (l : Label) : Inv w -> wf_step w t l.
  Proof.
    intros [HS HD] C HC. pose proof (HD t C HC) as Hd. destruct (dc_wf Lf w HS t C HC) as (H1 & H2 & H3 & H4).
    split; [apply wfk_of; exact H4|]. split; [apply wfk_of; exact H2|].
    destruct l as [| |[|[t' i]|t'| |] k o| | | | | |]; try exact I.
    - intros -> C0 P HC0 HP. assert (C0 = C) as -> by congruence. apply (dc_wf_apply Lf w HS t C HC Hd i P HP).
    - intros _. apply Hd.
  Qed.

  (* no restart of the device of [t], no switch of [t] to persistent *)
  Definition quiet_env (t : N) (ls : list Label) : Prop := Forall (fun l => l <> LDevRestart t /\ l <> LTarget t true) ls.

  Lemma run_crun_wf t (ls : list Label) : forall w0 w : Wd,
    Inv w -> run_good w ls -> quiet_env t ls -> crun_wf t w0 w -> crun_wf t w0 (fold_left p2_step ls w).
  Proof.
    induction ls as [|l ls IH]; intros w0 w HI Hg Hq Hrun; [exact Hrun|]. destruct Hg as (H1 & H2 & H3).
    inversion Hq as [|? ? [Q1 Q2] Qr]; subst. cbn [fold_left]. apply IH; [apply inv_step; assumption|exact H3|exact Qr|].
    apply (crun_wf_step t w0 w l Hrun). split; [exact H2|]. split; [exact Q1|]. split; [exact Q2|]. apply inv_wf_step. exact HI.
  Qed.

  Theorem converged_reach_Lf (ls0 ls : list Label) t (C' : Cfg) :
    run_good p2_init (ls0 ++ ls) -> quiet_env t ls -> i_conv (x_run ls0) t ->
    cfgs (x_run (ls0 ++ ls)) !! t = Some C' -> c_state C' = CSynchronized -> c_aterm C' = c_term C' ->
    i_agrees (x_run (ls0 ++ ls)) t.
  Proof.
    intros Hg Hq Hc. apply run_good_app in Hg. destruct Hg as [G0 G1].
    rewrite x_run_app.
    apply (converged_inst (x_run ls0) (fold_left p2_step ls (x_run ls0)) t C'); [apply x_run_reach|exact Hc|].
    apply run_crun_wf; [|exact G1|exact Hq|apply crun_wf_refl]. apply (inv_run ls0 p2_init inv_init G0).
  Qed.
End Run.
