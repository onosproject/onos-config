(* C06, value level: the cascade of AddDeleteChildren - which paths a change deletes by cascade, and how the loop
   mutates the view, for every iteration order of the change. *)
From Coq Require Import List Arith NArith Bool Lia Permutation.
From OC Require Import Base.Bytes Model.P2Pure Proofs.P2PureApplyDefs Proofs.P2PureApplySem Proofs.P2PureApplySound
  Proofs.P2PureRollbackBase.
Import ListNotations.
Open Scope N_scope.

Definition mark (idx : N) (v : pv) : pv := mkPV (pv_path v) (pv_val v) true idx.
(* the path lies beneath a deleted value of the change *)
Definition cascb (c : cmap) (p : str) : bool :=
  existsb (fun '(_, cv) => pv_deleted cv && is_path_below p (pv_path cv)) c.
Definition markif (idx : N) (c : cmap) (v : pv) : pv := if cascb c (pv_path v) then mark idx v else v.

Lemma cascb_app a b p : cascb (a ++ b) p = cascb a p || cascb b p.
Proof. unfold cascb. apply existsb_app. Qed.

Lemma cascb_spec c p :
  cascb c p = true <-> exists k cv, In (k, cv) c /\ pv_deleted cv = true /\ below p (pv_path cv).
Proof.
  unfold cascb. rewrite existsb_exists. split.
  - intros ([k cv] & H1 & H2). apply andb_true_iff in H2. exists k, cv. tauto.
  - intros (k & cv & H1 & H2 & H3). exists (k, cv). split; [exact H1|]. apply andb_true_iff. auto.
Qed.

Lemma cascb_down c p k : wf c -> cascb c p = true -> below k p -> cascb c k = true.
Proof.
  intros (Nc & Kc & Pc) H Hk. apply cascb_spec in H. apply cascb_spec. destruct H as (kd & cv & H1 & H2 & H3).
  exists kd, cv. split; [exact H1|]. split; [exact H2|].
  eapply below_trans; [|exact Hk | exact H3]. rewrite (Kc _ _ H1). eapply Pc; eauto.
Qed.

Lemma cascb_Below c p : wf c ->
  (cascb c p = true <-> exists k cv, In (k, cv) c /\ pv_deleted cv = true /\ Below p k).
Proof.
  intros (_ & K & P). rewrite cascb_spec.
  split; intros (k & cv & H1 & H2 & H3); exists k, cv; (split; [exact H1|]); (split; [exact H2|]).
  - rewrite (K _ _ H1) in H3. apply (below_Below p k (P _ _ H1)), H3.
  - rewrite (K _ _ H1). apply (below_Below p k (P _ _ H1)), H3.
Qed.

Lemma mark_path idx v : pv_path (mark idx v) = pv_path v. Proof. reflexivity. Qed.
Lemma mark_mark idx v : mark idx (mark idx v) = mark idx v. Proof. reflexivity. Qed.
Lemma markif_path idx c v : pv_path (markif idx c v) = pv_path v.
Proof. unfold markif. destruct (cascb c (pv_path v)); reflexivity. Qed.
Lemma mark_markif idx c v : mark idx (markif idx c v) = mark idx v.
Proof. unfold markif. destruct (cascb c (pv_path v)); reflexivity. Qed.

(** * the view as the loop mutates it through the shared pointers *)
Definition markmap (idx : N) (c V : cmap) : cmap := map (fun '(k, v) => (k, markif idx c v)) V.

Lemma markmap_lookup idx c V k : lookup k (markmap idx c V) = option_map (markif idx c) (lookup k V).
Proof. unfold markmap. induction V as [|[k0 v0] V IH]; cbn; [reflexivity|]. destruct (eqb_str k k0); [reflexivity | exact IH]. Qed.

Lemma markmap_keys idx c V : map fst (markmap idx c V) = map fst V.
Proof. unfold markmap. rewrite map_map. apply map_ext. intros [k v]. reflexivity. Qed.

Lemma markmap_in idx c V k v' : In (k, v') (markmap idx c V) <-> exists v, In (k, v) V /\ v' = markif idx c v.
Proof.
  unfold markmap. rewrite in_map_iff. split.
  - intros ([k0 v] & E & Hin). injection E as <- <-. exists v. auto.
  - intros (v & Hin & ->). exists (k, v). auto.
Qed.

Lemma markmap_wf idx c V : wf V -> wf (markmap idx c V).
Proof.
  intros W. apply wf_intro.
  - unfold nd. rewrite markmap_keys. apply W.
  - intros k v H. rewrite markmap_lookup in H. destruct (lookup k V) as [x|] eqn:E; [|discriminate].
    injection H as <-. rewrite markif_path. exact (wf_lookup V k x W E).
Qed.

Lemma markmap_perm idx c c' V : Permutation c c' -> markmap idx c V = markmap idx c' V.
Proof. intros P. apply map_ext. intros [k v]. unfold markif, cascb. rewrite (existsb_perm _ _ _ P). reflexivity. Qed.

Lemma adc_snd idx c V : snd (add_delete_children idx c V) = markmap idx c V.
Proof.
  unfold markmap. rewrite adc_fold. induction c as [|[kx cv] l IH] using rev_ind.
  - cbn. symmetry. erewrite map_ext; [apply map_id|]. intros [k v]. reflexivity.
  - rewrite fold_left_snoc. destruct (fold_left (adc_step idx) l ([], V)) as [U S]. cbn [snd] in IH. subst S.
    assert (forall p, cascb (l ++ [(kx, cv)]) p = cascb l p || pv_deleted cv && is_path_below p (pv_path cv)) as Cs.
    { intros p. rewrite cascb_app. cbn [cascb existsb]. rewrite orb_false_r. reflexivity. }
    cbn [adc_step]. destruct (pv_deleted cv) eqn:D; cbn [snd].
    + rewrite map_map. apply map_ext. intros [k v]. cbn beta iota. fold (mark idx (markif idx l v)).
      rewrite mark_markif, markif_path. unfold markif at 2. rewrite Cs.
      destruct (is_path_below (pv_path v) (pv_path cv)); [rewrite orb_true_r | rewrite orb_false_r]; reflexivity.
    + apply map_ext. intros [k v]. unfold markif. rewrite Cs, orb_false_r. reflexivity.
Qed.
