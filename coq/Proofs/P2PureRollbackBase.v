(* C06, value level, concrete pure layer (Model/P2Pure.v): well-formed association-list maps, maps compared by lookup,
   paths, permute and overlay, on top of Proofs/P2PureApplyBase.v and the lookup tables of Proofs/P2PureApplySem.v.
   Stdlib only. *)
From Coq Require Import List Arith NArith Bool Lia Permutation.
From OC Require Import Base.Bytes Model.P2Pure.
From OC Require Export Proofs.P2PureApplyBase.
From OC Require Import Proofs.P2PureApplySem Proofs.P2PureApplySound.
Import ListNotations.
Open Scope N_scope.

(** * Well-formedness (Prop level) *)
Definition nd (m : cmap) : Prop := NoDup (map fst m).
Definition kp (m : cmap) : Prop := forall k v, In (k, v) m -> pv_path v = k.
Definition proper (k : str) : Prop := k <> [] /\ k <> [c_slash].
Definition pk (m : cmap) : Prop := forall k v, In (k, v) m -> proper k.
Definition wf (m : cmap) : Prop := nd m /\ kp m /\ pk m.
(* same Go map, possibly another iteration order *)
Definition same (a b : cmap) : Prop := forall k, lookup k a = lookup k b.

Lemma proper_true a : proper a <-> P2PureApplyDefs.proper a = true.
Proof.
  unfold proper, P2PureApplyDefs.proper. rewrite andb_true_iff, !negb_true_iff, !eqb_str_neq. tauto.
Qed.

Lemma wf_WF m : wf m <-> WF m.
Proof.
  unfold wf, kp, pk, WF, KO. split.
  - intros (N & K & P). split; [exact N|]. intros k v H. split; [symmetry; exact (K k v H) | apply proper_true, (P k v H)].
  - intros (N & K). split; [exact N|]. split; intros k v H; destruct (K k v H) as (E & P); [auto | apply proper_true, P].
Qed.

Lemma wf_lookup m k v : wf m -> lookup k m = Some v -> pv_path v = k /\ proper k.
Proof. intros (_ & K & P) H. apply lookup_in in H. split; [exact (K k v H) | exact (P k v H)]. Qed.

(* with unique keys, key = path and properness can be read off the lookup table *)
Lemma wf_intro m : nd m -> (forall k v, lookup k m = Some v -> pv_path v = k /\ proper k) -> wf m.
Proof.
  intros N H. split; [exact N|]. split; intros k v Hi; apply (in_lookup _ _ _ N), H in Hi; tauto.
Qed.

Lemma wf_nil : wf [].
Proof. apply wf_intro; [constructor | discriminate]. Qed.

Lemma lookup_insert k' k v m : lookup k' (insert k v m) = if eqb_str k' k then Some v else lookup k' m.
Proof. apply P2PureApplyBase.lookup_insert. Qed.

Lemma wf_insert k v m : wf m -> pv_path v = k -> proper k -> wf (insert k v m).
Proof.
  intros W P Q. apply wf_WF. apply wf_WF in W.
  split; [apply ND_insert, W | apply KO_insert; [apply W | auto | apply proper_true, Q]].
Qed.

Lemma wf_remove k m : wf m -> wf (remove k m).
Proof.
  intros W. apply wf_WF. apply wf_WF in W. split; [apply ND_remove, W | apply KO_remove, W].
Qed.

(* the last entry of a well-formed list *)
Lemma wf_snoc l k v : wf (l ++ [(k, v)]) -> wf l /\ lookup k l = None /\ pv_path v = k /\ proper k.
Proof.
  intros (N & K & P). unfold nd in N. rewrite map_app in N. cbn in N.
  pose proof (NoDup_remove_1 _ _ _ N) as N1. apply NoDup_remove_2 in N. rewrite app_nil_r in N, N1.
  assert (In (k, v) (l ++ [(k, v)])) as Hin by (apply in_or_app; right; left; reflexivity).
  split; [|split; [apply lookup_none; exact N | split; [exact (K _ _ Hin) | exact (P _ _ Hin)]]].
  split; [exact N1|]. split; intros k' v' H; [apply K | eapply P]; apply in_or_app; left; exact H.
Qed.

Lemma lookup_snoc_eq l p v : lookup p l = None -> lookup p (l ++ [(p, v)]) = Some v.
Proof. intros H. rewrite lookup_app, H. cbn. rewrite eqb_str_refl. reflexivity. Qed.

(** * same *)
Lemma same_refl a : same a a. Proof. intros k; reflexivity. Qed.
Lemma same_sym a b : same a b -> same b a. Proof. intros H k; symmetry; apply H. Qed.
Lemma same_trans a b c : same a b -> same b c -> same a c. Proof. intros H1 H2 k; rewrite H1; apply H2. Qed.

Lemma same_wf a b : same a b -> nd b -> wf a -> wf b.
Proof. intros S N W. apply wf_intro; [exact N|]. intros k v H. rewrite <- S in H. exact (wf_lookup a k v W H). Qed.

(** * paths *)
Definition below (k a : str) : Prop := is_path_below k a = true.

Lemma below_Below k a : proper a -> (below k a <-> Below k a).
Proof. intros P. apply below_spec, proper_true, P. Qed.

Lemma below_proper k a : proper a -> below k a -> proper k.
Proof.
  intros P H. apply proper_true, (Below_proper k a); [apply below_Below; assumption | apply P].
Qed.

Lemma below_trans a b c : proper c -> below a b -> below b c -> below a c.
Proof.
  intros P H1 H2. pose proof (below_proper _ _ P H2) as Pb.
  apply below_Below in H1, H2; try assumption. apply below_Below; [exact P | exact (Below_trans _ _ _ H1 H2)].
Qed.

Lemma below_irrefl a : proper a -> ~ below a a.
Proof. intros P H. apply (Below_irrefl a), below_Below; assumption. Qed.

Lemma below_asym a b : proper a -> proper b -> below a b -> ~ below b a.
Proof. intros Pa Pb H1 H2. apply (below_irrefl a Pa). eapply below_trans; eauto. Qed.

(* the ancestors the Go loops visit are exactly the proper paths the path lies beneath *)
Lemma ancestors_below a p : proper a -> (In a (ancestors p) <-> below p a).
Proof. intros P. apply P2PureApplyBase.ancestors_below, proper_true, P. Qed.

(** * folds *)
Lemma fold_left_snoc {A B} (f : A -> B -> A) l x a : fold_left f (l ++ [x]) a = f (fold_left f l a) x.
Proof. rewrite fold_left_app. reflexivity. Qed.

Lemma fold_left_inv {A B} (P : A -> Prop) (f : A -> B -> A) l : forall a,
  P a -> (forall a x, In x l -> P a -> P (f a x)) -> P (fold_left f l a).
Proof.
  induction l as [|x l IH]; cbn; intros a Ha Hs; [exact Ha|].
  apply IH; [apply Hs; [left; reflexivity | exact Ha] | intros a' x' Hx; apply Hs; right; exact Hx].
Qed.

(** * permute *)
Lemma permute_same n m : nd m -> same (permute n m) m.
Proof. intros N k. symmetry. apply lookup_perm; [symmetry; apply permute_perm | exact N]. Qed.

Lemma permute_wf n m : wf m -> wf (permute n m).
Proof. intros W. apply wf_WF, (WF_perm m); [symmetry; apply permute_perm | apply wf_WF, W]. Qed.

(** * overlay *)
Lemma overlay_keys inl m x : In x (map fst (overlay inl m)) -> In x (map fst inl) \/ In x (map fst m).
Proof.
  intros H. apply in_map_iff in H. destruct H as (kv & <- & H).
  destruct (In_overlay _ _ _ H); [left | right]; apply in_map; assumption.
Qed.

Lemma overlay_nil_same m : nd m -> same (overlay [] m) m.
Proof. intros N k. rewrite overlay_lookup by exact N. destruct (lookup k m); reflexivity. Qed.
