(* C06, value level: the well-formedness hypotheses as boolean predicates, their reflection, and the theorems of
   Proofs/P2PureRollbackMain.v stated on them for the functions of Model/P2Pure.v. *)
From Coq Require Import List Arith NArith Bool Lia Permutation.
From OC Require Import Base.Bytes Model.P2Pure Proofs.P2PureApplyDefs Proofs.P2PureApplySound Proofs.P2PureRollbackBase Proofs.P2PureRollbackPrune
  Proofs.P2PureRollbackAdc Proofs.P2PureRollbackCommit Proofs.P2PureRollbackRb Proofs.P2PureRollbackMain.
Import ListNotations.
Open Scope N_scope.

(** * boolean predicates *)
(* neither "" nor "/" (the two spellings of the root) *)
Definition properb (k : str) : bool := negb (eqb_str k []) && negb (eqb_str k [c_slash]).
(* Go map: keys unique *)
Fixpoint nodupb (m : cmap) : bool :=
  match m with [] => true | (k, _) :: r => negb (existsb (fun kv => eqb_str k (fst kv)) r) && nodupb r end.
(* ... key = path of the value, a proper path *)
Definition wfb (m : cmap) : bool := nodupb m && forallb (fun '(k, v) => eqb_str (pv_path v) k && properb k) m.
Definition eqb_pv (a b : pv) : bool :=
  eqb_str (pv_path a) (pv_path b) && eqb_str (pv_val a) (pv_val b) && Bool.eqb (pv_deleted a) (pv_deleted b) &&
  (pv_index a =? pv_index b).
(* the same Go map (the list order, i.e. the iteration order, may differ) *)
Definition sameb (a b : cmap) : bool :=
  forallb (fun '(k, v) => match lookup k b with Some v' => eqb_pv v v' | None => false end) a &&
  forallb (fun '(k, _) => match lookup k a with Some _ => true | None => false end) b.
(* the path lies beneath a tombstone of the map *)
Definition hiddenb (V : cmap) (k : str) : bool := existsb (fun '(t, d) => pv_deleted d && is_path_below k t) V.
(* no live value beneath a tombstone *)
Definition cleanb (V : cmap) : bool := forallb (fun '(k, e) => pv_deleted e || negb (hiddenb V k)) V.
(* nothing at all beneath a tombstone (what store() leaves behind) *)
Definition prunedb (V : cmap) : bool := forallb (fun '(k, _) => negb (hiddenb V k)) V.
(* no update of the change lies beneath a delete of the same change (finding F-14 is what happens otherwise) *)
Definition no_delete_above_updateb (c : cmap) : bool := forallb (fun '(k, u) => pv_deleted u || negb (cascb c k)) c.
(* values live at leaves: an updated path has no live value beneath it *)
Definition updates_are_leavesb (V c : cmap) : bool :=
  forallb (fun '(k, u) => pv_deleted u || forallb (fun '(p, x) => pv_deleted x || negb (is_path_below p k)) V) c.
(* the change carries its transaction index; the stored values are older *)
Definition stampedb (i : N) (c : cmap) : bool := forallb (fun '(_, u) => pv_index u =? i) c.
Definition olderb (i : N) (M : cmap) : bool := forallb (fun '(_, e) => pv_index e <? i) M.
(* all hypotheses of the rollback theorem: [m] the stored map, [vw] the loaded view, [ch] the change of transaction
   [i], [j] the transaction index of the rollback *)
Definition rollback_wf (i j : N) (m vw ch : cmap) : bool :=
  nodupb m && wfb vw && sameb vw m && cleanb vw && wfb ch && no_delete_above_updateb ch &&
  updates_are_leavesb vw ch && stampedb i ch && olderb i m && (0 <? i) && (i <? j).

(** * reflection *)
Lemma properb_spec k : properb k = true <-> proper k.
Proof. symmetry. apply proper_true. Qed.

Lemma nodupb_spec m : nodupb m = true <-> nd m.
Proof.
  replace (nodupb m) with (nodup_keys m); [apply nodup_keys_ND|].
  induction m as [|[k v] m IH]; cbn; [reflexivity | rewrite IH; reflexivity].
Qed.

Lemma forallb_lookup (f : str * pv -> bool) m : nd m ->
  (forallb f m = true <-> forall k v, lookup k m = Some v -> f (k, v) = true).
Proof.
  intros N. rewrite forallb_forall. split.
  - intros H k v E. apply H, lookup_in, E.
  - intros H [k v] Hi. apply H, in_lookup; assumption.
Qed.

Lemma wfb_spec m : wfb m = true <-> wf m.
Proof.
  unfold wfb. rewrite andb_true_iff, nodupb_spec.
  assert (forall k v, eqb_str (pv_path v) k && properb k = true <-> pv_path v = k /\ proper k) as B.
  { intros k v. rewrite andb_true_iff, eqb_str_eq, properb_spec. tauto. }
  split.
  - intros (N & H). apply wf_intro; [exact N|]. intros k v E. apply B.
    exact (proj1 (forallb_lookup _ m N) H k v E).
  - intros W. split; [apply W|]. apply (forallb_lookup _ m (proj1 W)).
    intros k v E. apply B. exact (wf_lookup m k v W E).
Qed.

Lemma eqb_pv_spec a b : eqb_pv a b = true <-> a = b.
Proof.
  unfold eqb_pv. rewrite !andb_true_iff, !eqb_str_eq, eqb_true_iff, N.eqb_eq. destruct a, b; cbn. split.
  - intros (((-> & ->) & ->) & ->). reflexivity.
  - intros [= -> -> -> ->]. auto.
Qed.

Lemma sameb_same a b : sameb a b = true -> same a b.
Proof.
  unfold sameb. rewrite andb_true_iff, !forallb_forall. intros (H1 & H2) k.
  destruct (lookup k a) as [v|] eqn:Ea.
  - specialize (H1 (k, v) (lookup_in _ _ _ Ea)). cbn in H1. destruct (lookup k b) as [v'|]; [|discriminate].
    apply eqb_pv_spec in H1. congruence.
  - destruct (lookup k b) as [v'|] eqn:Eb; [|reflexivity].
    specialize (H2 (k, v') (lookup_in _ _ _ Eb)). cbn in H2. rewrite Ea in H2. discriminate.
Qed.

Lemma same_sameb a b : nd a -> nd b -> same a b -> sameb a b = true.
Proof.
  intros Na Nb S. unfold sameb. rewrite andb_true_iff, !forallb_forall. split.
  - intros [k v] Hi. rewrite <- S, (in_lookup _ _ _ Na Hi). apply eqb_pv_spec. reflexivity.
  - intros [k v] Hi. rewrite S, (in_lookup _ _ _ Nb Hi). reflexivity.
Qed.

Lemma hiddenb_spec V k : nd V -> (hiddenb V k = true <-> hidden V k).
Proof.
  intros N. replace (hiddenb V k) with (covered V k); [apply covered_hidden, N|]. clear N.
  unfold hiddenb, covered. induction V as [|[t d] V IH]; cbn; [reflexivity | rewrite IH; reflexivity].
Qed.

Lemma hiddenb_false V k : nd V -> (hiddenb V k = false <-> ~ hidden V k).
Proof. intros N. rewrite <- (hiddenb_spec V k N). destruct (hiddenb V k); split; congruence. Qed.

(* the shape of the conditional clauses: "unless deleted, not ..." *)
Lemma or_neg (a b : bool) : a || negb b = true <-> (a = false -> b = false).
Proof. destruct a, b; cbn; intuition congruence. Qed.

Lemma cleanb_spec V : nd V -> (cleanb V = true <-> clean V).
Proof.
  intros N. unfold cleanb, clean. rewrite (forallb_lookup _ V N).
  split; intros H k e E; specialize (H k e E); cbv beta iota in *; rewrite or_neg, (hiddenb_false V k N) in *; exact H.
Qed.

Lemma prunedb_intro V : nd V -> (forall k t, tomb V t -> below k t -> lookup k V = None) -> prunedb V = true.
Proof.
  intros N H. unfold prunedb. apply (forallb_lookup _ V N). intros k v E.
  apply negb_true_iff, (hiddenb_false V k N). intros (t & T1 & T2). rewrite (H k t T1 T2) in E. discriminate.
Qed.

Lemma no_delete_above_updateb_spec c : nd c -> no_delete_above_updateb c = true -> no_delete_above_update c.
Proof.
  intros N H k u E. unfold no_delete_above_updateb in H.
  apply or_neg. exact (proj1 (forallb_lookup _ c N) H k u E).
Qed.

Lemma updates_are_leavesb_spec V c : nd V -> nd c -> updates_are_leavesb V c = true -> updates_are_leaves V c.
Proof.
  intros NV Nc H k u p x E1 D1 E2 D2 Hb. unfold updates_are_leavesb in H.
  pose proof (proj1 (forallb_lookup _ c Nc) H k u E1) as X. cbv beta iota in X. rewrite D1 in X. cbn [orb] in X.
  pose proof (proj1 (forallb_lookup _ V NV) X p x E2) as Y. cbv beta iota in Y.
  apply or_neg in Y; [|exact D2]. unfold below in Hb. congruence.
Qed.

Lemma rollback_wf_hyp i j m vw ch : rollback_wf i j m vw ch = true -> rollback_hyp i j m vw ch.
Proof.
  unfold rollback_wf. rewrite !andb_true_iff.
  intros ((((((((((H1 & H2) & H3) & H4) & H5) & H6) & H7) & H8) & H9) & H10) & H11).
  apply nodupb_spec in H1. apply wfb_spec in H2. apply sameb_same in H3. apply wfb_spec in H5.
  pose proof (proj1 H2) as NV. pose proof (proj1 H5) as Nc.
  constructor; auto.
  - apply cleanb_spec; assumption.
  - apply no_delete_above_updateb_spec; assumption.
  - apply updates_are_leavesb_spec; assumption.
  - intros k u E. unfold stampedb in H8. apply N.eqb_eq.
    exact (proj1 (forallb_lookup _ ch Nc) H8 k u E).
  - intros k e E. unfold olderb in H9. apply N.ltb_lt.
    exact (proj1 (forallb_lookup _ m H1) H9 k e E).
  - apply N.ltb_lt. exact H10.
  - apply N.ltb_lt. exact H11.
Qed.

(** * the theorems on the functions of Model/P2Pure.v *)
(* for every loaded view of the stored maps (same map, any list order; the store's Get gives overlay inline map) *)
Theorem restores_values_any_view ord1 ord2 i j m vw ch vw1 vw2 :
  rollback_wf i j m vw ch = true ->
  let rb := rollback_of vw ch in
  let m1 := commit_merge ord1 i m vw ch in
  nodupb vw1 = true -> sameb vw1 m1 = true ->
  let m2 := commit_merge ord2 j m1 vw1 rb in
  nodupb vw2 = true -> sameb vw2 m2 = true ->
  live vw2 = live vw.
Proof.
  intros H rb m1 N1 S1 m2 N2 S2. apply rollback_wf_hyp in H.
  apply nodupb_spec in N1. apply nodupb_spec in N2. apply sameb_same in S1. apply sameb_same in S2.
  exact (rollback_restores i j ord1 ord2 m vw ch vw1 vw2 H N1 S1 N2 S2).
Qed.

(* as reconcileCommit leaves things: the entry's inline copy is emptied by the commit *)
Theorem restores_values ord1 ord2 i j m vw ch :
  rollback_wf i j m vw ch = true ->
  let rb := rollback_of vw ch in
  let m1 := commit_merge ord1 i m vw ch in
  let vw1 := overlay [] m1 in
  let m2 := commit_merge ord2 j m1 vw1 rb in
  live (overlay [] m2) = live vw /\ live m2 = live vw.
Proof.
  intros H rb m1 vw1 m2. apply rollback_wf_hyp in H. subst vw1 m2.
  destruct (commit_preserves i j ord1 m vw ch H) as ((N1 & _) & _). fold m1 in N1. rewrite (overlay_nil m1 N1).
  destruct (rollback_second_wf i j ord1 ord2 m vw ch m1 H N1 (same_refl m1)) as ((N2 & _) & _). fold rb m1 in N2.
  rewrite (overlay_nil _ N2).
  split; exact (rollback_restores i j ord1 ord2 m vw ch m1 _ H N1 (same_refl m1) N2 (same_refl _)).
Qed.

(* the hypotheses are re-established by the commit (for the next transaction index) *)
Theorem commit_preserves_wf ord i j m vw ch :
  rollback_wf i j m vw ch = true ->
  let m1 := commit_merge ord i m vw ch in
  wfb m1 = true /\ cleanb m1 = true /\ prunedb m1 = true /\ olderb j m1 = true /\
  sameb (overlay [] m1) m1 = true /\ wfb (overlay [] m1) = true /\ cleanb (overlay [] m1) = true.
Proof.
  intros H m1. apply rollback_wf_hyp in H.
  destruct (commit_preserves i j ord m vw ch H) as (W1 & C1 & P1 & I1). fold m1 in W1, C1, P1, I1.
  pose proof (proj1 W1) as N1. rewrite (overlay_nil m1 N1).
  assert (wfb m1 = true) as Wb by (apply wfb_spec; exact W1).
  assert (cleanb m1 = true) as Cb by (apply cleanb_spec; assumption).
  repeat split; try assumption; [apply prunedb_intro; assumption | | apply same_sameb; auto using same_refl].
  unfold olderb. apply (forallb_lookup _ m1 N1). intros k e E. apply N.ltb_lt.
  pose proof (I1 k e E). pose proof (rh_lt _ _ _ _ _ H). lia.
Qed.

(* after the rollback's commit the stored map is well formed and clean again *)
Theorem rollback_commit_preserves_wf ord1 ord2 i j m vw ch :
  rollback_wf i j m vw ch = true ->
  let rb := rollback_of vw ch in
  let m1 := commit_merge ord1 i m vw ch in
  let m2 := commit_merge ord2 j m1 (overlay [] m1) rb in
  wfb m2 = true /\ cleanb m2 = true.
Proof.
  intros H rb m1 m2. apply rollback_wf_hyp in H.
  destruct (commit_preserves i j ord1 m vw ch H) as ((N1 & _) & _). fold m1 in N1.
  subst m2. rewrite (overlay_nil m1 N1).
  destruct (rollback_second_wf i j ord1 ord2 m vw ch m1 H N1 (same_refl m1)) as (W2 & C2). fold rb m1 in W2, C2.
  split; [apply wfb_spec; exact W2 | apply cleanb_spec; [apply W2 | exact C2]].
Qed.

(* the candidate the model plugin validates for the rollback (the loaded view with the rollback values applied by
   applyChangeToConfig in the Go map order [ord]) shows exactly the old view *)
Theorem candidate_restored ord1 ord i j m vw ch :
  rollback_wf i j m vw ch = true ->
  let rb := rollback_of vw ch in
  let m1 := commit_merge ord1 i m vw ch in
  live (candidate_rb (overlay [] m1) (permute ord rb)) = live vw.
Proof.
  intros H rb m1. apply rollback_wf_hyp in H.
  destruct (commit_preserves i j ord1 m vw ch H) as ((N1 & _) & _). fold m1 in N1.
  assert (wf rb) as Wr by (apply rollback_of_spec; apply H). rewrite (overlay_nil m1 N1).
  apply (rollback_candidate i j ord1 m vw ch m1 (permute ord rb) H N1 (same_refl m1)).
  - apply (permute_wf ord rb Wr).
  - apply permute_same. apply Wr.
Qed.

(* ... for any loaded view of the stored map and any list order of the rollback values *)
Theorem candidate_restored_any_view ord1 i j m vw ch vw1 rb' :
  rollback_wf i j m vw ch = true ->
  let rb := rollback_of vw ch in
  let m1 := commit_merge ord1 i m vw ch in
  nodupb vw1 = true -> sameb vw1 m1 = true -> nodupb rb' = true -> sameb rb' rb = true ->
  live (candidate_rb vw1 rb') = live vw.
Proof.
  intros H rb m1 N1 S1 Nr Sr. apply rollback_wf_hyp in H.
  apply nodupb_spec in N1. apply nodupb_spec in Nr. apply sameb_same in S1. apply sameb_same in Sr.
  exact (rollback_candidate i j ord1 m vw ch vw1 rb' H N1 S1 Nr Sr).
Qed.
