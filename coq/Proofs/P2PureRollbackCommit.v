(* C06, value level: reconcileCommit's merge + store write (commit_merge) by lookup, for every iteration order:
   the stored map afterwards is the merged view with everything beneath a tombstone pruned; the merged view holds
   the change's updates, a tombstone at every deleted path and every stored path beneath one, and otherwise the old
   view without the tombstones an update lies beneath. *)
From Coq Require Import List Arith NArith Bool Lia Permutation.
From OC Require Import Base.Bytes Model.P2Pure Proofs.P2PureApplyDefs Proofs.P2PureApplySem Proofs.P2PureApplySound
  Proofs.P2PureRollbackBase Proofs.P2PureRollbackPrune Proofs.P2PureRollbackAdc.
Import ListNotations.
Open Scope N_scope.

(* no live value beneath a tombstone *)
Definition clean (V : cmap) : Prop := forall k e, lookup k V = Some e -> pv_deleted e = false -> ~ hidden V k.
(* no update of the change lies beneath a delete of the same change (the excluded overlap is finding F-14) *)
Definition no_delete_above_update (c : cmap) : Prop :=
  forall k u, lookup k c = Some u -> pv_deleted u = false -> cascb c k = false.

Record commit_hyp (idx : N) (M V c : cmap) : Prop := {
  ch_M : nd M; ch_same : same V M; ch_V : wf V; ch_c : wf c;
  ch_clean : clean V;
  ch_f14 : no_delete_above_update c;
  (* store() skips a path whose stored value has the index of the value to write: then they must be the same value *)
  ch_idx1 : forall k u e, lookup k c = Some u -> lookup k M = Some e -> pv_index u = pv_index e -> u = e;
  ch_idx2 : forall k e, lookup k M = Some e -> pv_index e <> idx }.

(* the merged view, path by path: the change's updates, a tombstone at every deleted path and at every stored path
   beneath one, and otherwise the old view without the tombstones an update lies beneath *)
Record merged (idx : N) (V c st' : cmap) : Prop := {
  mg_wf : wf st';
  mg_at : forall k,
    match lookup k c with
    | Some u => if pv_deleted u
                then exists e, lookup k st' = Some e /\ pv_deleted e = true /\ (e = u \/ pv_index e = idx)
                else lookup k st' = Some u
    | None => match lookup k V with
              | Some x => if cascb c k
                          then exists e, lookup k st' = Some e /\ pv_deleted e = true /\ pv_index e = idx
                          else lookup k st' = if pv_deleted x && dropb c k then None else Some x
              | None => lookup k st' = None
              end
    end }.

(* the stored map afterwards: the merged view with everything beneath a tombstone pruned *)
Record commit_out (idx : N) (V c st' m' : cmap) : Prop := {
  co_merged : merged idx V c st';
  co_wf : wf m';
  co_store : forall k, (hidden st' k -> lookup k m' = None) /\ (~ hidden st' k -> lookup k m' = lookup k st') }.
Arguments co_merged {idx V c st' m'}.
Arguments co_wf {idx V c st' m'}.
Arguments co_store {idx V c st' m'}.

(* beneath a delete of [c]: beneath a tombstone of [c] read as a map *)
Lemma cascb_hidden c k : wf c -> (cascb c k = true <-> hidden c k).
Proof.
  intros (N & K & _). rewrite cascb_spec. split.
  - intros (t & e & H1 & H2 & H3). rewrite (K _ _ H1) in H3. apply (in_lookup _ _ _ N) in H1.
    exists t. split; [exists e; auto | exact H3].
  - intros (t & (e & H1 & H2) & H3). apply lookup_in in H1. exists t, e. rewrite (K _ _ H1). auto.
Qed.

(** * gNMI Set semantics: what a table [r] shows that holds the values [l] over [st] - every value of [l], a tombstone
    for every delete of [l], and elsewhere, except beneath a delete of [l], the values of [st] without the tombstones
    that a live value of [l] lies beneath *)
Section Shows.
  Context (l st r : cmap) (Wl : wf l) (F : no_delete_above_update l) (CL : clean st).
  Context (T : forall k,
    match lookup k l with
    | Some u => if pv_deleted u then tomb r k else lookup k r = Some u
    | None => cascb l k = false ->
              lookup k r = match lookup k st with
                           | Some x => if pv_deleted x && dropb l k then None else Some x
                           | None => None
                           end
    end).

  (* a tombstone of [r] above [k]: a delete of [l] above [k], or a tombstone of [st] that no live value of [l] lies
     beneath *)
  Lemma shows_hidden k : hidden r k ->
    cascb l k = true \/ (hidden st k /\ forall u, lookup k l = Some u -> pv_deleted u = true).
  Proof.
    intros (t & (e & H1 & H2) & H3). pose proof (T t) as A. destruct (lookup t l) as [ut|] eqn:Et.
    - destruct (pv_deleted ut) eqn:Du; [|congruence].
      left. apply (cascb_hidden l k Wl). exists t. split; [exists ut; auto | exact H3].
    - destruct (cascb l t) eqn:Ct; [left; exact (cascb_down l t k Wl Ct H3)|]. rewrite (A eq_refl) in H1.
      destruct (lookup t st) as [x|] eqn:Es; [|discriminate].
      destruct (pv_deleted x && dropb l t) eqn:X; [discriminate|]. injection H1 as ->. rewrite H2 in X. cbn [andb] in X.
      right. split; [exists t; split; [exists e; auto | exact H3]|]. intros u Ec.
      destruct (pv_deleted u) eqn:Du; [reflexivity|]. assert (dropb l t = true) as Y; [|congruence].
      apply dropb_spec. exists k, u. split; [apply lookup_in; exact Ec | auto].
  Qed.

  Lemma shows_upd k u : lookup k l = Some u -> pv_deleted u = false -> ~ hidden r k.
  Proof.
    intros Ec Du Hh. destruct (shows_hidden k Hh) as [X|(_ & X)].
    - rewrite (F k u Ec Du) in X. discriminate.
    - rewrite (X u Ec) in Du. discriminate.
  Qed.

  Theorem table_shows k val :
    vis r k val <->
    (exists u, lookup k l = Some u /\ pv_deleted u = false /\ pv_val u = val) \/
    (lookup k l = None /\ cascb l k = false /\ vis st k val).
  Proof.
    pose proof (T k) as A. split.
    - intros (e & H1 & H2 & H3 & H4). destruct (lookup k l) as [u|]; [destruct (pv_deleted u) eqn:Du|].
      + destruct A as (e' & E1 & E2). congruence.
      + left. exists u. assert (e = u) as -> by congruence. auto.
      + right. split; [reflexivity|]. destruct (cascb l k) eqn:Ck.
        * elim H4. apply (cascb_hidden l k Wl) in Ck. destruct Ck as (d & (ed & D1 & D2) & D3).
          exists d. split; [|exact D3]. pose proof (T d) as Ad. rewrite D1, D2 in Ad. exact Ad.
        * split; [reflexivity|]. rewrite (A eq_refl) in H1. destruct (lookup k st) as [x|] eqn:Es; [|discriminate].
          destruct (_ && _); [discriminate|]. injection H1 as ->. exists e. repeat split; auto. exact (CL k e Es H2).
    - intros [(u & E1 & E2 & E3)|(E1 & E2 & (e & E3 & E4 & E5 & E6))].
      + rewrite E1, E2 in A. exists u. repeat split; auto. exact (shows_upd k u E1 E2).
      + rewrite E1 in A. specialize (A E2). rewrite E3, E4 in A. exists e. split; [exact A|]. repeat split; auto.
        intros Hh. destruct (shows_hidden k Hh) as [X|(X & _)]; [congruence | exact (E6 X)].
  Qed.
End Shows.

(* the loop of applyChangeToConfig *)
Lemma act_fold_shows l st : wf l -> wf st -> no_delete_above_update l -> clean st -> forall k val,
  vis (act_fold l st) k val <->
  (exists u, lookup k l = Some u /\ pv_deleted u = false /\ pv_val u = val) \/
  (lookup k l = None /\ cascb l k = false /\ vis st k val).
Proof.
  intros Wl Ws F CL. apply table_shows; [exact Wl | exact F | exact CL |].
  assert (NoTombAbove l) as NC.
  { intros p u t e I1 D1 I2 D2. apply not_true_is_false. intros X. apply (in_lookup _ _ _ (proj1 Wl)) in I1, I2.
    pose proof (F p u I1 D1) as Y. rewrite (proj2 (cascb_hidden l p Wl)) in Y; [discriminate|].
    exists t. split; [exists e; auto | exact X]. }
  intros k. pose proof (act_fold_lookup l st k (proj1 (wf_WF st) Ws) (proj1 Wl) (proj2 (proj1 (wf_WF l) Wl)) NC) as L.
  destruct (lookup k l) as [u|]; [destruct (pv_deleted u) eqn:D; [exists u; auto | exact L] | intros _; exact L].
Qed.

Lemma cascb_same a b p : nd a -> nd b -> same a b -> cascb a p = cascb b p.
Proof.
  intros Na Nb S. apply eq_true_iff_eq. rewrite !cascb_spec.
  split; intros (k & cv & H1 & R); exists k, cv; (split; [|exact R]); apply lookup_in.
  - rewrite <- S. apply in_lookup; assumption.
  - rewrite S. apply in_lookup; assumption.
Qed.

(** * what the merged view shows, and what store() makes of it *)
Section MergedView.
  Context (idx : N) (M V c st' : cmap) (CH : commit_hyp idx M V c) (MG : merged idx V c st').

  Lemma st_origin k e : lookup k st' = Some e -> lookup k c = Some e \/ pv_index e = idx \/ lookup k V = Some e.
  Proof.
    intros E. pose proof (mg_at _ _ _ _ MG k) as A. rewrite E in A.
    destruct (lookup k c) as [u|]; [destruct (pv_deleted u)|].
    - destruct A as (e' & [= <-] & _ & [->|A]); auto.
    - left. congruence.
    - destruct (lookup k V) as [x|]; [|discriminate].
      destruct (cascb c k); [destruct A as (e' & [= <-] & _ & A); auto|].
      destruct (_ && _); [discriminate | right; right; congruence].
  Qed.

  Lemma mg_table k :
    match lookup k c with
    | Some u => if pv_deleted u then tomb st' k else lookup k st' = Some u
    | None => cascb c k = false ->
              lookup k st' = match lookup k V with
                             | Some x => if pv_deleted x && dropb c k then None else Some x
                             | None => None
                             end
    end.
  Proof.
    pose proof (mg_at _ _ _ _ MG k) as A. destruct (lookup k c) as [u|].
    - destruct (pv_deleted u); [destruct A as (e & E1 & E2 & _); exists e; auto | exact A].
    - intros Ck. destruct (lookup k V) as [x|]; [rewrite Ck in A|]; exact A.
  Qed.

  Theorem commit_shows k val :
    vis st' k val <->
    (exists u, lookup k c = Some u /\ pv_deleted u = false /\ pv_val u = val) \/
    (lookup k c = None /\ cascb c k = false /\ vis V k val).
  Proof. exact (table_shows c V st' (ch_c _ _ _ _ CH) (ch_f14 _ _ _ _ CH) (ch_clean _ _ _ _ CH) mg_table k val). Qed.

  Lemma store_merged :
    wf (store_write M st') /\
    forall k, (hidden st' k -> lookup k (store_write M st') = None) /\
              (~ hidden st' k -> lookup k (store_write M st') = lookup k st').
  Proof.
    pose proof CH as [NM SVM WV Wc CL F14 IX1 IX2]. pose proof (mg_wf _ _ _ _ MG) as Wst.
    destruct (store_write_spec M st' (proj1 (wf_WF st') Wst) (proj1 (wf_WF M) (same_wf V M SVM NM WV))) as (Wm & Lm).
    split; [apply wf_WF; exact Wm|]. intros k. rewrite Lm, <- (covered_hidden st' k (proj1 Wst)). unfold sw_val.
    destruct (lookup k st') as [v|] eqn:Ek.
    - destruct (covered st' k); [split; [reflexivity | congruence]|]. split; [discriminate|]. intros _.
      destruct (lookup k M) as [e|] eqn:EM; [|reflexivity].
      destruct (pv_index v =? pv_index e) eqn:EI; [|reflexivity]. apply N.eqb_eq in EI. f_equal.
      (* same index: same value *)
      destruct (st_origin k v Ek) as [Ev|[Ev|Ev]].
      + symmetry. exact (IX1 k v e Ev EM EI).
      + elim (IX2 k e EM). congruence.
      + rewrite SVM in Ev. congruence.
    - destruct (lookup k M) as [e|] eqn:EM; [|split; reflexivity].
      assert (tombb (Some e) && clrb M st' st' k = true) as ->; [|split; reflexivity].
      (* the view lost the stored tombstone at [k] to a live update beneath it: store() clears it for that update *)
      rewrite <- SVM in EM. pose proof (mg_at _ _ _ _ MG k) as A. rewrite Ek, EM in A.
      destruct (lookup k c) as [u|]; [destruct (pv_deleted u); [destruct A as (? & ? & _)|]; discriminate|].
      destruct (cascb c k); [destruct A as (? & ? & _); discriminate|]. cbn [tombb].
      destruct (pv_deleted e) eqn:De; [|discriminate]. destruct (dropb c k) eqn:LB; [|discriminate].
      apply dropb_spec in LB. destruct LB as (p & u & H1 & H2 & H3). apply (in_lookup _ _ _ (proj1 Wc)) in H1.
      pose proof (mg_at _ _ _ _ MG p) as Hst. rewrite H1, H2 in Hst.
      apply existsb_exists. exists (p, u). split; [apply lookup_in; exact Hst|]. cbn [fst snd].
      unfold below in H3. rewrite H2, H3, !andb_true_r. unfold written.
      rewrite (proj2 (covered_false st' p (proj1 Wst)) (shows_upd c V st' Wc F14 mg_table p u H1 H2)).
      destruct (lookup p M) as [e'|] eqn:EM'; [|reflexivity]. apply negb_true_iff, N.eqb_neq. intros EI.
      pose proof (IX1 _ _ _ H1 EM' EI) as ->. rewrite <- SVM in EM'.
      apply (CL p e' EM' H2). exists k. split; [exists e; auto | exact H3].
  Qed.
End MergedView.

(** * the merge: AddDeleteChildren, then applyChangeToConfig over the updated change values, in any two orders *)
(* the change is well formed in the sense of Proofs/P2PureApplySem.v *)
Lemma wf_WFC c : wf c -> no_delete_above_update c -> WFC c.
Proof.
  intros W F. split; [apply wf_WF; exact W|]. intros k v kd d H1 H2 H3 H4 Hb.
  assert (cascb c k = true) as X by (apply (cascb_Below c k W); eauto).
  rewrite (F k v (in_lookup _ _ _ (proj1 W) H1) H2) in X. discriminate.
Qed.

Lemma WFC_no_delete_above_update c : WFC c -> no_delete_above_update c.
Proof.
  intros [W H] k u Hk Hlv. apply not_true_is_false. intros E.
  apply (cascb_Below c k (proj2 (wf_WF c) W)) in E. destruct E as (kd & cv & H1 & H2 & H3).
  exact (H k u kd cv (lookup_in _ _ _ Hk) Hlv H1 H2 H3).
Qed.

Lemma in_paths V k : wf V -> (In k (paths V) <-> exists x, lookup k V = Some x).
Proof.
  intros (N & K & _). unfold paths. rewrite in_map_iff. split.
  - intros ([k' x] & <- & Hi). exists x. cbn. rewrite (K _ _ Hi). apply in_lookup; assumption.
  - intros (x & E). apply lookup_in in E. exists (k, x). split; [exact (K k x E) | exact E].
Qed.

Lemma merge_spec ord idx M V c : commit_hyp idx M V c ->
  exists st', commit_merge ord idx M V c = store_write M st' /\ merged idx V c st'.
Proof.
  intros [NM SVM WV Wc CL F14 IX1 IX2]. unfold commit_merge. pose proof (wf_WFC c Wc F14) as WC.
  pose proof (upd_spec_permuted ord idx c V WC) as A. pose proof (adc_snd idx (permute ord c) V) as ES.
  rewrite (markmap_perm idx _ c V (permute_perm ord c)) in ES.
  destruct (add_delete_children idx (permute ord c) V) as [U S]. cbn [fst snd] in A, ES. subst S.
  set (U' := permute (rest_code (length c) ord) U). exists (act_fold U' (markmap idx c V)). split; [reflexivity|].
  pose proof (permute_perm (rest_code (length c) ord) U) as PU. fold U' in PU.
  assert (WF (markmap idx c V)) as WS by (apply wf_WF, markmap_wf, WV).
  pose proof (Xc_lookup idx _ V c U U' WS WC A PU) as L. pose proof A as [A1 A2 A3 A4 A5].
  (* the live values of the loop are the updates of the change *)
  assert (forall k, dropb U k = dropb c k) as LB.
  { intros k. apply eq_true_iff_eq. rewrite !dropb_spec.
    split; intros (p & u & H1 & H2 & H3); exists p, u; (split; [|auto]).
    - exact (upd_live idx c V U p u A (in_lookup _ _ _ A1 H1) H2).
    - apply lookup_in, A2; assumption. }
  constructor; [apply wf_WF; exact (Xc_WF idx _ V c U U' WS WC A PU)|]. intros k. rewrite L.
  destruct (lookup k c) as [u|] eqn:Ec; [destruct (pv_deleted u) eqn:D|].
  - destruct (A3 k u (lookup_in _ _ _ Ec) D) as (v & Ev & Dv & _). rewrite Ev. exists v.
    split; [reflexivity|]. split; [exact Dv|]. destruct (A4 k v Ev) as [Hin|(_ & _ & Hi & _)]; [left | right; exact Hi].
    apply (in_lookup _ _ _ (proj1 Wc)) in Hin. congruence.
  - rewrite (A2 k u (lookup_in _ _ _ Ec) D). reflexivity.
  - (* the loop holds [k] only as a tombstone of the cascade *)
    assert (cascb c k = false \/ lookup k V = None -> lookup k U = None) as EU.
    { intros Hn. destruct (lookup k U) as [e|] eqn:Ee; [|reflexivity]. exfalso.
      destruct (A4 k e Ee) as [Hin|(_ & _ & _ & Pk & Cas)]; [apply (in_lookup _ _ _ (proj1 Wc)) in Hin; congruence|].
      apply (cascb_Below c k Wc) in Cas. apply (in_paths V k WV) in Pk. destruct Pk, Hn; congruence. }
    rewrite markmap_lookup, LB. destruct (lookup k V) as [x|] eqn:EV; cbn [option_map]; [destruct (cascb c k) eqn:Cas|].
    + destruct (proj1 (cascb_Below c k Wc) Cas) as (kc & cv & D1 & D2 & D3).
      pose proof (A5 k kc cv (proj2 (in_paths V k WV) (ex_intro _ x EV)) D1 D2 D3) as Hn.
      destruct (lookup k U) as [e|] eqn:Ee; [|congruence]. exists e. split; [reflexivity|].
      destruct (A4 k e Ee) as [Hin|(_ & De & Hi & _)]; [|auto]. apply (in_lookup _ _ _ (proj1 Wc)) in Hin. congruence.
    + rewrite (EU (or_introl eq_refl)). unfold markif. rewrite (proj1 (wf_lookup V k x WV EV)), Cas. reflexivity.
    + rewrite (EU (or_intror eq_refl)). reflexivity.
Qed.

Theorem commit_spec ord idx M V c : commit_hyp idx M V c ->
  exists st', commit_out idx V c st' (commit_merge ord idx M V c).
Proof.
  intros H. destruct (merge_spec ord idx M V c H) as (st' & -> & G). exists st'.
  destruct (store_merged idx M V c st' H G) as (W & S). constructor; assumption.
Qed.
