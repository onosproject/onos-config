(* C06, value level (Prop-level core): committing the rollback values recorded at validation undoes the commit of the
   change, for every iteration order of every loop; the rollback's candidate shows the restored configuration. *)
From Coq Require Import List Arith NArith Bool Lia Permutation.
From OC Require Import Base.Bytes Model.P2Pure Proofs.P2PureApplySem Proofs.P2PureRollbackBase Proofs.P2PureRollbackPrune
  Proofs.P2PureRollbackAdc Proofs.P2PureRollbackCommit Proofs.P2PureRollbackRb.
Import ListNotations.
Open Scope N_scope.

(** * what the stored map shows after a commit *)
Section Commit.
  Context (idx : N) (V c st' m' : cmap) (O : commit_out idx V c st' m').

  Lemma co_some k e : lookup k m' = Some e -> lookup k st' = Some e /\ ~ hidden st' k.
  Proof.
    intros E. destruct (co_store O k) as (S1 & S2).
    assert (~ hidden st' k) as Nh by (intros Hh; rewrite (S1 Hh) in E; discriminate).
    split; [rewrite <- (S2 Nh); exact E | exact Nh].
  Qed.

  Lemma co_hidden k : hidden m' k -> hidden st' k.
  Proof.
    intros (t & (e & H1 & H2) & H3). exists t. split; [|exact H3]. exists e. split; [apply co_some; exact H1 | exact H2].
  Qed.

  Lemma co_vis k val : vis m' k val <-> vis st' k val.
  Proof.
    split.
    - intros (e & H1 & H2 & H3 & H4). apply co_some in H1. destruct H1 as (H1 & Nh). exists e. auto.
    - intros (e & H1 & H2 & H3 & H4). exists e. destruct (co_store O k) as (_ & S2).
      rewrite (S2 H4). repeat split; auto. intros Hh. apply H4. apply co_hidden. exact Hh.
  Qed.

  Lemma co_clean : clean m'.
  Proof.
    intros k e H1 _ Hh. apply co_some in H1. destruct H1 as (_ & Nh). apply Nh. apply co_hidden. exact Hh.
  Qed.
End Commit.

(** * the rollback *)
(* an updated path has no live value beneath it (values live at leaves) *)
Definition updates_are_leaves (V c : cmap) : Prop :=
  forall k u p x, lookup k c = Some u -> pv_deleted u = false -> lookup p V = Some x -> pv_deleted x = false -> ~ below p k.
Record rollback_hyp (i j : N) (M V c : cmap) : Prop := {
  rh_M : nd M; rh_same : same V M; rh_V : wf V; rh_c : wf c;
  rh_clean : clean V;
  rh_f14 : no_delete_above_update c;
  rh_leaves : updates_are_leaves V c;
  rh_stamped : forall k u, lookup k c = Some u -> pv_index u = i;
  rh_older : forall k e, lookup k M = Some e -> pv_index e < i;
  rh_pos : 0 < i; rh_lt : i < j }.

Lemma rollback_commit_hyp i j M V c : rollback_hyp i j M V c -> commit_hyp i M V c.
Proof.
  intros [NM S WV Wc CL F L St Ol P Lt]. constructor; auto.
  - intros k u e H1 H2 H3. pose proof (St _ _ H1). pose proof (Ol _ _ H2). lia.
  - intros k e H1. pose proof (Ol _ _ H1). lia.
Qed.

(* the recorded rollback values, in any list order, against the old view *)
Section Recorded.
  Context {i j : N} {M V c rb : cmap} (RH : rollback_hyp i j M V c) (R : rb_out V c rb).

  (* a tombstone of the rollback values does not cover a live value of the old view *)
  Lemma rb_tomb_not_above k e d rd :
    lookup k V = Some e -> pv_deleted e = false -> lookup d rb = Some rd -> pv_deleted rd = true -> ~ below k d.
  Proof.
    intros H1 H2 H3 H4 Hb. destruct (ro_from _ _ _ R d rd H3) as [E|(E1 & E2 & u & E3 & E4)].
    - apply (rh_clean _ _ _ _ _ RH k e H1 H2). exists d. split; [exists rd; auto | exact Hb].
    - apply (rh_leaves _ _ _ _ _ RH d u k e E3 E4 H1 H2 Hb).
  Qed.

  Lemma rb_not_cascaded k e : lookup k V = Some e -> pv_deleted e = false -> cascb rb k = false.
  Proof.
    intros H1 H2. apply not_true_is_false. intros X. apply (cascb_hidden rb k (ro_wf _ _ _ R)) in X.
    destruct X as (d & (rd & X1 & X2) & X3). exact (rb_tomb_not_above k e d rd H1 H2 X1 X2 X3).
  Qed.

  Lemma rb_live k r : lookup k rb = Some r -> pv_deleted r = false -> lookup k V = Some r.
  Proof.
    intros H1 H2. destruct (ro_from _ _ _ R k r H1) as [E|(_ & -> & _)]; [exact E | discriminate].
  Qed.

  Lemma rb_f14 : no_delete_above_update rb.
  Proof. intros k r E1 E2. exact (rb_not_cascaded k r (rb_live k r E1 E2) E2). Qed.

  (* a live value of the old view that the rollback values do not name was not touched by the change *)
  Lemma rb_untouched k e : lookup k V = Some e -> pv_deleted e = false -> lookup k rb = None ->
    lookup k c = None /\ cascb c k = false.
  Proof.
    intros E1 E2 E3. apply lookup_none in E3. split.
    - destruct (lookup k c) as [u|] eqn:Ec; [|reflexivity]. elim E3.
      apply (ro_change _ _ _ R k u Ec). right. congruence.
    - apply not_true_is_false. intros Ecas. apply E3. eapply (ro_kids _ _ _ R); eauto.
  Qed.
End Recorded.

Section Rollback.
  Context (i j ord1 ord2 : N) (M V c V1 : cmap) (RH : rollback_hyp i j M V c).
  Let rb := rollback_of V c.
  Let m1 := commit_merge ord1 i M V c.
  Context (NV1 : nd V1) (SV1 : same V1 m1).
  Let m2 := commit_merge ord2 j m1 V1 rb.

  Lemma rb_facts : rb_out V c rb.
  Proof. apply rollback_of_spec; apply RH. Qed.

  Section WithFirst.
    Context (st1 : cmap) (O1 : commit_out i V c st1 m1).
    Let H1 := rollback_commit_hyp i j M V c RH.

    Lemma m1_origin k e : lookup k m1 = Some e -> pv_index e = i \/ lookup k V = Some e.
    Proof.
      intros E. apply (co_some _ _ _ _ _ O1) in E.
      destruct (st_origin i V c st1 (co_merged O1) k e (proj1 E)) as [X|[X|X]]; auto.
      left. exact (rh_stamped _ _ _ _ _ RH k e X).
    Qed.

    Lemma m1_index k e : lookup k m1 = Some e -> pv_index e <= i.
    Proof.
      intros E. destruct (m1_origin k e E) as [Ei|Ev]; [lia|].
      rewrite (rh_same _ _ _ _ _ RH) in Ev. pose proof (rh_older _ _ _ _ _ RH _ _ Ev). lia.
    Qed.

    Lemma wf_V1 : wf V1.
    Proof. exact (same_wf m1 V1 (same_sym _ _ SV1) NV1 (co_wf O1)). Qed.

    Lemma clean_V1 : clean V1.
    Proof.
      intros k e E1 E2 Hh. rewrite SV1 in E1. apply (co_clean _ _ _ _ _ O1 k e E1 E2). eapply same_hidden; eauto.
    Qed.

    Lemma second_hyp : commit_hyp j m1 V1 rb.
    Proof.
      constructor.
      - apply (co_wf O1).
      - exact SV1.
      - exact wf_V1.
      - apply rb_facts.
      - exact clean_V1.
      - exact (rb_f14 RH rb_facts).
      - intros k r e E1 E2 E3. destruct (ro_from _ _ _ rb_facts k r E1) as [E|(E4 & -> & _)].
        + destruct (m1_origin k e E2) as [Ei|Ev]; [|congruence].
          rewrite (rh_same _ _ _ _ _ RH) in E. pose proof (rh_older _ _ _ _ _ RH _ _ E). lia.
        + destruct (m1_origin k e E2) as [Ei|Ev]; [|congruence]. cbn in E3. pose proof (rh_pos _ _ _ _ _ RH). lia.
      - intros k e E. pose proof (rh_lt _ _ _ _ _ RH). pose proof (m1_index k e E). lia.
    Qed.

    Lemma first_shows k val :
      vis V1 k val <->
      (exists u, lookup k c = Some u /\ pv_deleted u = false /\ pv_val u = val) \/
      (lookup k c = None /\ cascb c k = false /\ vis V k val).
    Proof.
      rewrite <- (commit_shows i M V c st1 H1 (co_merged O1) k val), <- (co_vis _ _ _ _ _ O1 k val).
      split; apply same_vis; [exact SV1 | apply same_sym; exact SV1].
    Qed.

    Lemma untouched k e : lookup k V = Some e -> pv_deleted e = false -> lookup k rb = None ->
      lookup k c = None /\ cascb c k = false.
    Proof. exact (rb_untouched rb_facts k e). Qed.

    (* what the old view shows, read off the rollback values [rb'] (in any list order) and the view after the change *)
    Lemma old_view_shows rb' k val : rb_out V c rb' ->
      vis V k val <->
      (exists r, lookup k rb' = Some r /\ pv_deleted r = false /\ pv_val r = val) \/
      (lookup k rb' = None /\ cascb rb' k = false /\ vis V1 k val).
    Proof.
      intros R. split.
      - intros (e & E1 & E2 & E3 & E4). destruct (lookup k rb') as [r|] eqn:Er.
        + left. destruct (ro_from _ _ _ R k r Er) as [E|(E & _)]; [|congruence].
          assert (r = e) as -> by congruence. eauto.
        + right. split; [reflexivity|]. split; [exact (rb_not_cascaded RH R k e E1 E2)|]. apply first_shows. right.
          destruct (rb_untouched R k e E1 E2 Er) as (U1 & U2). split; [exact U1|]. split; [exact U2|]. exists e. auto.
      - intros [(r & E1 & E2 & E3)|(E1 & E2 & E3)].
        + pose proof (rb_live R k r E1 E2) as Ev. exists r. repeat split; auto. apply (rh_clean _ _ _ _ _ RH k r Ev E2).
        + apply first_shows in E3. destruct E3 as [(u & F1 & F2 & _)|(_ & _ & F3)]; [|exact F3].
          elim (proj1 (lookup_none _ _) E1). apply (ro_change _ _ _ R k u F1). auto.
    Qed.

    Section WithSecond.
      Context (st2 : cmap) (O2 : commit_out j V1 rb st2 m2).

      Theorem rollback_restores_vis k val : vis m2 k val <-> vis V k val.
      Proof.
        rewrite (co_vis _ _ _ _ _ O2 k val), (commit_shows j m1 V1 rb st2 second_hyp (co_merged O2) k val).
        symmetry. apply old_view_shows, rb_facts.
      Qed.

      Theorem rollback_restores_live V2 : nd V2 -> same V2 m2 -> live V2 = live V.
      Proof.
        intros N2 S2. pose proof (co_wf O2) as W2.
        rewrite <- (live_same m2 V2 W2 N2 (same_sym _ _ S2)).
        apply live_ext; [exact W2 | apply RH|]. apply rollback_restores_vis.
      Qed.
    End WithSecond.

    (** * the candidate the plugin validates for the rollback (repaired by 3342112, finding F-24): the rollback values
        are applied to the loaded view with applyChangeToConfig, in any order [rb'] of the Go map *)
    Section Candidate.
      Context (rb' : cmap) (R : rb_out V c rb').

      Lemma candidate_wf : wf (candidate_rb V1 rb').
      Proof.
        apply wf_WF, (act_fold_WF rb' V1); [apply wf_WF, wf_V1 | apply wf_WF, R].
      Qed.

      Theorem candidate_shows k val : vis (candidate_rb V1 rb') k val <-> vis V k val.
      Proof.
        change (candidate_rb V1 rb') with (act_fold rb' V1).
        rewrite (act_fold_shows rb' V1 (ro_wf _ _ _ R) wf_V1 (rb_f14 RH R) clean_V1). symmetry. apply old_view_shows, R.
      Qed.
    End Candidate.
  End WithFirst.
End Rollback.

Theorem rollback_restores i j ord1 ord2 M V c V1 V2 :
  rollback_hyp i j M V c ->
  let rb := rollback_of V c in
  let m1 := commit_merge ord1 i M V c in
  nd V1 -> same V1 m1 ->
  let m2 := commit_merge ord2 j m1 V1 rb in
  nd V2 -> same V2 m2 ->
  live V2 = live V.
Proof.
  intros RH rb m1 N1 S1 m2 N2 S2.
  destruct (commit_spec ord1 i M V c (rollback_commit_hyp i j M V c RH)) as (st1 & O1).
  destruct (commit_spec ord2 j m1 V1 rb (second_hyp i j ord1 M V c V1 RH N1 S1 st1 O1)) as (st2 & O2).
  exact (rollback_restores_live i j ord1 ord2 M V c V1 RH N1 S1 st1 O1 st2 O2 V2 N2 S2).
Qed.

(* the first commit re-establishes what the second one needs: the stored map is well formed, holds nothing beneath a
   tombstone, and its indexes are at most i *)
Theorem commit_preserves i j ord M V c :
  rollback_hyp i j M V c ->
  let m1 := commit_merge ord i M V c in
  wf m1 /\ clean m1 /\ (forall k t, tomb m1 t -> below k t -> lookup k m1 = None) /\
  forall k e, lookup k m1 = Some e -> pv_index e <= i.
Proof.
  intros RH m1. destruct (commit_spec ord i M V c (rollback_commit_hyp i j M V c RH)) as (st1 & O1). fold m1 in O1.
  split; [exact (co_wf O1)|]. split; [eapply co_clean; eauto|]. split.
  - intros k t Ht Hb. destruct (lookup k m1) as [e|] eqn:E; [|reflexivity]. exfalso.
    apply (co_some _ _ _ _ _ O1) in E. destruct E as (_ & Nh). apply Nh. apply (co_hidden _ _ _ _ _ O1).
    exists t. auto.
  - exact (m1_index i j ord M V c RH st1 O1).
Qed.

(* any other iteration order of the same rollback values *)
Lemma rb_out_same V c rb rb' : rb_out V c rb -> nd rb' -> same rb' rb -> rb_out V c rb'.
Proof.
  intros [(Nr & Kr & Pr) R2 R3 R4] N S. constructor.
  - exact (same_wf rb rb' (same_sym _ _ S) N (conj Nr (conj Kr Pr))).
  - intros k r E. rewrite S in E. auto.
  - intros k u E1 E2. destruct (key_lookup _ _ (R3 k u E1 E2)) as (r & Er). rewrite <- S in Er. eapply lookup_some_key; eauto.
  - intros k x E1 E2 E3. destruct (key_lookup _ _ (R4 k x E1 E2 E3)) as (r & Er). rewrite <- S in Er. eapply lookup_some_key; eauto.
Qed.

(* the candidate validated for the rollback shows exactly the old view: the verdict is taken on the configuration the
   rollback restores *)
Theorem rollback_candidate i j ord1 M V c V1 rb' :
  rollback_hyp i j M V c ->
  let rb := rollback_of V c in
  let m1 := commit_merge ord1 i M V c in
  nd V1 -> same V1 m1 -> nd rb' -> same rb' rb ->
  live (candidate_rb V1 rb') = live V.
Proof.
  intros RH rb m1 N1 S1 Nr Sr.
  destruct (commit_spec ord1 i M V c (rollback_commit_hyp i j M V c RH)) as (st1 & O1).
  assert (rb_out V c rb') as R.
  { eapply rb_out_same; [apply rollback_of_spec; apply RH | exact Nr | exact Sr]. }
  apply live_ext; [exact (candidate_wf i ord1 M V c V1 N1 S1 st1 O1 rb' R) | apply RH|].
  apply (candidate_shows i j ord1 M V c V1 RH N1 S1 st1 O1 rb' R).
Qed.

(* the stored map after the rollback's commit is well formed again *)
Theorem rollback_second_wf i j ord1 ord2 M V c V1 :
  rollback_hyp i j M V c ->
  let rb := rollback_of V c in
  let m1 := commit_merge ord1 i M V c in
  nd V1 -> same V1 m1 ->
  wf (commit_merge ord2 j m1 V1 rb) /\ clean (commit_merge ord2 j m1 V1 rb).
Proof.
  intros RH rb m1 N1 S1.
  destruct (commit_spec ord1 i M V c (rollback_commit_hyp i j M V c RH)) as (st1 & O1).
  pose proof (second_hyp i j ord1 M V c V1 RH N1 S1 st1 O1) as H2.
  destruct (commit_spec ord2 j m1 V1 rb H2) as (st2 & O2).
  split; [exact (co_wf O2) | eapply co_clean; eauto].
Qed.
