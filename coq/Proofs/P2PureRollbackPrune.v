(* C06, value level: what a map shows (tombstones, hidden paths, visible values); two maps that show the same live
   values have the same [live] list. *)
From Coq Require Import List Arith NArith Bool Lia Permutation.
From OC Require Import Base.Bytes Model.P2Pure Proofs.P2PureApplyDefs Proofs.P2PureApplySem Proofs.P2PureRollbackBase.
Import ListNotations.
Open Scope N_scope.

(** * what a map shows *)
Definition tomb (m : cmap) (t : str) : Prop := exists e, lookup t m = Some e /\ pv_deleted e = true.
Definition hidden (m : cmap) (k : str) : Prop := exists t, tomb m t /\ below k t.
Definition vis (m : cmap) (k val : str) : Prop :=
  exists e, lookup k m = Some e /\ pv_deleted e = false /\ pv_val e = val /\ ~ hidden m k.

Lemma same_tomb a b t : same a b -> tomb a t -> tomb b t.
Proof. intros S (e & H1 & H2). exists e. rewrite <- S. auto. Qed.
Lemma same_hidden a b k : same a b -> hidden a k -> hidden b k.
Proof. intros S (t & H1 & H2). exists t. split; [eapply same_tomb; eauto | exact H2]. Qed.
Lemma same_vis a b k val : same a b -> vis a k val -> vis b k val.
Proof.
  intros S (e & H1 & H2 & H3 & H4). exists e. rewrite <- S. repeat split; auto.
  intros H. apply H4. eapply same_hidden; [apply same_sym; exact S | exact H].
Qed.

(* PrunePathValues / live speak of [covered] (Proofs/P2PureApplyDefs.v) and [lvp] (Proofs/P2PureApplySem.v) *)
Lemma covered_hidden m k : nd m -> (covered m k = true <-> hidden m k).
Proof.
  intros N. rewrite covered_spec. unfold hidden, tomb, below. split.
  - intros (t & e & H1 & H2 & H3). exists t. split; [exists e; split; [apply in_lookup; assumption | exact H2] | exact H3].
  - intros (t & (e & H1 & H2) & H3). exists t, e. split; [apply lookup_in; exact H1 | auto].
Qed.

Lemma covered_false m k : nd m -> (covered m k = false <-> ~ hidden m k).
Proof. intros N. rewrite <- (covered_hidden m k N). symmetry. apply not_true_iff_false. Qed.

Lemma vis_lvp m k val : nd m -> (vis m k val <-> lvp m k val).
Proof.
  intros N. unfold vis, lvp. split; intros (e & H1 & H2 & H3 & H4); exists e; repeat split; auto;
    apply (covered_false m k N); exact H4.
Qed.

Theorem live_ext m m' : wf m -> wf m' -> (forall k val, vis m k val <-> vis m' k val) -> live m = live m'.
Proof.
  intros W W' H. apply P2PureApplySem.live_ext; [apply wf_WF; exact W | apply wf_WF; exact W'|].
  intros k val. rewrite <- (vis_lvp m k val (proj1 W)), <- (vis_lvp m' k val (proj1 W')). apply H.
Qed.

Corollary live_same m m' : wf m -> nd m' -> same m m' -> live m = live m'.
Proof.
  intros W N S. pose proof (same_wf m m' S N W) as W'.
  apply live_ext; [assumption | assumption|]. intros k val. split; apply same_vis; [exact S | apply same_sym; exact S].
Qed.
