(* C06, run level: the hypothesis [quiet] of rollback_restores_run (no commit step of a proposal of the target between the
   commit of the change and the commit of its rollback - a statement about EVERY intermediate world) is DERIVED from the
   run, from one field of one record: the rollback proposal directly follows the change in the target's chain
   (p_prev R = i).

     - commit_step_moves: a complete commit step of a proposal of t on top of its predecessor, from a reachable world,
       moves Committed.Index of t to a strictly larger value (commit_cfg + links_ordered + prop_index_pos);
     - committed_mono_run: Committed.Index of a target never decreases along any list of steps (cursors_monotone lifted);
     - quiet_from_cursor: a run of complete invocations from a reachable world at whose two ends Committed.Index of t
       is the same holds no commit step of t;
     - rollback_restores_run_prev: rollback_restores_run with [quiet] replaced by [p_prev R = i]. *)
From stdpp Require Import gmap.
From OC Require Import Model.P2Pure Model.Proto2 Model.P2Inst Proofs.P2Base Proofs.P2_Cursor Proofs.P2_CursorInv
     Proofs.P2_CursorChainInv Proofs.P2_ConvergeEx.
From OC Require Import Proofs.P2PureRollbackBool Proofs.P2PureApplyInst Proofs.P2PureReachRun Proofs.P2PureReachLabels
     Proofs.P2PureAtomicCommit Proofs.P2PureAtomicAll Proofs.P2PureRollbackRun.
Open Scope N_scope.

Local Opaque restore record_applied commit_merge touched overlay rollback_of candidate candidate_rb payload resync_payload stamp doc_ok.

Local Notation "'inst' f" := (f candidate candidate_rb rollback_of overlay commit_merge payload record_applied touched restore
                                resync_payload doc_ok dev_apply stamp nil nil nil) (at level 10, f at level 9, only parsing).

Notation i_committed_of := (@committed_of cmap cmap req dstate).

(** * Committed.Index never decreases along a list of steps *)
Lemma reach_fold (ls : list Label) : forall w : Wd, i_reach w -> i_reach (fold_left p2_step ls w).
Proof.
  induction ls as [|l ls IH]; intros w Hr; [exact Hr|]. cbn [fold_left]. apply IH. exact (inst reach_step w l Hr).
Qed.

Lemma committed_mono_run (t : N) (ls : list Label) : forall w : Wd,
  i_reach w -> i_committed_of w t <= i_committed_of (fold_left p2_step ls w) t.
Proof.
  induction ls as [|l ls IH]; intros w Hr; [cbn; lia|]. cbn [fold_left].
  pose proof (proj1 (inst cursors_monotone w l t Hr)) as H1.
  pose proof (IH (p2_step w l) (inst reach_step w l Hr)) as H2.
  unfold p2_step in *. lia.
Qed.

(** * A complete commit step moves Committed.Index strictly upwards *)
Lemma commit_step_moves (t : N) (w : Wd) (l : Label) :
  i_reach w -> i_complete w l -> commit_step_of t w l -> i_committed_of w t < i_committed_of (p2_step w l) t.
Proof.
  intros Hr Hc (i & n & o & P & C & -> & HP & HC & Ec & Ea & Eb & Hcm).
  pose proof (commit_two o w t i n P C HP HC Ec Ea Eb Hcm Hc) as Hn.
  destruct (cfg_step_some w (LRec (CtlProp (t, i)) n o) t C HC) as (C1 & HC1).
  pose proof (commit_cfg o w t i n P C C1 HP HC Ec Ea Eb Hcm Hn HC1) as E1.
  unfold committed_of. rewrite HC, HC1, E1. cbn. rewrite Hcm.
  pose proof (inst prop_index_pos w t i P Hr HP) as Hpos.
  destruct (proj1 (inst links_ordered w t i P Hr HP)) as [E0|Hlt]; [rewrite E0|]; lia.
Qed.

(** * Equal cursors at both ends: no commit step in between *)
Lemma quiet_from_cursor (t : N) (ls : list Label) : forall w : Wd,
  i_reach w -> completes w ls -> i_committed_of (fold_left p2_step ls w) t = i_committed_of w t -> quiet t w ls.
Proof.
  induction ls as [|l ls IH]; intros w Hr Hc He; [exact I|]. destruct Hc as [Hc1 Hc2]. cbn [fold_left] in He.
  pose proof (inst reach_step w l Hr) as Hr'. fold p2_step in Hr'.
  pose proof (committed_mono_run t ls (p2_step w l) Hr') as Hm.
  pose proof (proj1 (inst cursors_monotone w l t Hr)) as H1. fold p2_step in H1.
  split.
  - intros Hcs. pose proof (commit_step_moves t w l Hr Hc1 Hcs) as Hlt. lia.
  - apply IH; [exact Hr'|exact Hc2|lia].
Qed.

(** * The run theorem without the hypothesis [quiet] *)
Theorem rollback_restores_run_prev (ls1 ls2 : list Label) t i j n n' (o o' : oracle) (P R : Prop2) (C C1' C2 : Cfg) c :
  let lc := LRec (CtlProp (t, i)) n o in
  let lr := LRec (CtlProp (t, j)) n' o' in
  let ls := ls1 ++ [lc] ++ ls2 ++ [lr] in
  labels_wfb ls = true -> completes p2_init ls ->
  (* lc is the commit step of the Change proposal (t, i) *)
  props (x_run ls1) !! (t, i) = Some P -> p_details P = PChange c -> cfgs (x_run ls1) !! t = Some C ->
  p_commit P = Some Doing -> p_apply P = None -> p_abort P = None -> c_committed C = p_prev P ->
  (* lr is the commit step of the Rollback proposal (t, j) of (t, i), which directly follows (t, i) in the chain of t *)
  props (x_run (ls1 ++ [lc] ++ ls2)) !! (t, j) = Some R -> p_details R = PRollback i -> p_prev R = i ->
  cfgs (x_run (ls1 ++ [lc] ++ ls2)) !! t = Some C1' ->
  p_commit R = Some Doing -> p_apply R = None -> p_abort R = None -> c_committed C1' = p_prev R ->
  p_rbvalues R = Some (rollback_of (view overlay C) c) ->
  rollback_wf i j (c_values C) (view overlay C) c = true ->
  cfgs (x_run ls) !! t = Some C2 ->
  live (view overlay C2) = live (view overlay C).
Proof.
  intros lc lr ls Hw Hc HP Hdt HC Ec Ea Eb Hcm HR Hdr Hprev HC1' Fc Fa Fb Hcm' Hrb Hwf HC2.
  apply (rollback_restores_run ls1 ls2 t i j n n' o o' P R C C1' C2 c Hw Hc HP Hdt HC Ec Ea Eb Hcm); try assumption.
  unfold ls in Hc. apply completes_app in Hc. destruct Hc as [Hc1 Hc2]. fold (x_run ls1) in Hc2.
  change ([lc] ++ ls2 ++ [lr]) with (lc :: ls2 ++ [lr]) in Hc2. destruct Hc2 as [Hlc Hc3].
  apply completes_app in Hc3. destruct Hc3 as [Hc3 _].
  assert (X1 : x_run (ls1 ++ [lc]) = p2_step (x_run ls1) lc) by apply x_run_app.
  assert (X2 : x_run (ls1 ++ [lc] ++ ls2) = fold_left p2_step ls2 (p2_step (x_run ls1) lc)) by apply x_run_app.
  change (quiet t (x_run (ls1 ++ [lc])) ls2). rewrite X1. apply quiet_from_cursor.
  - rewrite <- X1. apply x_run_reach.
  - exact Hc3.
  - rewrite <- X2. unfold committed_of at 1. rewrite HC1', Hcm', Hprev.
    pose proof (commit_two o _ t i n P C HP HC Ec Ea Eb Hcm Hlc) as Hn.
    destruct (cfg_step_some (x_run ls1) lc t C HC) as (C1 & HC1).
    pose proof (commit_cfg o (x_run ls1) t i n P C C1 HP HC Ec Ea Eb Hcm Hn HC1) as E1.
    unfold committed_of. rewrite HC1, E1. reflexivity.
Qed.

Print Assumptions rollback_restores_run_prev.
