(* C06, value level: the rollback values recorded by reconcileValidate (rollback_of) by lookup, for every
   iteration order of the change. *)
From Coq Require Import List Arith NArith Bool Lia Permutation.
From OC Require Import Base.Bytes Model.P2Pure Proofs.P2PureApplySem Proofs.P2PureRollbackBase Proofs.P2PureRollbackPrune
  Proofs.P2PureRollbackAdc Proofs.P2PureRollbackCommit.
Import ListNotations.
Open Scope N_scope.

Definition tomb0 (k : str) : pv := mkPV k [] true 0.

(* [b] is [a] with further entries, each satisfying [Q] *)
Definition ext (Q : str -> pv -> Prop) (a b : cmap) : Prop :=
  wf b /\ (forall k r, lookup k b = Some r -> lookup k a = Some r \/ Q k r) /\
  forall k, In k (map fst a) -> In k (map fst b).

Lemma ext_refl (Q : str -> pv -> Prop) a : wf a -> ext Q a a.
Proof. intros W. split; auto. Qed.

Lemma ext_trans (Q : str -> pv -> Prop) a b c : ext Q a b -> ext Q b c -> ext Q a c.
Proof.
  intros (_ & F1 & M1) (W & F2 & M2). split; [exact W|]. split; [|auto].
  intros k r H. destruct (F2 k r H) as [H'|H']; auto.
Qed.

Lemma ext_insert (Q : str -> pv -> Prop) a k v : wf a -> pv_path v = k -> proper k -> Q k v -> ext Q a (insert k v a).
Proof.
  intros W P1 P2 HQ. split; [apply wf_insert; assumption|]. split.
  - intros k' r H. rewrite lookup_insert in H. deq k' k; [injection H as <-; subst; auto | auto].
  - intros k' H. apply keys_insert. auto.
Qed.

Lemma cond_insert_fold (Q : str -> pv -> Prop) (f : str -> pv -> bool) l acc : wf l -> wf acc ->
  (forall k e, In (k, e) l -> f k e = true -> Q k e) ->
  ext Q acc (fold_left (fun acc '(k, cv) => if f k cv then insert k cv acc else acc) l acc).
Proof.
  intros (_ & K & P) Wa HQ. apply (fold_left_inv (ext Q acc)); [apply ext_refl, Wa|].
  intros b [k e] Hin E. destruct (f k e) eqn:F; [|exact E].
  eapply ext_trans; [exact E | apply ext_insert; [apply E | exact (K _ _ Hin) | exact (P _ _ Hin) | auto]].
Qed.

Lemma cond_insert_key (f : str -> pv -> bool) l : forall acc k e, In (k, e) l -> f k e = true ->
  In k (map fst (fold_left (fun acc '(k, cv) => if f k cv then insert k cv acc else acc) l acc)).
Proof.
  induction l as [|[k0 v0] l IH] using rev_ind; intros acc k e Hin F; [destruct Hin|]. rewrite fold_left_snoc.
  apply in_app_or in Hin. destruct Hin as [Hin|[[= -> ->]|[]]].
  - destruct (f k0 v0); [apply keys_insert; right|]; eapply IH; eauto.
  - rewrite F. apply keys_insert. left. reflexivity.
Qed.

(* the value applyChangeToConfig hands back: a tombstone of the map that the path lies beneath *)
Lemma dropped_fold dp dv l : forall acc d,
  snd (fold_left (fun '(acc, dropped) a =>
                    match lookup a acc with
                    | Some e => if pv_deleted e then (remove a acc, Some (a, e)) else (acc, dropped)
                    | None => (acc, dropped)
                    end) l (acc, d)) = Some (dp, dv) ->
  d = Some (dp, dv) \/ (In dp l /\ In (dp, dv) acc /\ pv_deleted dv = true).
Proof.
  induction l as [|a l IH]; intros acc d H; cbn [fold_left] in H; [left; exact H|].
  destruct (lookup a acc) as [e|] eqn:E; [destruct (pv_deleted e) eqn:D|]; apply IH in H.
  2,3: destruct H as [H|(H1 & H2)]; [left; exact H | right; split; [right; exact H1 | exact H2]].
  right. destruct H as [[= <- <-]|(H1 & H2 & H3)].
  - split; [left; reflexivity|]. split; [apply lookup_in; exact E | exact D].
  - split; [right; exact H1|]. split; [exact (In_remove _ _ _ H2) | exact H3].
Qed.

Lemma apply_dropped m p v dp dv : nd m ->
  snd (apply_change_to_config m p v) = Some (dp, dv) ->
  pv_deleted v = false /\ In dp (ancestors p) /\ lookup dp (insert p v m) = Some dv /\ pv_deleted dv = true.
Proof.
  intros N. unfold apply_change_to_config. destruct (pv_deleted v); [discriminate|]. intros H.
  apply dropped_fold in H. destruct H as [H|(H1 & H2 & H3)]; [discriminate|].
  split; [reflexivity|]. split; [exact H1|]. split; [apply in_lookup; [apply ND_insert, N | exact H2] | exact H3].
Qed.

Definition rb_step (V : cmap) : cmap * cmap -> str * pv -> cmap * cmap :=
  fun '(cand, rb) '(p, v) =>
    let '(cand', dropped) := apply_change_to_config cand p v in
    let rb1 := match dropped with Some (dp, dv) => insert dp dv rb | None => rb end in
    let rb2 := match lookup p V with
               | Some old => insert p old rb1
               | None => if pv_deleted v then rb1 else insert p (mkPV p [] true 0) rb1 end in
    let rb3 := if pv_deleted v
               then fold_left (fun acc '(k, cv) => if negb (pv_deleted cv) && is_path_below k p then insert k cv acc else acc) V rb2
               else rb2 in
    (cand', rb3).

Lemma rb_unfold V c : rollback_of V c = snd (fold_left (rb_step V) c (V, [])).
Proof. reflexivity. Qed.

Record rb_inv (V l cand rb : cmap) : Prop := {
  ri_nd : nd cand;
  ri_cand : forall k e, lookup k cand = Some e -> lookup k V = Some e \/ lookup k l = Some e;
  ri_wf : wf rb;
  ri_from : forall k r, lookup k rb = Some r ->
              lookup k V = Some r \/
              (lookup k V = None /\ r = tomb0 k /\ exists u, lookup k l = Some u /\ pv_deleted u = false);
  ri_change : forall k u, lookup k l = Some u -> (pv_deleted u = false \/ lookup k V <> None) -> In k (map fst rb);
  ri_kids : forall k x, lookup k V = Some x -> pv_deleted x = false -> cascb l k = true -> In k (map fst rb) }.

Lemma rb_spec V : wf V -> forall c, wf c -> no_delete_above_update c ->
  rb_inv V c (fst (fold_left (rb_step V) c (V, []))) (snd (fold_left (rb_step V) c (V, []))).
Proof.
  intros WV c. induction c as [|[p v] l IH] using rev_ind; intros Wc F14.
  - cbn. constructor; try discriminate; [apply WV | auto | apply wf_nil].
  - destruct (wf_snoc _ _ _ Wc) as (Wl & Hpl & Hpv & Hpp).
    pose proof (lookup_snoc_eq l p v Hpl) as Lp.
    assert (no_delete_above_update l) as F14l.
    { intros k u H D. specialize (F14 k u). rewrite lookup_app, H, cascb_app in F14.
      exact (proj1 (orb_false_elim _ _ (F14 eq_refl D))). }
    specialize (IH Wl F14l). rewrite fold_left_snoc. destruct (fold_left (rb_step V) l (V, [])) as [cand rb].
    cbn [fst snd] in IH. destruct IH as [I1 I2 I3 I4 I5 I6]. cbn [rb_step].
    pose proof (acta_In cand p v) as AI. pose proof (acta_ND cand p v I1) as AN.
    pose proof (apply_dropped cand p v) as AD.
    destruct (apply_change_to_config cand p v) as [cand' dropped]. cbn [fst snd] in *.
    (* every value the step records is the old value of its path, or the tombstone of a path the update creates *)
    set (Q k r := lookup k V = Some r \/ (k = p /\ lookup p V = None /\ r = tomb0 p /\ pv_deleted v = false)).
    set (rb1 := match dropped with Some (dp, dv) => insert dp dv rb | None => rb end).
    assert (ext Q rb rb1) as E1.
    { subst rb1. destruct dropped as [[dp dv]|]; [|apply ext_refl, I3].
      destruct (AD dp dv I1 eq_refl) as (D1 & D2 & D3 & D4).
      (* the dropped tombstone is a value of the view, not one of the change *)
      assert (lookup dp V = Some dv) as HV.
      { rewrite lookup_insert in D3. deq dp p; [injection D3 as <-; congruence|].
        destruct (I2 _ _ D3) as [H|H]; [exact H|]. exfalso.
        apply (ancestors_below dp p (proj2 (wf_lookup l dp dv Wl H))) in D2.
        assert (cascb (l ++ [(p, v)]) p = true) as X; [|rewrite (F14 p v Lp D1) in X; discriminate].
        rewrite cascb_app, (proj2 (cascb_hidden l p Wl)); [reflexivity|]. exists dp. split; [exists dv; auto | exact D2]. }
      destruct (wf_lookup V dp dv WV HV). apply ext_insert; [exact I3 | | | left]; assumption. }
    set (rb2 := match lookup p V with
                | Some old => insert p old rb1
                | None => if pv_deleted v then rb1 else insert p (mkPV p [] true 0) rb1 end).
    assert (ext Q rb1 rb2 /\ ((pv_deleted v = false \/ lookup p V <> None) -> In p (map fst rb2))) as (E2 & C2).
    { subst rb2. destruct (lookup p V) as [old|] eqn:EV; [|destruct (pv_deleted v) eqn:D].
      - split; [|intros _; apply keys_insert; left; reflexivity].
        apply ext_insert; [apply E1 | exact (proj1 (wf_lookup V p old WV EV)) | exact Hpp | left; exact EV].
      - split; [apply ext_refl, E1 | intros [H|H]; congruence].
      - split; [|intros _; apply keys_insert; left; reflexivity].
        apply ext_insert; [apply E1 | reflexivity | exact Hpp | right; auto]. }
    set (f k cv := negb (pv_deleted cv) && is_path_below k p).
    set (rb3 := if pv_deleted v then fold_left _ V rb2 else rb2).
    assert (ext Q rb2 rb3) as E3.
    { subst rb3. destruct (pv_deleted v); [|apply ext_refl, E2].
      apply (cond_insert_fold Q f V rb2 WV (proj1 E2)). intros k e H _. left. apply in_lookup; [apply WV | exact H]. }
    destruct (ext_trans Q _ _ _ (ext_trans Q _ _ _ E1 E2) E3) as (W3 & F3 & M3).
    constructor.
    + exact AN.
    + intros k e H. apply lookup_in, AI in H; [|exact I1]. destruct H as [[= -> ->]|H]; [right; exact Lp|].
      destruct (I2 k e (in_lookup _ _ _ I1 H)) as [H'|H']; [left; exact H' | right; rewrite lookup_app, H'; reflexivity].
    + exact W3.
    + intros k r H. destruct (F3 k r H) as [H'|[H'|(-> & H1 & -> & H2)]]; [|auto|].
      * destruct (I4 k r H') as [H1|(H1 & H2 & u & H3 & H4)]; [auto|]. right. split; [exact H1|]. split; [exact H2|].
        exists u. rewrite lookup_app, H3. auto.
      * right. split; [exact H1|]. split; [reflexivity|]. exists v. auto.
    + intros k u H Hc. rewrite lookup_app in H. cbn in H. destruct (lookup k l) as [u'|] eqn:E.
      * injection H as <-. apply M3. eapply I5; eauto.
      * deq k p; [|discriminate]. injection H as <-. subst k. apply (proj2 (proj2 E3)), C2, Hc.
    + intros k x H1 H2 Hc. rewrite cascb_app in Hc. apply orb_true_iff in Hc. destruct Hc as [Hc|Hc].
      * apply M3. eapply I6; eauto.
      * cbn [cascb existsb] in Hc. rewrite orb_false_r, Hpv in Hc. apply andb_true_iff in Hc. destruct Hc as [Hc1 Hc2].
        subst rb3. rewrite Hc1. apply (cond_insert_key f V rb2 k x (lookup_in _ _ _ H1)). unfold f. rewrite H2. exact Hc2.
Qed.

(* the recorded rollback values *)
Record rb_out (V c rb : cmap) : Prop := {
  ro_wf : wf rb;
  ro_from : forall k r, lookup k rb = Some r ->
              lookup k V = Some r \/
              (lookup k V = None /\ r = tomb0 k /\ exists u, lookup k c = Some u /\ pv_deleted u = false);
  ro_change : forall k u, lookup k c = Some u -> (pv_deleted u = false \/ lookup k V <> None) -> In k (map fst rb);
  ro_kids : forall k x, lookup k V = Some x -> pv_deleted x = false -> cascb c k = true -> In k (map fst rb) }.

Theorem rollback_of_spec V c : wf V -> wf c -> no_delete_above_update c -> rb_out V c (rollback_of V c).
Proof.
  intros WV Wc F. rewrite rb_unfold. destruct (rb_spec V WV c Wc F) as [_ _ H3 H4 H5 H6]. constructor; assumption.
Qed.
