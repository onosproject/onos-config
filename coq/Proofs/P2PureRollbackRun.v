(* C06 lifted from values to steps and runs of the executable instance (Model/P2Inst.v over Model/P2Pure.v).

   PROVED here
     - rollback_two_commits (world level, two p2_step commit steps): in an invariant world w0 the complete commit step
       of the Change proposal (t, i) with change c on top of its predecessor writes the entry C1; in an invariant world
       w1 whose entry C1' of t holds the same stored map (c_values C1' = c_values C1), the complete commit step of the
       Rollback proposal (t, j) on top of its predecessor, whose recorded rollback values are
       rollback_of (view C) c, writes an entry C2 with  live (view C2) = live (view C)  - under the boolean
       rollback_wf i j (c_values C) (view C) c of Proofs/P2PureRollbackBool.v, for every pair of Go map orders.
     - quiet_keeps_values (run-level frame): over a list of steps none of which is the commit step of a proposal of
       target t on top of its predecessor ([quiet t w ls], stated on the worlds the steps start from), the stored
       map c_values of t does not change.
     - rollback_restores_run (run level): ls = ls1 ++ [lc] ++ ls2 ++ [lr], labels_wfb ls, completes p2_init ls, lc the
       commit step of the Change proposal (t, i), lr the commit step of the Rollback proposal (t, j), ls2 quiet for
       t: the live view of t after lr is the live view of t before lc.
   ASSUMED in the run-level theorem, not derived (each is a statement about the two worlds x_run ls1 and
   x_run (ls1 ++ [lc] ++ ls2), checkable on a dumped run):
     - p_rbvalues R = Some (rollback_of (view C) c): the rollback proposal carries the values recorded on the view
       the change was committed on.  Not derived here from the validation steps of (t, i) and (t, j)
       (C06_change_records_rollback_values, C06_rollback_uses_recorded_values, validated_on_predecessor give the
       single steps; the history argument that the view did not move between validation and commit is missing).
     - rollback_wf i j (c_values C) (view C) c = true: only part of it follows from Inv (unique proper keys, the
       change is a wf_change); olderb / updates_are_leavesb / stampedb are not in the run invariant.
     - quiet t _ ls2: no commit step of a proposal of t between the two commits (a pair change + rollback in between
       would also restore, but that is not this statement). *)
From stdpp Require Import gmap.
From OC Require Import Proofs.P2PureRollbackBase Proofs.P2PureRollbackBool Proofs.P2PureRollbackMain.
From OC Require Import Base.Bytes Model.P2Pure Model.Proto2 Model.P2Inst Proofs.P2_ConvergeEx.
From OC Require Import Proofs.P2PureApplySem Proofs.P2PureReachInv Proofs.P2PureReachDyn Proofs.P2PureReachRun
     Proofs.P2PureReachLabels Proofs.P2PureAtomicCommit Proofs.P2PureAtomicFrame Proofs.P2PureAtomicAll.
Open Scope N_scope.

Local Opaque restore record_applied commit_merge touched overlay rollback_of candidate candidate_rb payload resync_payload stamp doc_ok.

(** * Two commit steps *)
Section Two.
  Context (Lf : N -> str -> Prop).

  Theorem rollback_two_commits (w0 w1 : Wd) t i j n n' (o o' : oracle) (P R : Prop2) (C C1 C1' C2 : Cfg) c ri :
    Inv Lf w0 -> props w0 !! (t, i) = Some P -> p_details P = PChange c -> cfgs w0 !! t = Some C ->
    p_commit P = Some Doing -> p_apply P = None -> p_abort P = None -> c_committed C = p_prev P -> (2 <= n)%nat ->
    cfgs (p2_step w0 (LRec (CtlProp (t, i)) n o)) !! t = Some C1 ->
    Inv Lf w1 -> cfgs w1 !! t = Some C1' -> c_values C1' = c_values C1 ->
    props w1 !! (t, j) = Some R -> p_details R = PRollback ri ->
    p_rbvalues R = Some (rollback_of (view overlay C) c) ->
    p_commit R = Some Doing -> p_apply R = None -> p_abort R = None -> c_committed C1' = p_prev R -> (2 <= n')%nat ->
    cfgs (p2_step w1 (LRec (CtlProp (t, j)) n' o')) !! t = Some C2 ->
    rollback_wf i j (c_values C) (view overlay C) c = true ->
    live (view overlay C2) = live (view overlay C).
  Proof.
    intros HI0 HP Hdt HC Ec Ea Eb Hcm Hn HC1 HI1 HC1' Ev HR Hdr Hrb Fc Fa Fb Hcm' Hn' HC2 Hwf.
    pose proof (commit_cfg o w0 t i n P C C1 HP HC Ec Ea Eb Hcm Hn HC1) as E1.
    pose proof (commit_cfg o' w1 t j n' R C1' C2 HR HC1' Fc Fa Fb Hcm' Hn' HC2) as E2.
    rewrite (rbc_change P c Hdt) in E1. rewrite (rbc_rollback R ri Hdr), Hrb in E2. cbn [default] in E2.
    assert (Em1 : c_values C1 = commit_merge (o_order o) i (c_values C) (view overlay C) c) by (rewrite E1; reflexivity).
    rewrite Ev, Em1 in E2.
    assert (Ev2 : view overlay C2 =
                  overlay [] (commit_merge (o_order o') j (commit_merge (o_order o) i (c_values C) (view overlay C) c)
                                           (view overlay C1') (rollback_of (view overlay C) c))) by (rewrite E2; reflexivity).
    rewrite Ev2. clear E1 E2 Ev2.
    apply rollback_wf_hyp in Hwf. destruct HI1 as [HS1 HD1].
    pose proof (proj1 (dc_view_wf Lf w1 HS1 t C1' HC1')) as N1.
    assert (S1 : same (view overlay C1') (commit_merge (o_order o) i (c_values C) (view overlay C) c)).
    { intros k. rewrite <- Em1, <- Ev. exact (dc_view_lookup Lf w1 HS1 t C1' HC1' (HD1 t C1' HC1') k). }
    destruct (rollback_second_wf i j (o_order o) (o_order o') (c_values C) (view overlay C) c (view overlay C1') Hwf N1 S1) as (W2 & _).
    apply (rollback_restores i j (o_order o) (o_order o') (c_values C) (view overlay C) c (view overlay C1') _ Hwf N1 S1).
    - apply ND_overlay. constructor.
    - apply overlay_nil_same. apply W2.
  Qed.
End Two.

(** * The frame over the steps between the two commits *)
(* the step [l] from world [w] is the commit step of a proposal of target [t] on top of its predecessor *)
Definition commit_step_of (t : N) (w : Wd) (l : Label) : Prop :=
  exists i n o (P : Prop2) (C : Cfg), l = LRec (CtlProp (t, i)) n o /\ props w !! (t, i) = Some P /\ cfgs w !! t = Some C /\
    p_commit P = Some Doing /\ p_apply P = None /\ p_abort P = None /\ c_committed C = p_prev P.

Fixpoint quiet (t : N) (w : Wd) (ls : list Label) : Prop :=
  match ls with [] => True | l :: r => ~ commit_step_of t w l /\ quiet t (p2_step w l) r end.

Lemma quiet_keeps_values t (ls : list Label) : forall (w : Wd) (C C' : Cfg),
  quiet t w ls -> cfgs w !! t = Some C -> cfgs (fold_left p2_step ls w) !! t = Some C' -> c_values C' = c_values C.
Proof.
  induction ls as [|l ls IH]; intros w C C' Hq HC HC'.
  - cbn in HC'. assert (Some C' = Some C) as X by (rewrite <- HC'; exact HC). injection X as ->. reflexivity.
  - destruct Hq as [Hn Hq]. cbn [fold_left] in HC'. destruct (cfg_step_some w l t C HC) as (Cm & HCm).
    rewrite (IH (p2_step w l) Cm C' Hq HCm HC').
    destruct (cmap_eq_dec (c_values Cm) (c_values C)) as [E|Hne]; [exact E|]. exfalso. apply Hn.
    destruct (i_values_only_by_commit w l t C Cm HC HCm Hne) as (i & n & o & P & H1 & H2 & H3 & H4 & H5 & H6 & _).
    exists i, n, o, P, C. auto 10.
Qed.

(** * Runs *)
Theorem rollback_restores_run (ls1 ls2 : list Label) t i j n n' (o o' : oracle) (P R : Prop2) (C C1' C2 : Cfg) c :
  let lc := LRec (CtlProp (t, i)) n o in
  let lr := LRec (CtlProp (t, j)) n' o' in
  let ls := ls1 ++ [lc] ++ ls2 ++ [lr] in
  labels_wfb ls = true -> completes p2_init ls ->
  (* lc is the commit step of the Change proposal (t, i) *)
  props (x_run ls1) !! (t, i) = Some P -> p_details P = PChange c -> cfgs (x_run ls1) !! t = Some C ->
  p_commit P = Some Doing -> p_apply P = None -> p_abort P = None -> c_committed C = p_prev P ->
  (* no commit of a proposal of t in between *)
  quiet t (x_run (ls1 ++ [lc])) ls2 ->
  (* lr is the commit step of the Rollback proposal (t, j) of (t, i), carrying the recorded values *)
  props (x_run (ls1 ++ [lc] ++ ls2)) !! (t, j) = Some R -> p_details R = PRollback i ->
  cfgs (x_run (ls1 ++ [lc] ++ ls2)) !! t = Some C1' ->
  p_commit R = Some Doing -> p_apply R = None -> p_abort R = None -> c_committed C1' = p_prev R ->
  p_rbvalues R = Some (rollback_of (view overlay C) c) ->
  rollback_wf i j (c_values C) (view overlay C) c = true ->
  cfgs (x_run ls) !! t = Some C2 ->
  live (view overlay C2) = live (view overlay C).
Proof.
  intros lc lr ls Hw Hc HP Hdt HC Ec Ea Eb Hcm Hq HR Hdr HC1' Fc Fa Fb Hcm' Hrb Hwf HC2.
  assert (Els : (ls1 ++ [lc] ++ ls2) ++ [lr] = ls) by (unfold ls; rewrite <- !app_assoc; reflexivity).
  destruct (inv_prefix ls1 ([lc] ++ ls2 ++ [lr]) Hw Hc) as [I0 (_ & Lc2 & _)].
  destruct (inv_prefix (ls1 ++ [lc] ++ ls2) [lr]) as [I2 (_ & Lr2 & _)]; [rewrite Els; assumption..|]. rewrite Els in I2.
  assert (X1 : x_run (ls1 ++ [lc]) = p2_step (x_run ls1) lc) by apply x_run_app.
  assert (X2 : x_run (ls1 ++ [lc] ++ ls2) = fold_left p2_step ls2 (p2_step (x_run ls1) lc)) by apply x_run_app.
  rewrite X1 in Hq. rewrite <- Els, x_run_app in HC2.
  destruct (cfg_step_some (x_run ls1) lc t C HC) as (C1 & HC1).
  assert (Ev : c_values C1' = c_values C1).
  { apply (quiet_keeps_values t ls2 (p2_step (x_run ls1) lc) C1 C1' Hq HC1). rewrite <- X2. exact HC1'. }
  pose proof (commit_two o _ t i n P C HP HC Ec Ea Eb Hcm Lc2) as Hn.
  pose proof (commit_two o' _ t j n' R C1' HR HC1' Fc Fa Fb Hcm' Lr2) as Hn'.
  exact (rollback_two_commits (Lf_of ls) (x_run ls1) (x_run (ls1 ++ [lc] ++ ls2)) t i j n n' o o' P R C C1 C1' C2 c i
           I0 HP Hdt HC Ec Ea Eb Hcm Hn HC1 I2 HC1' Ev HR Hdr Hrb Fc Fa Fb Hcm' Hn' HC2 Hwf).
Qed.

Print Assumptions rollback_restores_run.

(** * The premises that are not derived hold on a concrete run *)
(* Proofs/P2PureReachEx.v good_run 1: label 273 is the commit step of the Change proposal (1, 3), label 406 the commit
   step of the Rollback proposal (1, 4) of (1, 3); rollback_wf holds on the entry the change is committed on, the rollback
   proposal carries rollback_of (view C) c, and the live views before / after are the same (both empty here: the
   change re-creates /a/b/y beneath the deleted /a) *)
From OC Require Import Proofs.P2PureReachEx.
Definition rr_check (k3 k4 : nat) :=
  let ls := good_run 1 in
  let w0 := x_run (firstn k3 ls) in let w1 := x_run (firstn k4 ls) in let w2 := x_run (firstn (S k4) ls) in
  match nth_error ls k3, nth_error ls k4, props w0 !! (1, 3), cfgs w0 !! 1, props w1 !! (1, 4), cfgs w1 !! 1, cfgs w2 !! 1 with
  | Some (LRec (CtlProp (1, 3)) _ _), Some (LRec (CtlProp (1, 4)) _ _), Some P, Some C, Some R, Some C1, Some C2 =>
    match p_details P, p_details R, p_commit P, p_commit R with
    | PChange c, PRollback ri, Some Doing, Some Doing =>
      Some (ri, (c_committed C =? p_prev P) && (c_committed C1 =? p_prev R), rollback_wf 3 4 (c_values C) (view overlay C) c,
            match p_rbvalues R with Some rb => if cmap_eq_dec rb (rollback_of (view overlay C) c) then true else false | None => false end,
            live (view overlay C2), live (view overlay C))
    | _, _, _, _ => None
    end
  | _, _, _, _, _, _, _ => None
  end.
Example rr_premises_on_good_run : rr_check 273 406 = Some (3, true, true, true, [], []).
Proof. vm_compute. reflexivity. Qed.
