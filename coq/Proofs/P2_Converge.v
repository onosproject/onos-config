(* Convergence of a connected device to the applied configuration in the v2 protocol model (C04), protocol level,
   generic in the pure layer.  The device and the record of what was applied ("applied values": the Atomix map
   c_avalues overlaid on the values inlined in the entry, [aview]) are compared through an abstraction
     abs_dev : D -> A     what the device holds
     abs_app : V -> A     what an applied-values map stands for
   and the obligations of the pure layer are NAMED predicates (Definitions below, never assumed globally):
   every theorem that needs one lists it as a premise.
     - frame: the device of a target changes only by LDevRestart or by OK-answered requests of a reconcile
       invocation, and its state is the fold of dev_apply over exactly those requests, in order;
     - quiet invocations: an invocation (any controller, any prefix = any crash point) that contains no OK-answered
       request to the target leaves the device untouched and keeps what the applied values stand for;
     - a complete OK apply keeps the agreement (apply_sound); a complete OK re-push establishes it from an empty
       or an agreeing device (resync_sound_empty, resync_sound_same), with state SYNCHRONIZED and applied term = term;
     - nothing is sent before the re-push ([unsynced_no_apply]), restart, and the run theorem [converged]. *)
From stdpp Require Import gmap.
From RecordUpdate Require Import RecordUpdate.
From Coq Require Import NArith Lia.
From OC Require Import Proofs.P2_Failure.
From OC Require Import Model.Proto2 Proofs.P2Base Proofs.P2Phases Proofs.P2_Cursor Proofs.P2_CursorInv Proofs.P2_Term.
Open Scope N_scope.

Section Converge.
  Context {V Ch Req D : Type}.
  Context (candidate : V -> Ch -> V) (candidate_rb : V -> Ch -> V) (rollback_of : V -> Ch -> Ch)
          (overlay : V -> V -> V) (commit_merge : N -> N -> V -> V -> Ch -> V)
          (payload : N -> V -> Ch -> option Req) (record_applied : N -> N -> V -> V -> V -> Ch -> V)
          (touched : N -> V -> Ch -> V) (restore : V -> V -> V)
          (resync_payload : V -> list (option Req)) (doc_ok : V -> bool)
          (dev_apply : D -> Req -> D) (stamp : N -> Ch -> Ch) (v_empty : V) (d_empty : D) (ch_empty : Ch).
  Context {A : Type} (abs_dev : D -> A) (abs_app : V -> A).

  Notation world := (@world V Ch Req D).
  Notation eff := (@eff V Ch Req).
  Notation prop := (@prop Ch).
  Notation config := (@config V).
  Notation apply_eff := (@apply_eff V Ch Req D dev_apply d_empty).
  Notation rec_tx := (@rec_tx V Ch Req D stamp).
  Notation rec_prop := (@rec_prop V Ch Req D candidate candidate_rb rollback_of overlay commit_merge payload record_applied
                                  touched restore doc_ok v_empty d_empty ch_empty).
  Notation rec_cfg := (@rec_cfg V Ch Req D overlay restore resync_payload v_empty d_empty).
  Notation rec_master := (@rec_master V Ch Req D overlay restore v_empty).
  Notation rec_conn := (@rec_conn V Ch Req D).
  Notation reconcile := (@reconcile V Ch Req D candidate candidate_rb rollback_of overlay commit_merge payload record_applied
                                    touched restore resync_payload doc_ok stamp v_empty d_empty ch_empty).
  Notation step := (@step V Ch Req D candidate candidate_rb rollback_of overlay commit_merge payload record_applied
                          touched restore resync_payload doc_ok dev_apply stamp v_empty d_empty ch_empty).
  Notation reach := (@reach V Ch Req D candidate candidate_rb rollback_of overlay commit_merge payload record_applied
                            touched restore resync_payload doc_ok dev_apply stamp v_empty d_empty ch_empty).
  Notation view := (@view V overlay).
  Notation aview := (@aview V overlay).
  Notation dev_answer := (@dev_answer V Ch Req D d_empty).
  Notation dev_of := (@dev_of V Ch Req D d_empty).
  Notation rb_change := (@rb_change Ch ch_empty).
  Notation upd_status := (@upd_status V Ch Req overlay restore v_empty).

  (* what Get loads from an applied-values map when nothing is inlined in the entry *)
  Definition loaded (m : V) : V := overlay v_empty m.
  Definition dstate_of (w : world) (t : N) : D := d_state (dev_of w t).
  Definition agrees (w : world) (t : N) : Prop :=
    exists C, cfgs w !! t = Some C /\ abs_dev (dstate_of w t) = abs_app (aview C).

  (** the obligations of the pure layer (named, not assumed).  Each comes in two forms: [X_at ...] at the values
      one invocation works on (what the run-time monitors check on every observed step, and what the Examples
      establish by computation on the executable instance), and [X] for all values. *)
  (* a complete apply answered OK: [inl], [m] the inline values and the map of the applied values, [vw] the loaded
     committed view, [d] the state of the device, [ord] the Go map iteration order the recording follows *)
  Definition apply_sound_at (ord i : N) (inl m vw : V) (ch : Ch) (req : Req) (d : D) : Prop :=
    payload i vw ch = Some req -> abs_dev d = abs_app (overlay inl m) ->
    abs_dev (dev_apply d req) = abs_app (loaded (record_applied ord i m (overlay inl m) vw ch)).
  Definition apply_sound : Prop := forall ord i inl m vw ch req d, apply_sound_at ord i inl m vw ch req d.
  (* a status update stores the loaded applied values again: what they stand for does not change, neither once the
     entry has been written (inline values cleared) ... *)
  Definition restore_sound_at (inl m : V) : Prop := abs_app (loaded (restore m (overlay inl m))) = abs_app (overlay inl m).
  (* ... nor between the map write and the entry write (inline values still there) *)
  Definition restore_cut_sound_at (inl m : V) : Prop := abs_app (overlay inl (restore m (overlay inl m))) = abs_app (overlay inl m).
  (* the commit writes the loaded applied values inline into the entry (the applied map is untouched) *)
  Definition inline_sound_at (inl m : V) : Prop := abs_app (overlay (overlay inl m) m) = abs_app (overlay inl m).
  Definition status_sound_at (p : V * V) : Prop :=
    restore_sound_at p.1 p.2 /\ restore_cut_sound_at p.1 p.2 /\ inline_sound_at p.1 p.2.
  Definition restore_sound : Prop := forall inl m, restore_sound_at inl m.
  Definition restore_cut_sound : Prop := forall inl m, restore_cut_sound_at inl m.
  Definition inline_sound : Prop := forall inl m, inline_sound_at inl m.
  Definition status_sound : Prop := forall p, status_sound_at p.
  Definition resync_sound_empty_at (va : V) (reqs : list Req) : Prop :=
    resync_payload va = map Some reqs -> abs_dev (fold_left dev_apply reqs d_empty) = abs_app va.
  Definition resync_sound_same_at (va : V) (reqs : list Req) (d : D) : Prop :=
    resync_payload va = map Some reqs -> abs_dev d = abs_app va -> abs_dev (fold_left dev_apply reqs d) = abs_app va.
  Definition resync_sound_empty : Prop := forall va reqs, resync_sound_empty_at va reqs.
  Definition resync_sound_same : Prop := forall va reqs d, resync_sound_same_at va reqs d.
  (* sending the same request twice is as good as once (retry after a cut between the request and the status write) *)
  Definition apply_idem_at (d : D) (req : Req) : Prop := abs_dev (dev_apply (dev_apply d req) req) = abs_dev (dev_apply d req).
  Definition apply_idem : Prop := forall d req, apply_idem_at d req.

  (** * (a) Frame: the device changes only by OK-answered requests *)
  Definition ok_req (t : N) (e : eff) : option Req :=
    match e with
    | EDev (DevSet t' _ _ _ r COk) => if t' =? t then Some r else None
    | _ => None
    end.
  Fixpoint ok_reqs (t : N) (es : list eff) : list Req :=
    match es with
    | [] => []
    | e :: r => match ok_req t e with Some q => q :: ok_reqs t r | None => ok_reqs t r end
    end.

  Lemma ok_reqs_app t (a b : list eff) : ok_reqs t (a ++ b) = ok_reqs t a ++ ok_reqs t b.
  Proof. induction a as [|e r IH]; cbn; [reflexivity|]. destruct (ok_req t e); cbn; rewrite IH; reflexivity. Qed.

  Lemma ok_reqs_firstn_nil t (es : list eff) : forall k, ok_reqs t es = [] -> ok_reqs t (firstn k es) = [].
  Proof.
    induction es as [|e r IH]; intros k H; [rewrite firstn_nil; reflexivity|].
    destruct k as [|k]; [reflexivity|]. cbn in *. destruct (ok_req t e); [discriminate|]. apply IH. exact H.
  Qed.

  Lemma devs_eff (w : world) (e : eff) t :
    devs (apply_eff w e) !! t =
    match ok_req t e with
    | Some r => Some (mkDev (dev_apply (dstate_of w t) r)
                            (N.max (d_max (dev_of w t)) match e with EDev (DevSet _ _ term _ _ _) => term | _ => 0 end))
    | None => devs w !! t
    end.
  Proof.
    rewrite (devs_apply_eff dev_apply d_empty). destruct e as [| | | | | | | | | [t' c term o r []]]; cbn; try reflexivity.
    destruct (N.eqb_spec t' t) as [->|Hne]; [rewrite lookup_insert; reflexivity|rewrite lookup_insert_ne by exact Hne; reflexivity].
  Qed.

  Lemma dstate_eff (w : world) (e : eff) t :
    dstate_of (apply_eff w e) t = match ok_req t e with Some r => dev_apply (dstate_of w t) r | None => dstate_of w t end.
  Proof.
    unfold dstate_of at 1. unfold Proto2.dev_of. rewrite devs_eff. destruct (ok_req t e); reflexivity.
  Qed.

  Lemma dstate_fold (es : list eff) t : forall w : world,
    dstate_of (fold_left apply_eff es w) t = fold_left dev_apply (ok_reqs t es) (dstate_of w t).
  Proof.
    induction es as [|e r IH]; intros w; [reflexivity|]. cbn [fold_left ok_reqs]. rewrite IH, dstate_eff.
    destruct (ok_req t e); reflexivity.
  Qed.

  Lemma devs_fold_none (es : list eff) t : forall w : world,
    ok_reqs t es = [] -> devs (fold_left apply_eff es w) !! t = devs w !! t.
  Proof.
    induction es as [|e r IH]; intros w H; [reflexivity|]. cbn [fold_left ok_reqs] in *.
    destruct (ok_req t e) eqn:E; [discriminate|]. rewrite IH by exact H. rewrite devs_eff, E. reflexivity.
  Qed.

  Theorem device_changes_only_by_ok_requests (w : world) l t :
    devs (step w l) !! t <> devs w !! t ->
    l = LDevRestart t \/
    exists c k o, l = LRec c k o /\ ok_reqs t (firstn k (fst (reconcile o w c))) <> [].
  Proof.
    destruct l as [chs sy se|ri|c k o|c t0|c|c t0|t0 p|t0|t0]; cbn [Proto2.step]; try (intros H; exfalso; apply H; reflexivity).
    - intros H. right. exists c, k, o. split; [reflexivity|]. intros Hn. apply H. apply devs_fold_none. exact Hn.
    - destruct (conns w !! c); intros H; exfalso; apply H; reflexivity.
    - destruct (rels w !! c); intros H; exfalso; apply H; reflexivity.
    - intros H. left. destruct (decide (t0 = t)) as [->|Hne]; [reflexivity|].
      exfalso. apply H. cbn. rewrite lookup_insert_ne by exact Hne. reflexivity.
  Qed.

  Theorem device_state_after_invocation (w : world) c k o t :
    dstate_of (step w (LRec c k o)) t =
    fold_left dev_apply (ok_reqs t (firstn k (fst (reconcile o w c)))) (dstate_of w t).
  Proof. cbn [Proto2.step]. apply dstate_fold. Qed.

  Theorem restart_empties (w : world) t : dstate_of (step w (LDevRestart t)) t = d_empty.
  Proof. unfold dstate_of, Proto2.dev_of. cbn. rewrite lookup_insert. reflexivity. Qed.

  Definition cfg_on (t : N) (C : config) (e : eff) : config :=
    match e with
    | EPutCfg t' c => if t' =? t then c <| c_values := c_values C |> <| c_avalues := c_avalues C |> else C
    | EPutValues t' v => if t' =? t then C <| c_values := v |> else C
    | EPutAValues t' v => if t' =? t then C <| c_avalues := v |> else C
    | _ => C
    end.

  Lemma cfg_eff (w : world) (e : eff) t (C : config) :
    cfgs w !! t = Some C -> cfgs (apply_eff w e) !! t = Some (cfg_on t C e).
  Proof.
    intros HC. rewrite cfgs_apply_eff.
    destruct e as [| | |t0 c|t0 c|t0 v|t0 v| | |]; try exact HC; cbn [cfg_on].
    { destruct (cfgs w !! t0) eqn:E0; [exact HC|]. rewrite lookup_insert_ne by congruence. exact HC. }
    all: destruct (N.eqb_spec t0 t) as [->|Hne]; [rewrite HC, lookup_insert; reflexivity|].
    all: destruct (cfgs w !! t0); [rewrite lookup_insert_ne by exact Hne|]; exact HC.
  Qed.

  Lemma cfg_fold (es : list eff) t : forall (w : world) (C : config),
    cfgs w !! t = Some C -> cfgs (fold_left apply_eff es w) !! t = Some (fold_left (cfg_on t) es C).
  Proof.
    induction es as [|e r IH]; intros w C HC; [exact HC|]. cbn [fold_left]. apply IH. apply cfg_eff. exact HC.
  Qed.

  (** * (b) What an effect list does to the applied values of one configuration *)
  Definition pair_of (C : config) : V * V := (c_ainline C, c_avalues C).
  Definition ov (p : V * V) : V := overlay p.1 p.2.
  Definition eff_on (t : N) (p : V * V) (e : eff) : V * V :=
    match e with
    | EPutCfg t' c => if t' =? t then (c_ainline c, p.2) else p
    | EPutAValues t' v => if t' =? t then (p.1, v) else p
    | _ => p
    end.

  Lemma aview_pair (C : config) : aview C = ov (pair_of C).
  Proof. reflexivity. Qed.

  Lemma pair_cfg_on t (C : config) e : pair_of (cfg_on t C e) = eff_on t (pair_of C) e.
  Proof. destruct e as [| | |t0 c|t0 c|t0 v|t0 v| | |]; cbn; try reflexivity; destruct (t0 =? t); reflexivity. Qed.
  Lemma pair_cfg_fold t (es : list eff) : forall C : config,
    pair_of (fold_left (cfg_on t) es C) = fold_left (eff_on t) es (pair_of C).
  Proof. induction es as [|e r IH]; intros C; [reflexivity|]. cbn [fold_left]. rewrite IH, pair_cfg_on. reflexivity. Qed.

  Lemma pair_fold (es : list eff) t : forall (w : world) (C : config),
    cfgs w !! t = Some C ->
    exists C', cfgs (fold_left apply_eff es w) !! t = Some C' /\ pair_of C' = fold_left (eff_on t) es (pair_of C).
  Proof. intros w C HC. eexists. split; [apply cfg_fold; exact HC|apply pair_cfg_fold]. Qed.

  (* every non-empty prefix of [es], started from the pair [p], stands for [a] *)
  Fixpoint quiet (t : N) (a : A) (p : V * V) (es : list eff) : Prop :=
    match es with
    | [] => True
    | e :: r => abs_app (ov (eff_on t p e)) = a /\ quiet t a (eff_on t p e) r
    end.

  Lemma quiet_prefix t a (es : list eff) : forall p k,
    abs_app (ov p) = a -> quiet t a p es -> abs_app (ov (fold_left (eff_on t) (firstn k es) p)) = a.
  Proof.
    induction es as [|e r IH]; intros p k Hp Hq; [rewrite firstn_nil; exact Hp|].
    destruct k as [|k]; [exact Hp|]. cbn [firstn fold_left]. destruct Hq as [H1 H2]. apply IH; assumption.
  Qed.

  Lemma quiet_app t a (es1 es2 : list eff) : forall p,
    quiet t a p es1 -> quiet t a (fold_left (eff_on t) es1 p) es2 -> quiet t a p (es1 ++ es2).
  Proof.
    induction es1 as [|e r IH]; intros p H1 H2; [exact H2|]. cbn in *. destruct H1 as [Ha Hr]. split; [exact Ha|]. apply IH; assumption.
  Qed.

  Definition anv_neutral (t : N) (e : eff) : Prop :=
    match e with
    | EPutCfg t' _ | EPutAValues t' _ => t' <> t
    | _ => True
    end.
  Lemma anv_neutral_eff t p e : anv_neutral t e -> eff_on t p e = p.
  Proof.
    destruct e as [| | | |t0 c| |t0 v| | |]; cbn; try reflexivity; intros Hne;
      (destruct (N.eqb_spec t0 t); [contradiction|reflexivity]).
  Qed.
  Lemma neutral_fold t (es : list eff) p : Forall (anv_neutral t) es -> fold_left (eff_on t) es p = p.
  Proof.
    induction es as [|e r IH]; intros Hf; [reflexivity|]. inversion Hf; subst. cbn. rewrite anv_neutral_eff by assumption. auto.
  Qed.
  Lemma quiet_neutral t a p (es : list eff) : abs_app (ov p) = a -> Forall (anv_neutral t) es -> quiet t a p es.
  Proof.
    intros Hp. induction es as [|e r IH]; intros Hf; [exact I|]. inversion Hf as [|? ? He Hr]. cbn.
    rewrite anv_neutral_eff by exact He. split; [exact Hp|]. apply IH. exact Hr.
  Qed.

  Lemma quiet_upd_status t t' (C C' : config) :
    status_sound_at (pair_of C) -> quiet t (abs_app (aview C)) (pair_of C) (upd_status t' C C').
  Proof.
    intros (R1 & R2 & R3). unfold Proto2.upd_status. cbn [quiet eff_on]. destruct (t' =? t); cbn.
    - split; [apply R2|]. split; [apply R1|exact I].
    - repeat split.
  Qed.

  Lemma upd_status_pair t (C C' : config) p :
    fold_left (eff_on t) (upd_status t C C') p = (v_empty, restore (c_avalues C) (aview C)).
  Proof. unfold Proto2.upd_status. cbn [fold_left eff_on]. rewrite !N.eqb_refl. reflexivity. Qed.

  Lemma rec_tx_no_dev (w : world) i t : ok_reqs t (fst (rec_tx w i)) = [].
  Proof.
    pose proof (rec_tx_tp stamp w i) as Hf. induction Hf as [|e r He Hr IH]; [reflexivity|].
    cbn. destruct e; cbn in *; try exact IH; destruct He.
  Qed.

  Lemma rec_conn_no_dev (w : world) c t : ok_reqs t (fst (rec_conn w c)) = [].
  Proof. unfold Proto2.rec_conn. destruct_matches; reflexivity. Qed.

  (* the mastership and the configuration reconcilers end with at most one status update of their configuration; the
     configuration reconciler sends the requests of a re-push before it *)
  Definition status_tail (w : world) (t : N) (tl : list eff) : Prop :=
    tl = [] \/ exists C C', cfgs w !! t = Some C /\ tl = upd_status t C C'.

  Lemma rec_master_shape (o : oracle) (w : world) t : status_tail w t (fst (rec_master o w t)).
  Proof. unfold Proto2.rec_master. destruct_matches; cbn [fst]; first [left; reflexivity | right; eauto]. Qed.

  Lemma rec_cfg_shape (o : oracle) (w : world) t :
    exists m term a reqs tl, fst (rec_cfg o w t) = fst (@resync_effs V Ch Req t m term a reqs) ++ tl /\ status_tail w t tl.
  Proof.
    unfold Proto2.rec_cfg.
    destruct_matches; cbn [fst];
      match goal with
      | E : resync_effs ?t0 ?m ?te ?a ?rq = _ |- _ => exists m, te, a, rq; rewrite E; cbn [fst]
      | _ => exists 0, 0, COk, []; cbn [resync_effs fst app]
      end; eexists; (split; [first [reflexivity | symmetry; apply app_nil_r]|]); first [left; reflexivity | right; eauto].
  Qed.

  Lemma quiet_status_tail (w : world) t' t (C : config) tl :
    status_sound_at (pair_of C) -> cfgs w !! t = Some C -> status_tail w t' tl -> quiet t (abs_app (aview C)) (pair_of C) tl.
  Proof.
    intros HS HC [->|(C0 & C' & HC0 & ->)]; [exact I|].
    destruct (N.eq_dec t' t) as [->|Hne].
    - rewrite HC in HC0. injection HC0 as <-. apply quiet_upd_status, HS.
    - apply quiet_neutral; [reflexivity|repeat constructor; exact Hne].
  Qed.

  Lemma rec_master_no_dev (o : oracle) (w : world) t' t : ok_reqs t (fst (rec_master o w t')) = [].
  Proof. destruct (rec_master_shape o w t') as [->|(C & C' & _ & ->)]; reflexivity. Qed.

  Lemma rec_cfg_quiet (o : oracle) (w : world) t' t (C : config) :
    status_sound_at (pair_of C) -> cfgs w !! t = Some C -> quiet t (abs_app (aview C)) (pair_of C) (fst (rec_cfg o w t')).
  Proof.
    intros HS HC. destruct (rec_cfg_shape o w t') as (m & term & a & reqs & tl & -> & Htl).
    assert (Hn : Forall (anv_neutral t) (fst (@resync_effs V Ch Req t' m term a reqs)))
      by (apply List.Forall_forall; intros e He; apply resync_effs_in in He; destruct He as (r & -> & _); exact I).
    apply quiet_app; [apply quiet_neutral; [reflexivity|exact Hn]|]. rewrite neutral_fold by exact Hn.
    exact (quiet_status_tail w t' t C tl HS HC Htl).
  Qed.

  Lemma rec_prop_quiet (o : oracle) (w : world) t' i t (C : config) :
    status_sound_at (pair_of C) -> cfgs w !! t = Some C -> ok_reqs t (fst (rec_prop o w (t', i))) = [] ->
    quiet t (abs_app (aview C)) (pair_of C) (fst (rec_prop o w (t', i))).
  Proof.
    intros HS HC. destruct (N.eq_dec t' t) as [->|Hne].
    2:{ (* an invocation for another target writes nothing of [t] *)
        intros _. apply quiet_neutral; [reflexivity|].
        eapply Forall_impl; [apply rec_prop_on_target|].
        intros [] He; cbn in *; try exact I; congruence. }
    destruct (rec_prop_shape candidate candidate_rb rollback_of overlay commit_merge payload record_applied touched restore
                doc_ok v_empty d_empty ch_empty o w t i)
      as [| | |C0 C' tl HC0 Htl|P C0 c _ _ _ _ HC0 _ Hin| |P C0 m req c P' _ HC0 _ _|C0 m req a c P' HC0 _ Hin];
      intros Hq; try (rewrite HC in HC0; injection HC0 as <-);
      try solve [apply quiet_neutral; [reflexivity|repeat constructor]]; destruct HS as (R1 & R2 & R3).
    - apply quiet_app; [apply quiet_upd_status; repeat split; assumption|].
      apply quiet_neutral; [rewrite upd_status_pair; exact R1|destruct Htl as [->|[P' ->]]; repeat constructor].
    - cbn [quiet eff_on]. rewrite N.eqb_refl, Hin. repeat split; exact R3.
    - cbn [ok_reqs ok_req] in Hq. rewrite N.eqb_refl in Hq. discriminate Hq.
    - cbn [quiet eff_on]. rewrite N.eqb_refl, Hin. repeat split; [exact R2|exact R1].
  Qed.

  Lemma targets_fold (es : list eff) : forall w : world, targets (fold_left apply_eff es w) = targets w.
  Proof. induction es as [|e r IH]; intros w; [reflexivity|]. cbn [fold_left]. rewrite IH. apply targets_apply_eff. Qed.

  Lemma reconcile_quiet (o : oracle) (w : world) c t (C : config) :
    status_sound_at (pair_of C) -> cfgs w !! t = Some C -> ok_reqs t (fst (reconcile o w c)) = [] ->
    quiet t (abs_app (aview C)) (pair_of C) (fst (reconcile o w c)).
  Proof.
    intros HS HC Hq. destruct c as [i|[t' i]|t'|t'|cc]; cbn [Proto2.reconcile] in *.
    - apply quiet_neutral; [reflexivity|]. eapply Forall_impl; [exact (rec_tx_tp stamp w i)|]. intros []; cbn; auto; intros [].
    - apply rec_prop_quiet; assumption.
    - apply rec_cfg_quiet; assumption.
    - exact (quiet_status_tail w t' t C _ HS HC (rec_master_shape o w t')).
    - apply quiet_neutral; [reflexivity|]. apply List.Forall_forall. intros e He. apply rec_conn_only_rel in He.
      destruct e; try destruct He; exact I.
  Qed.

  Theorem quiet_invocation (w : world) c k o t (C : config) :
    status_sound_at (pair_of C) -> cfgs w !! t = Some C -> ok_reqs t (fst (reconcile o w c)) = [] ->
    devs (step w (LRec c k o)) !! t = devs w !! t /\
    exists C', cfgs (step w (LRec c k o)) !! t = Some C' /\ abs_app (aview C') = abs_app (aview C).
  Proof.
    intros HS HC Hq. cbn [Proto2.step]. split.
    - apply devs_fold_none. apply ok_reqs_firstn_nil. exact Hq.
    - eexists. split; [apply cfg_fold; exact HC|]. rewrite aview_pair, pair_cfg_fold.
      apply quiet_prefix; [reflexivity|]. apply reconcile_quiet; assumption.
  Qed.

  Lemma dstate_devs (w w' : world) t : devs w' !! t = devs w !! t -> dstate_of w' t = dstate_of w t.
  Proof. unfold dstate_of, Proto2.dev_of. intros ->. reflexivity. Qed.

  Theorem quiet_keeps_agreement (w : world) c k o t :
    (forall C, cfgs w !! t = Some C -> status_sound_at (pair_of C)) ->
    ok_reqs t (fst (reconcile o w c)) = [] -> agrees w t -> agrees (step w (LRec c k o)) t.
  Proof.
    intros HS Hq (C & HC & Ha). destruct (quiet_invocation w c k o t C (HS C HC) HC Hq) as (Hd & C' & HC' & Hv).
    exists C'. split; [exact HC'|]. rewrite (dstate_devs _ _ _ Hd), Hv. exact Ha.
  Qed.

  Lemma ok_reqs_in t (es : list eff) r :
    In r (ok_reqs t es) -> exists m term og, In (EDev (DevSet t m term og r COk)) es.
  Proof.
    induction es as [|e rest IH]; cbn; [intros []|].
    destruct (ok_req t e) as [q|] eqn:E.
    - intros [<-|Hin].
      + destruct e as [| | | | | | | | | [t' m term og r' a]]; try discriminate E. cbn in E.
        destruct a; try discriminate E. destruct (N.eqb_spec t' t) as [->|]; [|discriminate E]. injection E as ->.
        exists m, term, og. left. reflexivity.
      + destruct (IH Hin) as (m & term & og & H). exists m, term, og. right. exact H.
    - intros Hin. destruct (IH Hin) as (m & term & og & H). exists m, term, og. right. exact H.
  Qed.

  Notation sent_by_apply := (@sent_by_apply V Ch Req D overlay payload d_empty ch_empty).
  Notation sent_by_resync := (@sent_by_resync V Ch Req D overlay resync_payload d_empty).

  Lemma quiet_or_sent (o : oracle) (w : world) c t :
    ok_reqs t (fst (reconcile o w c)) = [] \/
    (exists i m term r, c = CtlProp (t, i) /\ sent_by_apply w o t i m term r COk) \/
    (exists m term r, c = CtlCfg t /\ sent_by_resync w o t m term r COk).
  Proof.
    destruct (ok_reqs t (fst (reconcile o w c))) as [|r rest] eqn:E; [left; reflexivity|right].
    assert (Hin : In r (ok_reqs t (fst (reconcile o w c)))) by (rewrite E; left; reflexivity).
    apply ok_reqs_in in Hin. destruct Hin as (m & term & og & Hin).
    apply reconcile_dev in Hin.
    destruct Hin as [(i & -> & _ & Hs)|(-> & _ & Hs)]; [left; exists i, m, term, r; auto|right; exists m, term, r; auto].
  Qed.

  Theorem not_quiet_cases (o : oracle) (w : world) c t :
    ok_reqs t (fst (reconcile o w c)) <> [] ->
    (exists i m term r, c = CtlProp (t, i) /\ sent_by_apply w o t i m term r COk) \/
    (exists m term r, c = CtlCfg t /\ sent_by_resync w o t m term r COk).
  Proof. intros Hne. destruct (quiet_or_sent o w c t) as [H|H]; [contradiction|exact H]. Qed.

  Theorem refused_is_quiet (o : oracle) (w : world) c t :
    (forall C, cfgs w !! t = Some C -> dev_answer w t (c_term C) o <> COk) ->
    ok_reqs t (fst (reconcile o w c)) = [].
  Proof.
    intros Hno. destruct (quiet_or_sent o w c t) as [H|[(i & m & term & r0 & _ & Hs)|(m & term & r0 & _ & Hs)]]; [exact H|exfalso..].
    - destruct Hs as (C & P & HC & _ & _ & _ & _ & _ & Ha & _). apply (Hno C HC). symmetry. exact Ha.
    - destruct Hs as (C & HC & _ & _ & _ & _ & _ & Ha & _). apply (Hno C HC). symmetry. exact Ha.
  Qed.

  Definition unsynced (C : config) : Prop := c_aterm C < c_term C \/ c_state C = CSynchronizing.

  Theorem unsynced_no_apply (o : oracle) (w : world) k t (C : config) :
    cfgs w !! t = Some C -> unsynced C -> ok_reqs t (fst (rec_prop o w k)) = [].
  Proof.
    intros HC Hu.
    destruct (quiet_or_sent o w (CtlProp k) t) as [H|[(i & m & term & r0 & _ & Hs)|(m & term & r0 & Hx & _)]];
      [exact H|exfalso|discriminate Hx].
    destruct Hs as (C0 & P & HC0 & _ & _ & _ & _ & _ & _ & _ & _ & _ & Hst & Hle & _).
    rewrite HC in HC0. injection HC0 as <-. destruct Hu as [Hlt|Hs]; [lia|contradiction].
  Qed.

  (** * (c) A complete proposal apply answered OK *)
  Definition applied_cfg (i : N) (C : config) (P : prop) : config :=
    C <| c_applied := i |> <| c_inline := touched i (view C) (rb_change P) |> <| c_ainline := v_empty |>.

  Lemma apply_effects (o : oracle) (w : world) t i m term r :
    sent_by_apply w o t i m term r COk ->
    exists (C : config) (P : prop), cfgs w !! t = Some C /\ props w !! (t, i) = Some P /\ term = c_term C /\
      c_applied C < i /\ ~ unsynced C /\ payload i (view C) (rb_change P) = Some r /\
      fst (rec_prop o w (t, i)) =
        [EDev (DevSet t m (c_term C) (Some i) r COk);
         EPutAValues t (record_applied (o_order o) i (c_avalues C) (aview C) (view C) (rb_change P));
         EPutCfg t (applied_cfg i C P);
         EPutProp (t, i) (P <| p_apply := Some Done |> <| p_term := c_term C |>)].
  Proof.
    intros (C & P & HC & HP & -> & Hm & Hrel & Hconn & Ha & Hap & Hlt & Hprev & Hst & Hle & Htg & Hpay).
    exists C, P. split; [exact HC|]. split; [exact HP|]. split; [reflexivity|]. split; [exact Hlt|].
    split; [intros [H|H]; [lia|contradiction]|]. split; [exact Hpay|].
    erewrite ok_effects; [reflexivity|split; eassumption|symmetry; exact Ha].
  Qed.

  (* the world after a complete apply answered OK (entry written: k >= 3) *)
  Lemma apply_world (o : oracle) (w : world) t i m term r (k : nat) :
    sent_by_apply w o t i m term r COk -> (3 <= k)%nat ->
    let w' := step w (LRec (CtlProp (t, i)) k o) in
    dstate_of w' t = dev_apply (dstate_of w t) r /\
    exists (C : config) (P : prop) (C' : config), cfgs w !! t = Some C /\ props w !! (t, i) = Some P /\
      cfgs w' !! t = Some C' /\ c_applied C' = i /\ c_applied C < i /\ payload i (view C) (rb_change P) = Some r /\
      aview C' = loaded (record_applied (o_order o) i (c_avalues C) (aview C) (view C) (rb_change P)) /\
      c_state C' = c_state C /\ c_aterm C' = c_aterm C /\ c_term C' = c_term C.
  Proof.
    intros Hs Hk.
    destruct (apply_effects o w t i m term r Hs) as (C & P & HC & HP & -> & Hlt & _ & Hpay & Hes).
    cbn zeta. cbn [Proto2.step Proto2.reconcile]. rewrite Hes. split.
    - rewrite dstate_fold. destruct k as [|[|[|[|k]]]]; try lia; cbn [firstn]; rewrite ?firstn_nil;
        cbn [ok_reqs ok_req fold_left]; rewrite N.eqb_refl; reflexivity.
    - exists C, P. eexists. split; [exact HC|]. split; [exact HP|]. split; [apply cfg_fold; exact HC|].
      destruct k as [|[|[|[|k]]]]; try lia; cbn [firstn]; rewrite ?firstn_nil; cbn [fold_left cfg_on]; rewrite !N.eqb_refl;
        repeat split; assumption.
  Qed.

  Theorem apply_keeps_agreement (o : oracle) (w : world) t i m term r (k : nat) :
    (forall (C : config) (P : prop), cfgs w !! t = Some C -> props w !! (t, i) = Some P ->
       apply_sound_at (o_order o) i (c_ainline C) (c_avalues C) (view C) (rb_change P) r (dstate_of w t)) ->
    sent_by_apply w o t i m term r COk -> (3 <= k)%nat -> agrees w t ->
    let w' := step w (LRec (CtlProp (t, i)) k o) in
    agrees w' t /\ dstate_of w' t = dev_apply (dstate_of w t) r /\
    exists (C : config) (P : prop) (C' : config), cfgs w !! t = Some C /\ props w !! (t, i) = Some P /\
      cfgs w' !! t = Some C' /\ c_applied C' = i /\ c_applied C < i /\
      aview C' = loaded (record_applied (o_order o) i (c_avalues C) (aview C) (view C) (rb_change P)) /\
      c_state C' = c_state C /\ c_aterm C' = c_aterm C /\ c_term C' = c_term C.
  Proof.
    intros HA Hs Hk (C0 & HC0 & Hag).
    destruct (apply_world o w t i m term r k Hs Hk) as (Hdev & C & P & C' & HC & HP & HC' & Hi & Hlt & Hpay & Hv & Hr).
    rewrite HC in HC0. injection HC0 as <-. cbn zeta. split; [|split; [exact Hdev|]].
    - exists C'. split; [exact HC'|]. rewrite Hdev, Hv. apply (HA C P HC HP); assumption.
    - exists C, P, C'. repeat split; try assumption; apply Hr.
  Qed.

  (* (1) an invocation cut right after the device request: the device is ahead of the record; the retry re-sends the
     same request and, answered OK and run to the entry write, restores the agreement (needs apply_idem) *)
  Theorem cut_apply_retry (o o' : oracle) (w : world) t i m term r (k' : nat) :
    (forall (C : config) (P : prop), cfgs w !! t = Some C -> props w !! (t, i) = Some P ->
       apply_sound_at (o_order o') i (c_ainline C) (c_avalues C) (view C) (rb_change P) r (dstate_of w t)) ->
    apply_idem_at (dstate_of w t) r -> agrees w t -> sent_by_apply w o t i m term r COk ->
    let w1 := step w (LRec (CtlProp (t, i)) 1 o) in
    dstate_of w1 t = dev_apply (dstate_of w t) r /\ cfgs w1 = cfgs w /\
    (dev_answer w1 t term o' = COk -> (3 <= k')%nat ->
     sent_by_apply w1 o' t i m term r COk /\ agrees (step w1 (LRec (CtlProp (t, i)) k' o')) t).
  Proof.
    intros HA HI (C0 & HC0 & Hag) Hs.
    destruct (apply_effects o w t i m term r Hs) as (C & P & HC & HP & -> & Hlt & _ & Hpay & Hes).
    rewrite HC in HC0. injection HC0 as <-. cbn zeta.
    assert (Hw1 : step w (LRec (CtlProp (t, i)) 1 o) = apply_eff w (EDev (DevSet t m (c_term C) (Some i) r COk)))
      by (cbn [Proto2.step Proto2.reconcile]; rewrite Hes; reflexivity).
    rewrite Hw1. clear Hw1.
    set (w1 := apply_eff w (EDev (DevSet t m (c_term C) (Some i) r COk))).
    assert (Hd1 : dstate_of w1 t = dev_apply (dstate_of w t) r).
    { unfold w1. rewrite dstate_eff. cbn [ok_req]. rewrite N.eqb_refl. reflexivity. }
    assert (Hc1 : cfgs w1 = cfgs w) by (unfold w1; rewrite cfgs_apply_eff; reflexivity).
    split; [exact Hd1|]. split; [exact Hc1|]. intros Ha' Hk'.
    assert (Hs1 : sent_by_apply w1 o' t i m (c_term C) r COk).
    { destruct Hs as (C1 & P1 & G1 & G2 & G3 & G4 & G5 & G6 & G7 & G8).
      exists C1, P1. unfold w1. rewrite cfgs_apply_eff, props_apply_eff, rels_apply_eff, conns_apply_eff, targets_apply_eff.
      rewrite G1 in HC. injection HC as ->.
      repeat (split; [assumption|]). split; [symmetry; exact Ha'|exact G8]. }
    split; [exact Hs1|].
    destruct (apply_world o' w1 t i m (c_term C) r k' Hs1 Hk') as (Hdev & C2 & P2 & C' & HC2 & HP2 & HC' & _ & _ & _ & Hv & _).
    rewrite Hc1, HC in HC2. injection HC2 as <-.
    assert (HP2' : props w1 !! (t, i) = Some P) by (unfold w1; rewrite props_apply_eff; exact HP).
    rewrite HP2' in HP2. injection HP2 as <-.
    exists C'. split; [exact HC'|]. rewrite Hdev, Hd1, Hv, HI. apply (HA C P HC HP); assumption.
  Qed.

  (** * (c) A complete re-push answered OK *)
  Definition synced_cfg (C : config) : config :=
    C <| c_state := CSynchronized |> <| c_amaster := c_master C |> <| c_aterm := c_term C |>.

  Lemma resync_effs_ok t m term (rs : list Req) :
    @resync_effs V Ch Req t m term COk (map Some rs) = (map (fun r => EDev (DevSet t m term None r COk)) rs, None).
  Proof. induction rs as [|r rs IH]; [reflexivity|]. cbn. rewrite IH. reflexivity. Qed.

  Lemma resync_effects (o : oracle) (w : world) t m term r (rs : list Req) :
    sent_by_resync w o t m term r COk ->
    exists C : config, cfgs w !! t = Some C /\ targets w !! t = Some false /\ term = c_term C /\ c_state C = CSynchronizing /\
      c_applied C <> 0 /\
      (resync_payload (aview C) = map Some rs ->
       fst (rec_cfg o w t) = map (fun r => EDev (DevSet t m (c_term C) None r COk)) rs ++ upd_status t C (synced_cfg C)).
  Proof.
    intros (C & HC & HT & -> & Hm & (tt & Hrel) & (cc & Hconn) & Ha & Hst & Happ & Hin).
    exists C. repeat (split; [assumption || reflexivity|]). intros Hrs.
    unfold Proto2.rec_cfg. rewrite HC, HT, Hst. cbn [negb]. rewrite bool_decide_eq_true_2 by reflexivity. cbn [negb].
    rewrite Hm. apply N.eqb_neq in Happ. rewrite Happ, Hrel, Hconn, <- Ha, Hrs, resync_effs_ok. unfold synced_cfg. rewrite Hm. reflexivity.
  Qed.

  Lemma ok_reqs_map_ok t m term og (rs : list Req) :
    ok_reqs t (map (fun r => EDev (DevSet t m term og r COk)) rs) = rs.
  Proof. induction rs as [|r rs IH]; [reflexivity|]. cbn [map ok_reqs ok_req]. rewrite N.eqb_refl, IH. reflexivity. Qed.

  Lemma cfg_fold_devs t (C : config) t0 m term og a (rs : list Req) :
    fold_left (cfg_on t) (map (fun r => EDev (DevSet t0 m term og r a)) rs) C = C.
  Proof. induction rs as [|r rs IH]; [reflexivity|]. cbn. exact IH. Qed.

  (* the complete invocation: every request of the re-push answered OK, then the status write *)
  Theorem resync_establishes_agreement (o : oracle) (w : world) t m term r (rs : list Req) (k : nat) (C : config) :
    restore_sound_at (c_ainline C) (c_avalues C) -> sent_by_resync w o t m term r COk -> cfgs w !! t = Some C ->
    resync_payload (aview C) = map Some rs -> (length rs + 2 <= k)%nat ->
    (resync_sound_empty_at (aview C) rs /\ dstate_of w t = d_empty) \/
    (resync_sound_same_at (aview C) rs (dstate_of w t) /\ agrees w t) ->
    let w' := step w (LRec (CtlCfg t) k o) in
    agrees w' t /\ dstate_of w' t = fold_left dev_apply rs (dstate_of w t) /\
    exists C', cfgs w' !! t = Some C' /\ c_state C' = CSynchronized /\ c_aterm C' = c_term C' /\ c_term C' = c_term C /\
               c_applied C' = c_applied C /\ c_applied C <> 0 /\ abs_app (aview C') = abs_app (aview C).
  Proof.
    intros HR Hs HC Hrs Hk Hmode.
    destruct (resync_effects o w t m term r rs Hs) as (C0 & HC0 & HT & -> & Hst & Happ & Hes).
    rewrite HC in HC0. injection HC0 as <-. specialize (Hes Hrs).
    cbn zeta. cbn [Proto2.step Proto2.reconcile]. rewrite Hes.
    rewrite firstn_all2 by (rewrite app_length, map_length; unfold Proto2.upd_status; cbn; lia).
    set (es := map _ rs ++ _).
    assert (Hdev : dstate_of (fold_left apply_eff es w) t = fold_left dev_apply rs (dstate_of w t)).
    { unfold es. rewrite dstate_fold, ok_reqs_app, ok_reqs_map_ok. unfold Proto2.upd_status. cbn [ok_reqs ok_req].
      rewrite app_nil_r. reflexivity. }
    pose proof (cfg_fold es t w C HC) as HC'. unfold es in HC'. rewrite (fold_left_app (cfg_on t)), cfg_fold_devs in HC'.
    unfold Proto2.upd_status in HC'. cbn [fold_left cfg_on] in HC'. rewrite !N.eqb_refl in HC'.
    (* the entry written last holds the loaded applied values, stored again: [HR] says what they stand for *)
    split; [|split; [exact Hdev|]].
    - eexists. split; [exact HC'|]. rewrite Hdev. etransitivity; [|symmetry; exact HR].
      destruct Hmode as [(HE & Hd)|(HSm & (C1 & HC1 & Hag))].
      + rewrite Hd. apply HE. exact Hrs.
      + rewrite HC in HC1. injection HC1 as <-. apply HSm; assumption.
    - eexists. split; [exact HC'|]. repeat split; try exact Happ. exact HR.
  Qed.

  Notation label := (@label Ch).
  Definition complete (w : world) (l : label) : Prop :=
    match l with LRec c k o => (length (fst (reconcile o w c)) <= k)%nat | _ => True end.
  (* the re-push requests can always be built *)
  Definition resync_total : Prop := forall va, exists rs, resync_payload va = map Some rs.
  (* the obligations of the pure layer at the values the step [l] works on *)
  Definition pure_ok (w : world) (t : N) (l : label) : Prop :=
    forall C, cfgs w !! t = Some C ->
      status_sound_at (pair_of C) /\
      match l with
      | LRec (CtlProp (t', i)) _ o =>
        t' = t -> forall (P : prop) r, props w !! (t, i) = Some P ->
          apply_sound_at (o_order o) i (c_ainline C) (c_avalues C) (view C) (rb_change P) r (dstate_of w t)
      | LRec (CtlCfg t') _ _ =>
        t' = t -> exists rs, resync_payload (aview C) = map Some rs /\
                             resync_sound_empty_at (aview C) rs /\ resync_sound_same_at (aview C) rs (dstate_of w t)
      | _ => True
      end.
  (* no restart of the device of [t], [t] is not declared persistent, invocations run to their end, and the pure layer
     meets its obligations at the values of the step *)
  Definition allowed (t : N) (w : world) (l : label) : Prop :=
    complete w l /\ l <> LDevRestart t /\ l <> LTarget t true /\ pure_ok w t l.
  Inductive crun (t : N) : world -> world -> Prop :=
  | crun_refl w : crun t w w
  | crun_step w w1 l : crun t w w1 -> allowed t w1 l -> crun t w (step w1 l).
  (* the device agrees with the applied values, or it is empty and the configuration is not synchronised in its
     current term (so that nothing is sent before the re-push) *)
  Definition conv (w : world) (t : N) : Prop :=
    exists C, cfgs w !! t = Some C /\ targets w !! t <> Some true /\
      (c_applied C = 0 -> abs_app (aview C) = abs_dev d_empty) /\
      (agrees w t \/ (dstate_of w t = d_empty /\ unsynced C)).

  Lemma conv_env (w w' : world) t :
    cfgs w' = cfgs w -> devs w' !! t = devs w !! t -> targets w' !! t <> Some true -> conv w t -> conv w' t.
  Proof.
    intros Hc Hd Ht (C & HC & _ & H0 & Hmode). exists C. rewrite Hc. split; [exact HC|]. split; [exact Ht|]. split; [exact H0|].
    destruct Hmode as [(C1 & HC1 & Hag)|(Hde & Hu)].
    - left. exists C1. rewrite Hc. split; [exact HC1|]. rewrite (dstate_devs _ _ _ Hd). exact Hag.
    - right. rewrite (dstate_devs _ _ _ Hd). auto.
  Qed.

  Lemma unsynced_dec (C : config) : unsynced C \/ ~ unsynced C.
  Proof.
    unfold unsynced. destruct (N.ltb_spec (c_aterm C) (c_term C)) as [H|H]; [left; left; exact H|].
    destruct (decide (c_state C = CSynchronizing)) as [E|E]; [left; right; exact E|]. right. intros [H1|H1]; [lia|contradiction].
  Qed.

  (* any prefix of an invocation that is quiet for [t] keeps [conv]: an agreeing device by [quiet_keeps_agreement]; an
     empty device stays empty, and the configuration leaves [unsynced] only with nothing applied yet or through the
     status write that ends a re-push without requests *)
  Lemma conv_quiet (w : world) c k o t :
    reach w -> conv w t -> pure_ok w t (LRec c k o) -> ok_reqs t (fst (reconcile o w c)) = [] ->
    conv (step w (LRec c k o)) t.
  Proof.
    intros Hr (C & HC & HT & H0 & Hmode) Hpure Eq. destruct (Hpure C HC) as (HS & Hpl).
    destruct (quiet_invocation w c k o t C HS HC Eq) as (Hd & C' & HC2 & Hv).
    exists C'. split; [exact HC2|]. split; [cbn [Proto2.step]; rewrite targets_fold; exact HT|]. split.
    { intros Hz. rewrite Hv. apply H0.
      pose proof (cursors_monotone candidate candidate_rb rollback_of overlay commit_merge payload record_applied touched restore
                    resync_payload doc_ok dev_apply stamp v_empty d_empty ch_empty w (LRec c k o) t Hr) as [_ Hmono].
      unfold applied_of in Hmono. rewrite HC2, HC in Hmono. lia. }
    destruct Hmode as [Hag|(Hde & Hu)].
    { left. apply quiet_keeps_agreement; [|assumption..].
      intros C1 HC1. rewrite HC in HC1. injection HC1 as <-. exact HS. }
    destruct (unsynced_dec C') as [Hu'|Hnu]; [right; split; [rewrite (dstate_devs _ _ _ Hd); exact Hde|exact Hu']|].
    left. exists C'. split; [exact HC2|]. rewrite (dstate_devs _ _ _ Hd), Hde, Hv.
    (* the only way out of [unsynced] is the status write of the configuration reconciler *)
    pose proof HC2 as Hcs. cbn [Proto2.step] in Hcs. apply cfg_prefix in Hcs.
    destruct Hcs as [(C1 & HC1 & S)|[(c1 & Hin & S)|(c1 & _ & Hn & _)]]; [| |congruence].
    { exfalso. rewrite HC in HC1. injection HC1 as <-. sim_cbn S. apply Hnu.
      destruct Hu as [Hlt|Hst]; [left; lia|right; congruence]. }
    pose proof Hin as Hw. apply reconcile_putcfg in Hw. destruct Hw as (C1 & c0 & HC1 & Hw & S0).
    rewrite HC in HC1. injection HC1 as <-. pose proof (sim_trans _ _ _ S0 S) as S'.
    pose proof HC as Hle. eapply aterm_le_term in Hle; [|exact Hr].
    inversion Hw; subst; sim_cbn S';
      try (exfalso; apply Hnu; destruct Hu as [Hlt|Hst]; [left; lia|right; congruence]);
      try (exfalso; apply Hnu; right; congruence);
      try contradiction.
    (* CW_synced *)
    destruct (N.eq_dec (c_applied C) 0) as [Hz|Hnz]; [symmetry; apply H0; exact Hz|].
    cbn [Proto2.reconcile] in Hin, Eq.
    match goal with H : c_state C = CSynchronizing |- _ => rename H into Hsy end.
    match goal with H : targets w !! t = Some false |- _ => rename H into Htf end.
    destruct (resync_completes overlay restore resync_payload v_empty d_empty o w t C c1 HC Htf Hsy Hnz Hin)
      as (m1 & rs & _ & Hrs & Hes & _).
    rewrite Hes, ok_reqs_app, ok_reqs_map_ok in Eq. apply app_eq_nil in Eq. destruct Eq as [-> _].
    destruct (Hpl eq_refl) as (rs0 & Hrs0 & HE & _). rewrite Hrs in Hrs0.
    assert (rs0 = []) as -> by (destruct rs0; [reflexivity|discriminate Hrs0]).
    exact (HE Hrs).
  Qed.

  Lemma conv_step (w : world) (l : label) t :
    reach w -> conv w t -> allowed t w l -> conv (step w l) t.
  Proof.
    intros Hr Hcv (Hcomp & Hnr & Hnp & Hpure).
    assert (HT0 : targets w !! t <> Some true) by (destruct Hcv as (C & _ & HT & _); exact HT).
    destruct l as [chs sy se|ri|c k o|c t0|c|c t0|t0 p|t0|t0]; cbn [Proto2.step].
    3:{ (* a complete reconcile invocation: quiet, or an apply or a re-push answered OK *)
        destruct (quiet_or_sent o w c t) as [Eq|Hsent]; [apply conv_quiet; assumption|].
        destruct Hcv as (C & HC & _ & H0 & Hmode). destruct (Hpure C HC) as (HS & Hpl). cbn [complete] in Hcomp.
        assert (Htg : targets (step w (LRec c k o)) !! t <> Some true) by (cbn [Proto2.step]; rewrite targets_fold; exact HT0).
        destruct Hsent as [(i & m & term & r & -> & Hs)|(m & term & r & -> & Hs)].
        + destruct (apply_effects o w t i m term r Hs) as (C1 & P & HC1 & HP & -> & Hlt & Hnu & Hpay & Hes).
          rewrite HC in HC1. injection HC1 as <-.
          destruct Hmode as [(C0 & HC0 & Hag)|(_ & Hu)]; [|contradiction]. rewrite HC in HC0. injection HC0 as <-.
          assert (Hk : (3 <= k)%nat) by (cbn [Proto2.reconcile] in Hcomp; rewrite Hes in Hcomp; cbn in Hcomp; lia).
          destruct (apply_world o w t i m (c_term C) r k Hs Hk)
            as (Hdev & C2 & P2 & C' & HC2 & HP2 & HC' & Hi & _ & _ & Hv & _).
          rewrite HC in HC2. injection HC2 as <-. rewrite HP in HP2. injection HP2 as <-.
          exists C'. split; [exact HC'|]. split; [exact Htg|]. split; [intros Hz; lia|left].
          exists C'. split; [exact HC'|]. cbn [Proto2.step] in Hdev. rewrite Hdev, Hv. apply (Hpl eq_refl); assumption.
        + destruct (Hpl eq_refl) as (rs & Hrs & HE & HSm).
          destruct (resync_effects o w t m term r rs Hs) as (C1 & HC1 & _ & -> & _ & Hnz & Hes).
          rewrite HC in HC1. injection HC1 as <-. specialize (Hes Hrs).
          assert (Hk : (length rs + 2 <= k)%nat).
          { cbn [Proto2.reconcile] in Hcomp. rewrite Hes, app_length, map_length in Hcomp. unfold Proto2.upd_status in Hcomp.
            cbn in Hcomp. exact Hcomp. }
          assert (Hm : (resync_sound_empty_at (aview C) rs /\ dstate_of w t = d_empty) \/
                       (resync_sound_same_at (aview C) rs (dstate_of w t) /\ agrees w t))
            by (destruct Hmode as [Hag|(Hde & _)]; [right; auto|left; auto]).
          destruct (resync_establishes_agreement o w t m (c_term C) r rs k C (proj1 HS) Hs HC Hrs Hk Hm)
            as (Hag' & _ & C' & HC'' & _ & _ & _ & Happ & Hnz' & _).
          exists C'. split; [exact HC''|]. split; [exact Htg|]. split; [intros Hz; congruence|left; exact Hag']. }
    (* the environment: only the target declaration and the restart touch what [conv] reads *)
    all: try destruct (conns w !! c); try destruct (rels w !! c); try exact Hcv;
      apply (conv_env w); try reflexivity; try assumption; cbn.
    - destruct (decide (t0 = t)) as [->|Hne]; [|rewrite lookup_insert_ne by exact Hne; exact HT0].
      rewrite lookup_insert. intros [= ->]. apply Hnp. reflexivity.
    - destruct (decide (t0 = t)) as [->|Hne]; [rewrite lookup_delete; discriminate|rewrite lookup_delete_ne by exact Hne; exact HT0].
    - destruct (decide (t0 = t)) as [->|Hne]; [exfalso; apply Hnr; reflexivity|]. rewrite lookup_insert_ne by exact Hne. reflexivity.
  Qed.

  Theorem converged (w w' : world) t :
    reach w -> conv w t -> crun t w w' -> reach w' /\ conv w' t.
  Proof.
    intros Hr Hcv Hrun. induction Hrun as [w|w w1 l Hrun IH Hal]; [auto|].
    destruct (IH Hr Hcv) as (Hr1 & Hc1). split.
    - apply reach_step, Hr1.
    - apply conv_step; assumption.
  Qed.

  (* whenever the configuration is reported SYNCHRONIZED in its current term, the device agrees *)
  Theorem converged_synchronized (w w' : world) t (C' : config) :
    reach w -> conv w t -> crun t w w' ->
    cfgs w' !! t = Some C' -> c_state C' = CSynchronized -> c_aterm C' = c_term C' -> agrees w' t.
  Proof.
    intros Hr Hcv Hrun HC' Hst Hat.
    destruct (converged w w' t Hr Hcv Hrun) as (_ & C & HC & _ & _ & [Hag|(_ & Hu)]); [exact Hag|].
    rewrite HC' in HC. injection HC as <-. destruct Hu as [Hlt|Hs]; [lia|congruence].
  Qed.

  Theorem pure_ok_global (w : world) t (l : label) :
    status_sound -> apply_sound -> resync_sound_empty -> resync_sound_same -> resync_total -> pure_ok w t l.
  Proof.
    intros HS HA HE HSm HRT C HC. split; [apply HS|].
    destruct l as [| |[|[t' i]|t'| |] k o| | | | | |]; try exact I.
    - intros _ P r _. apply HA.
    - intros _. destruct (HRT (aview C)) as (rs & Hrs). exists rs. split; [exact Hrs|]. split; [apply HE|apply HSm].
  Qed.

  (** * (3) The applied values only ever receive OK-answered changes *)
  (* what is written into the applied map of [t]: the loaded applied values again, or the record of an OK apply *)
  Definition avalues_written (o : oracle) (w : world) (c : ctrl) (t : N) (C : config) (v : V) : Prop :=
    v = restore (c_avalues C) (aview C) \/
    exists i (P : prop), c = CtlProp (t, i) /\ props w !! (t, i) = Some P /\ dev_answer w t (c_term C) o = COk /\
      v = record_applied (o_order o) i (c_avalues C) (aview C) (view C) (rb_change P).

  Lemma rec_prop_putavalues (o : oracle) (w : world) t' i t v :
    In (EPutAValues t v) (fst (rec_prop o w (t', i))) ->
    exists C, cfgs w !! t = Some C /\ avalues_written o w (CtlProp (t', i)) t C v.
  Proof.
    destruct (rec_prop_shape candidate candidate_rb rollback_of overlay commit_merge payload record_applied touched restore
                doc_ok v_empty d_empty ch_empty o w t' i)
      as [| | |C0 C' tl HC0 [->|[P' ->]]| | |P C0 m req c P' HP HC0 Hok _|C0 m req a c P' HC0 _ _];
      unfold Proto2.upd_status; intros Hi; in_cases Hi; injection Hi as <- <-; exists C0; (split; [exact HC0|]).
    1,2,4: left; reflexivity.
    right. exists i, P. auto.
  Qed.

  Lemma status_tail_putavalues (o : oracle) (w : world) c t' t v tl :
    status_tail w t' tl -> In (EPutAValues t v) tl -> exists C, cfgs w !! t = Some C /\ avalues_written o w c t C v.
  Proof.
    intros [->|(C & C' & HC & ->)] Hi; cbv [Proto2.upd_status] in Hi; in_cases Hi. injection Hi as <- <-. exists C. split; [exact HC|left; reflexivity].
  Qed.

  Lemma reconcile_putavalues (o : oracle) (w : world) c t v :
    In (EPutAValues t v) (fst (reconcile o w c)) -> exists C, cfgs w !! t = Some C /\ avalues_written o w c t C v.
  Proof.
    destruct c as [i|[t' i]|t'|t'|cc]; cbn [Proto2.reconcile].
    - intros H. exfalso. pose proof (rec_tx_tp stamp w i) as Hf. rewrite List.Forall_forall in Hf. exact (Hf _ H).
    - apply rec_prop_putavalues.
    - intros H. destruct (rec_cfg_shape o w t') as (m & term & a & reqs & tl & E & Htl). rewrite E in H.
      apply in_app_or in H. destruct H as [H|H]; [apply resync_effs_in in H; destruct H as (? & Hd & _); discriminate Hd|].
      exact (status_tail_putavalues o w _ t' t v tl Htl H).
    - exact (status_tail_putavalues o w _ t' t v _ (rec_master_shape o w t')).
    - intros H%rec_conn_only_rel. destruct H.
  Qed.

  Lemma avalues_fold t (es : list eff) : forall C : config,
    c_avalues (fold_left (cfg_on t) es C) = c_avalues C \/
    exists v, In (EPutAValues t v) es /\ c_avalues (fold_left (cfg_on t) es C) = v.
  Proof.
    induction es as [|e r IH]; intros C; [left; reflexivity|]. cbn [fold_left].
    destruct (IH (cfg_on t C e)) as [H|(v & Hin & H)]; [|right; exists v; split; [right; exact Hin|exact H]].
    rewrite H. destruct e as [| | |t0 c|t0 c|t0 v|t0 v| | |]; try (left; reflexivity); cbn [cfg_on];
      (destruct (N.eqb_spec t0 t) as [->|Hne]; [|left; reflexivity]); [left; reflexivity..|].
    right. exists v. split; [left|]; reflexivity.
  Qed.

  Theorem avalues_change_only (w : world) (l : label) t (C C' : config) :
    cfgs w !! t = Some C -> cfgs (step w l) !! t = Some C' -> c_avalues C' <> c_avalues C ->
    exists c k o, l = LRec c k o /\ avalues_written o w c t C (c_avalues C').
  Proof using All. (* Properties/C04.v instantiates it over the whole context *)
    intros HC HC' Hne.
    destruct (step_cases candidate candidate_rb rollback_of overlay commit_merge payload record_applied touched restore
                resync_payload doc_ok dev_apply stamp v_empty d_empty ch_empty w l) as [(c & k & o & ->)|(Hc & _)];
      [|rewrite Hc, HC in HC'; injection HC' as <-; exfalso; apply Hne; reflexivity].
    cbn [Proto2.step] in HC'. rewrite (cfg_fold _ t w C HC) in HC'. injection HC' as <-.
    destruct (avalues_fold t (firstn k (fst (reconcile o w c))) C) as [H|(v & Hin & H)]; [contradiction|].
    eapply or_introl, in_or_app in Hin. rewrite firstn_skipn in Hin. apply reconcile_putavalues in Hin. destruct Hin as (C1 & HC1 & Hw).
    rewrite HC in HC1. injection HC1 as <-. exists c, k, o. split; [reflexivity|]. rewrite H. exact Hw.
  Qed.

  Theorem restart_stores (w : world) t :
    cfgs (step w (LDevRestart t)) = cfgs w /\ props (step w (LDevRestart t)) = props w /\ txs (step w (LDevRestart t)) = txs w /\
    targets (step w (LDevRestart t)) = targets w /\ rels (step w (LDevRestart t)) = rels w /\ conns (step w (LDevRestart t)) = conns w.
  Proof. repeat split. Qed.

  Theorem quiet_keeps_device (w : world) c k o t :
    ok_reqs t (fst (reconcile o w c)) = [] -> dstate_of (step w (LRec c k o)) t = dstate_of w t.
  Proof.
    intros Hq. apply dstate_devs. cbn [Proto2.step]. apply devs_fold_none. apply ok_reqs_firstn_nil. exact Hq.
  Qed.

  (* a device that restarts (empty) while its configuration is not synchronised in the current term - the connection
     was replaced: new term by C10 - is in the domain of [converged]: the next complete re-push restores the agreement
     and nothing else is sent before *)
  Theorem restart_then_resync (w : world) t (C : config) :
    cfgs w !! t = Some C -> targets w !! t <> Some true -> (c_applied C = 0 -> abs_app (aview C) = abs_dev d_empty) ->
    unsynced C -> conv (step w (LDevRestart t)) t.
  Proof.
    intros HC HT H0 Hu. exists C. split; [exact HC|]. split; [exact HT|]. split; [exact H0|]. right. split; [apply restart_empties|exact Hu].
  Qed.

  (* a device that refuses or fails transiently (any answer but OK), any controller, any prefix *)
  Theorem refused_keeps_agreement (w : world) c k o t :
    (forall C, cfgs w !! t = Some C -> status_sound_at (pair_of C)) ->
    (forall C, cfgs w !! t = Some C -> dev_answer w t (c_term C) o <> COk) ->
    agrees w t ->
    agrees (step w (LRec c k o)) t /\ devs (step w (LRec c k o)) !! t = devs w !! t.
  Proof.
    intros HS Hno Hag. pose proof (refused_is_quiet o w c t Hno) as Hq. split; [apply quiet_keeps_agreement; assumption|].
    cbn [Proto2.step]. apply devs_fold_none. apply ok_reqs_firstn_nil. exact Hq.
  Qed.

  (* (4) "the stored configuration" of the property text is the COMMITTED one; that the applied values stand for the
     same thing once everything committed is applied and no apply failed is a statement about commit_merge versus
     record_applied: named here, proved nowhere (Properties/C03.v and C02.v are about the committed side) *)
  Definition commit_apply_agree (w : world) (t : N) : Prop :=
    forall C, cfgs w !! t = Some C -> c_applied C = c_committed C ->
      (forall i (P : prop), props w !! (t, i) = Some P -> p_apply P <> Some Failed) ->
      abs_app (aview C) = abs_app (view C).
End Converge.
