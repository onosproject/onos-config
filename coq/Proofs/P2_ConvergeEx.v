(* C04 on the executable instance (Model/P2Pure.v, Model/P2Inst.v):
   - the abstraction: abs_dev = the leaves of the device sorted by path, abs_app = the live leaves of an applied-values
     map (not deleted, not beneath a deleted path: P2Pure.live), and the well-formedness predicates under which the
     obligations of Proofs/P2_Converge.v are expected to hold;
   - the obligations evaluated on concrete instances (vm_compute), and the witnesses where they FAIL outside the
     well-formed domain (a change that deletes a path and updates a leaf beneath it; a re-push of applied values
     holding a live value beneath a tombstone of another index, in the other order of the groups);
   - for every implication theorem of Properties/C04.v: its hypotheses are satisfiable on a non-trivial reachable
     world of the instance (three changes, connection loss, device restart, new term). *)
From stdpp Require Import gmap.
From Coq Require Import NArith String Lia.
From OC Require Import Base.Bytes Model.P2Pure Model.Proto2 Model.P2Inst Proofs.P2Base Proofs.P2_Cursor Proofs.P2_Converge.
Open Scope N_scope.

(** * The abstraction *)
Fixpoint ins_kv (x : str * str) (l : list (str * str)) : list (str * str) :=
  match l with [] => [x] | y :: l' => if ltb_str (fst x) (fst y) then x :: l else y :: ins_kv x l' end.
Definition abs_dev_i (d : dstate) : list (str * str) := fold_right ins_kv [] d.
Definition abs_app_i (va : cmap) : list (str * str) := live va.

(* well-formedness: keys unique and equal to the path of their value; no entry beneath (or at) a deleted path of
   another entry *)
Fixpoint nodup_keys (m : cmap) : bool :=
  match m with [] => true | (k, _) :: r => negb (existsb (fun kv => eqb_str k (fst kv)) r) && nodup_keys r end.
Definition wf_applied (m : cmap) : bool :=
  nodup_keys m && forallb (fun kv => eqb_str (fst kv) (pv_path (snd kv))) m &&
  forallb (fun kv => negb (existsb (fun kd => pv_deleted (snd kd) && is_path_below (fst kv) (fst kd)) m)) m.
(* a change does not delete a path and write that path or something beneath it *)
Definition wf_change (ch : cmap) : bool :=
  nodup_keys ch && forallb (fun kv => eqb_str (fst kv) (pv_path (snd kv))) ch &&
  forallb (fun kv => negb (existsb (fun kd => pv_deleted (snd kd) && is_path_below (fst kv) (fst kd)) ch)) ch.

Notation i_apply_sound_at := (apply_sound_at overlay payload record_applied dev_apply nil abs_dev_i abs_app_i).
Notation i_status_sound_at := (status_sound_at overlay restore nil abs_app_i).
Notation i_restore_sound_at := (restore_sound_at overlay restore nil abs_app_i).
Notation i_resync_empty_at := (resync_sound_empty_at resync_payload dev_apply nil abs_dev_i abs_app_i).
Notation i_resync_same_at := (resync_sound_same_at resync_payload dev_apply abs_dev_i abs_app_i).
Notation i_apply_idem_at := (apply_idem_at dev_apply abs_dev_i).

Definition pvl (p v : string) (i : N) : str * pv := (B p, mkPV (B p) (B v) false i).
Definition pvd (p : string) (i : N) : str * pv := (B p, mkPV (B p) [] true i).

(* the re-push requests can always be built *)
Definition rs_of (va : cmap) : list req := map (fun g => to_req (snd g)) (group_by_index (map snd va) []).
Lemma resync_payload_rs va : resync_payload va = map Some (rs_of va).
Proof. unfold resync_payload, rs_of. rewrite map_map. reflexivity. Qed.
Lemma resync_total_inst : resync_total resync_payload.
Proof. intros va. exists (rs_of va). apply resync_payload_rs. Qed.

(** * The obligations on concrete instances *)
(* applied values: /a/b=1 (1), /a/c=2 (1), /x=9 (2); committed view the same; device agreeing *)
Definition va1 : cmap := [pvl "/a/b" "1" 1; pvl "/a/c" "2" 1; pvl "/x" "9" 2].
Definition d1 : dstate := [(B "/x", B "9"); (B "/a/c", B "2"); (B "/a/b", B "1")].
(* the Go map iteration orders of the recording: ord codes the order of the change values and, divided by the factorial
   of their number, the order of the updated values; 0..5 covers every pair of orders of the examples below (at most
   two change values and two updated values, or one change value and three updated values) *)
Definition ords6 : list N := [0; 1; 2; 3; 4; 5].
Ltac all_ords_tac :=
  repeat (apply List.Forall_cons; [unfold apply_sound_at; intros _ _; vm_compute; reflexivity|]); apply List.Forall_nil.

(* a delete of the container /a: cascades to both leaves *)
Example apply_sound_delete : exists r, payload 3 va1 [pvd "/a" 3] = Some r /\ abs_dev_i d1 = abs_app_i (overlay [] va1) /\
  wf_applied va1 = true /\ wf_change [pvd "/a" 3] = true /\
  Forall (fun ord => i_apply_sound_at ord 3 [] va1 va1 [pvd "/a" 3] r d1) ords6.
Proof. eexists. split; [vm_compute; reflexivity|]. repeat split; try (vm_compute; reflexivity). all_ords_tac. Qed.
(* an update of a value and a new leaf, the applied values partly inlined in the entry *)
Example apply_sound_update : exists r, payload 3 va1 [pvl "/a/b" "7" 3; pvl "/y" "0" 3] = Some r /\
  Forall (fun ord => i_apply_sound_at ord 3 [pvl "/a/b" "1" 1] va1 va1 [pvl "/a/b" "7" 3; pvl "/y" "0" 3] r d1) ords6.
Proof. eexists. split; [vm_compute; reflexivity|all_ords_tac]. Qed.
(* a value re-created beneath an applied tombstone (the committed view is ahead: it no longer holds the tombstone) *)
Example apply_sound_recreate : exists r, payload 4 [pvl "/a/c" "3" 4] [pvl "/a/c" "3" 4] = Some r /\
  Forall (fun ord => i_apply_sound_at ord 4 [] [pvd "/a" 2; pvl "/x" "9" 1] [pvl "/a/c" "3" 4] [pvl "/a/c" "3" 4] r [(B "/x", B "9")]) ords6.
Proof. eexists. split; [vm_compute; reflexivity|all_ords_tac]. Qed.
(* a delete applied while the committed view is ahead: it no longer holds the child /a/b the applied values hold, and
   holds a child /a/c (of a later change) they do not.  AddDeleteChildren cascades to /a/c only; the tombstone of /a is
   what covers /a/b in the applied values.  Every order of the recording (finding F-23, repaired: before the repair
   applyChangeToConfig dropped the deleted ancestors of EVERY value it set, tombstones included, so recording the
   tombstone of /a/c after the one of /a removed the latter and /a/b stayed live - see [old_function_drops] below). *)
Example apply_sound_lagging_delete : exists r, payload 2 [pvl "/a/c" "3" 3] [pvd "/a" 2] = Some r /\
  wf_change [pvd "/a" 2] = true /\ wf_applied [pvl "/a/b" "1" 1] = true /\ wf_applied [pvl "/a/c" "3" 3] = true /\
  Forall (fun ord => i_apply_sound_at ord 2 [] [pvl "/a/b" "1" 1] [pvl "/a/c" "3" 3] [pvd "/a" 2] r [(B "/a/b", B "1")]) ords6.
Proof. eexists. split; [vm_compute; reflexivity|]. repeat split; try (vm_compute; reflexivity). all_ords_tac. Qed.
(* the function before the repair, on the two recorded tombstones in the order [/a; /a/c] *)
Definition apply_change_to_config_old (m : cmap) (path : str) (v : pv) : cmap :=
  fst (fold_left (fun '(acc, dropped) a =>
               match lookup a acc with
               | Some e => if pv_deleted e then (remove a acc, Some (a, e)) else (acc, dropped)
               | None => (acc, dropped)
               end) (ancestors path) (insert path v m, @None (str * pv))).
Example old_function_drops :
  live (apply_change_to_config_old (apply_change_to_config_old [pvl "/a/b" "1" 1] (B "/a") (snd (pvd "/a" 2))) (B "/a/c") (snd (pvd "/a/c" 2)))
    = [(B "/a/b", B "1")] /\
  live (fst (apply_change_to_config (fst (apply_change_to_config [pvl "/a/b" "1" 1] (B "/a") (snd (pvd "/a" 2)))) (B "/a/c") (snd (pvd "/a/c" 2))))
    = [].
Proof. split; vm_compute; reflexivity. Qed.

(* FAILS outside wf_change: one change deleting /a and setting /a/b.  The request is "delete /a" only (the update is
   pruned as lying beneath the delete, in either order); in half of the Go map orders of the recording (0 and 3 of
   0..3) the recorded applied values say /a/b = 1: the device does not hold what the applied configuration says.  Device-side
   facet of the open finding F-14-C03 (c03_delete_update_overlap). *)
Definition ch_overlap : cmap := [pvd "/a" 2; pvl "/a/b" "1" 2].
Example apply_sound_overlap_refuted :
  wf_change ch_overlap = false /\
  payload 2 [] ch_overlap = Some (mkReq [B "/a"] []) /\ payload 2 [] (rev ch_overlap) = Some (mkReq [B "/a"] []) /\
  abs_dev_i [] = abs_app_i (overlay [] []) /\
  abs_dev_i (dev_apply [] (mkReq [B "/a"] [])) = [] /\
  map (fun ord => abs_app_i (loaded overlay nil (record_applied ord 2 [] (overlay [] []) [] ch_overlap))) [0; 1; 2; 3] =
    [[(B "/a/b", B "1")]; []; []; [(B "/a/b", B "1")]] /\
  ~ i_apply_sound_at 0 2 [] [] [] ch_overlap (mkReq [B "/a"] []) [].
Proof.
  repeat split; try (vm_compute; reflexivity). intros H.
  assert (Hx : abs_dev_i (dev_apply [] (mkReq [B "/a"] [])) =
               abs_app_i (loaded overlay nil (record_applied 0 2 [] (overlay [] []) [] ch_overlap)))
    by (apply H; vm_compute; reflexivity).
  vm_compute in Hx. discriminate Hx.
Qed.

(* status updates *)
Example status_sound_plain : i_status_sound_at ([], va1) /\ i_status_sound_at (va1, va1).
Proof. repeat split; vm_compute; reflexivity. Qed.
Example status_sound_tombstones :
  i_status_sound_at ([], [pvd "/a" 2; pvl "/x" "9" 1]) /\
  i_status_sound_at ([pvl "/a/b" "1" 1; pvl "/x" "9" 1], [pvd "/a" 2; pvl "/x" "9" 1]) /\
  i_status_sound_at ([pvl "/n" "5" 3], [pvd "/a" 2; pvl "/x" "9" 1]).
Proof. repeat split; vm_compute; reflexivity. Qed.

(* re-push: from the empty device and from an agreeing one; groups by index *)
Definition va2 : cmap := [pvl "/a/b" "1" 1; pvd "/c" 3; pvl "/x" "9" 2; pvl "/a/c" "2" 1; pvd "/q/r" 2].
Definition d2 : dstate := [(B "/x", B "9"); (B "/a/c", B "2"); (B "/a/b", B "1")].
Example resync_sound_inst : let rs := rs_of va2 in resync_payload va2 = map Some rs /\ List.length rs = 3%nat /\ wf_applied va2 = true /\
  i_resync_empty_at va2 rs /\ i_resync_same_at va2 rs d2 /\ abs_dev_i d2 = abs_app_i va2 /\
  (* ... and in the reverse order of the groups *)
  abs_dev_i (fold_left dev_apply (rev rs) []) = abs_app_i va2.
Proof.
  cbn zeta. split; [apply resync_payload_rs|]. repeat split; try (vm_compute; reflexivity).
Qed.
(* outside wf_applied (a live value beneath a tombstone of another index: only after an invocation cut between the
   map write and the entry write, see the header of Properties/C04.v) the order of the groups matters *)
Definition va_nonwf : cmap := [pvl "/a/b" "1" 1; pvd "/a" 2].
Example resync_order_matters_nonwf : exists r1 r2, resync_payload va_nonwf = [Some r1; Some r2] /\ wf_applied va_nonwf = false /\
  abs_app_i va_nonwf = [] /\
  abs_dev_i (fold_left dev_apply [r1; r2] []) = [] /\
  abs_dev_i (fold_left dev_apply [r2; r1] []) = [(B "/a/b", B "1")].
Proof. eexists _, _. repeat split; vm_compute; reflexivity. Qed.

(* the same request twice *)
Example apply_idem_inst : i_apply_idem_at d1 (mkReq [B "/a"] [(B "/y", B "0"); (B "/x", B "8")]).
Proof. vm_compute. reflexivity. Qed.

(** * Reachable worlds of the instance on which the hypotheses of the theorems hold *)
Definition x_oracle (a : code) : oracle := mkOracle true true a 0 0.
Definition x_round (o : oracle) (c t : N) (is : list N) : list Label :=
  [LRec (CtlConn c) 9 o; LRec (CtlMaster t) 9 o; LRec (CtlCfg t) 9 o]
  ++ map (fun i => LRec (CtlProp (t, i)) 9 o) is ++ map (fun i => LRec (CtlTx i) 9 o) is.
Fixpoint x_rounds (n : nat) (o : oracle) (c t : N) (is : list N) : list Label :=
  match n with O => [] | S n => x_round o c t is ++ x_rounds n o c t is end.
Definition x_ch (p v : string) : cmap := [(B p, mkPV (B p) (B v) false 0)].
Definition x_del (p : string) : cmap := [(B p, mkPV (B p) [] true 0)].
Definition x_run (ls : list Label) : Wd := fold_left p2_step ls p2_init.
Notation i_reach := (reach candidate candidate_rb rollback_of overlay commit_merge payload record_applied touched restore
                           resync_payload doc_ok dev_apply stamp nil nil nil).
Lemma x_run_reach ls : i_reach (x_run ls).
Proof. exists ls. reflexivity. Qed.

Notation i_agrees := (@agrees cmap cmap req dstate overlay nil _ abs_dev_i abs_app_i).
Notation i_conv := (@conv cmap cmap req dstate overlay nil _ abs_dev_i abs_app_i).
Notation i_sent_by_apply := (@sent_by_apply cmap cmap req dstate overlay payload nil nil).
Notation i_sent_by_resync := (@sent_by_resync cmap cmap req dstate overlay resync_payload nil).
Notation i_dstate_of := (@dstate_of cmap cmap req dstate nil).
Notation i_crun := (crun candidate candidate_rb rollback_of overlay commit_merge payload record_applied touched restore
                         resync_payload doc_ok dev_apply stamp nil nil nil abs_dev_i abs_app_i).
Notation i_ok_reqs := (@ok_reqs cmap cmap req).

(* target 1 (not persistent), connection 10, three changes: /a/b = 1, /c = 2, delete /c *)
Definition l0 : list Label :=
  [LTarget 1 false; LConnUp 10 1; LChange [(1, x_ch "/a/b" "1")] true false; LChange [(1, x_ch "/c" "2")] true false;
   LChange [(1, x_del "/c")] true false].
(* the device does not answer: change 1 stays APPLYING, every guard of the apply is passed *)
Definition w_send : Wd := x_run (l0 ++ x_rounds 30 (x_oracle CUnavailable) 10 1 [1; 2; 3]).
(* everything applied *)
Definition l_applied : list Label := l0 ++ x_rounds 30 (x_oracle COk) 10 1 [1; 2; 3].
Definition w_applied : Wd := x_run l_applied.
(* connection lost, master resigns, a new connection, a new master in term 2 *)
Definition l_newterm : list Label :=
  l_applied ++ [LConnDown 10; LRec (CtlConn 10) 9 (x_oracle COk); LRec (CtlMaster 1) 9 (x_oracle COk);
                LConnUp 11 1; LRec (CtlConn 11) 9 (x_oracle COk); LRec (CtlMaster 1) 9 (x_oracle COk)].
Definition w_newterm : Wd := x_run l_newterm.
(* ... the device restarts empty, the configuration reconciler starts the re-synchronisation *)
Definition w_resync_empty : Wd := x_run (l_newterm ++ [LDevRestart 1; LRec (CtlCfg 1) 9 (x_oracle COk)]).
(* ... the same without a restart *)
Definition w_resync_same : Wd := x_run (l_newterm ++ [LRec (CtlCfg 1) 9 (x_oracle COk)]).

Ltac cfg_tac HC := vm_compute in HC; injection HC as <-.

(* quiet invocations (C04_status_updates_keep_agreement, C04_refused_or_transient_keeps_agreement) *)
Example ex_quiet_hyps :
  i_agrees w_applied 1 /\ (forall C, cfgs w_applied !! 1 = Some C -> i_status_sound_at (pair_of C)) /\
  i_ok_reqs 1 (fst (p2_reconcile (x_oracle CUnavailable) w_applied (CtlMaster 1))) = [] /\
  i_dstate_of w_applied 1 = [(B "/a/b", B "1")].
Proof.
  split; [eexists; split; vm_compute; reflexivity|]. split; [|split; vm_compute; reflexivity].
  intros C HC. cfg_tac HC. repeat split; vm_compute; reflexivity.
Qed.
Example ex_refused_hyps :
  i_agrees w_send 1 /\ (forall C, cfgs w_send !! 1 = Some C -> dev_answer (nil : dstate) w_send 1 (c_term C) (x_oracle CInvalidArgument) <> COk).
Proof.
  split; [eexists; split; vm_compute; reflexivity|]. intros C HC. cfg_tac HC. vm_compute. discriminate.
Qed.

(* a complete apply answered OK (C04_apply_keeps_agreement_partial), the cut and the retry (C04_cut_apply_retry_partial) *)
Example ex_apply_hyps : exists term r,
  i_sent_by_apply w_send (x_oracle COk) 1 1 10 term r COk /\ i_agrees w_send 1 /\
  (forall (C : Cfg) (P : Prop2), cfgs w_send !! 1 = Some C -> props w_send !! (1, 1) = Some P ->
     i_apply_sound_at (o_order (x_oracle COk)) 1 (c_ainline C) (c_avalues C) (view overlay C) (rb_change nil P) r (i_dstate_of w_send 1)) /\
  i_apply_idem_at (i_dstate_of w_send 1) r /\
  dev_answer (nil : dstate) (p2_step w_send (LRec (CtlProp (1, 1)) 1 (x_oracle COk))) 1 term (x_oracle COk) = COk.
Proof.
  eexists _, _. split.
  { eexists _, _. split; [vm_compute; reflexivity|]. split; [vm_compute; reflexivity|]. split; [reflexivity|].
    split; [vm_compute; reflexivity|]. split; [eexists; vm_compute; reflexivity|]. split; [vm_compute; eexists; reflexivity|].
    split; [vm_compute; reflexivity|]. split; [vm_compute; reflexivity|]. split; [vm_compute; reflexivity|].
    split; [left; vm_compute; reflexivity|]. split; [vm_compute; discriminate|]. split; [vm_compute; discriminate|].
    split; [vm_compute; eexists; reflexivity|]. vm_compute. reflexivity. }
  split; [eexists; split; vm_compute; reflexivity|]. split; [|split; vm_compute; reflexivity].
  intros C P HC HP. cfg_tac HC. vm_compute in HP. injection HP as <-.
  unfold apply_sound_at. intros _ _. vm_compute. reflexivity.
Qed.

(* a complete re-push answered OK (C04_resync_establishes_agreement_partial), device empty after a restart *)
Example ex_resync_empty_hyps : exists term r C, let rs := rs_of (aview overlay C) in
  i_sent_by_resync w_resync_empty (x_oracle COk) 1 11 term r COk /\ cfgs w_resync_empty !! 1 = Some C /\
  resync_payload (aview overlay C) = map Some rs /\ List.length rs = 2%nat /\
  i_restore_sound_at (c_ainline C) (c_avalues C) /\ i_resync_empty_at (aview overlay C) rs /\ i_dstate_of w_resync_empty 1 = [].
Proof.
  eexists _, _, _. cbn zeta. split.
  { eexists. split; [vm_compute; reflexivity|]. split; [vm_compute; reflexivity|]. split; [reflexivity|].
    split; [vm_compute; reflexivity|]. split; [eexists; vm_compute; reflexivity|]. split; [vm_compute; eexists; reflexivity|].
    split; [vm_compute; reflexivity|]. split; [vm_compute; reflexivity|]. split; [vm_compute; discriminate|].
    vm_compute. left. reflexivity. }
  split; [vm_compute; reflexivity|]. split; [apply resync_payload_rs|]. split; [vm_compute; reflexivity|].
  split; [vm_compute; reflexivity|]. split; [intros _; vm_compute; reflexivity|vm_compute; reflexivity].
Qed.
(* ... device still agreeing (connection replaced, no restart) *)
Example ex_resync_same_hyps : exists term r C, let rs := rs_of (aview overlay C) in
  i_sent_by_resync w_resync_same (x_oracle COk) 1 11 term r COk /\ cfgs w_resync_same !! 1 = Some C /\
  resync_payload (aview overlay C) = map Some rs /\
  i_restore_sound_at (c_ainline C) (c_avalues C) /\ i_resync_same_at (aview overlay C) rs (i_dstate_of w_resync_same 1) /\
  i_agrees w_resync_same 1.
Proof.
  eexists _, _, _. cbn zeta. split.
  { eexists. split; [vm_compute; reflexivity|]. split; [vm_compute; reflexivity|]. split; [reflexivity|].
    split; [vm_compute; reflexivity|]. split; [eexists; vm_compute; reflexivity|]. split; [vm_compute; eexists; reflexivity|].
    split; [vm_compute; reflexivity|]. split; [vm_compute; reflexivity|]. split; [vm_compute; discriminate|].
    vm_compute. left. reflexivity. }
  split; [vm_compute; reflexivity|]. split; [apply resync_payload_rs|].
  split; [vm_compute; reflexivity|]. split; [intros _ _; vm_compute; reflexivity|eexists; split; vm_compute; reflexivity].
Qed.

(* restart in a new term (C04_restart_breaks_only_until_resync) *)
Example ex_restart_hyps : exists C, cfgs w_newterm !! 1 = Some C /\ targets w_newterm !! 1 <> Some true /\
  c_applied C <> 0 /\ unsynced C /\ i_agrees w_newterm 1.
Proof.
  eexists. split; [vm_compute; reflexivity|]. split; [vm_compute; discriminate|]. split; [vm_compute; discriminate|].
  split; [left; vm_compute; reflexivity|eexists; split; vm_compute; reflexivity].
Qed.

(* the run theorem (C04_converged_partial): from the restarted, not yet synchronised world the complete re-push is an
   allowed step; afterwards the configuration is SYNCHRONIZED in term 2 and the device holds the applied leaves *)
Example ex_converged_hyps :
  i_reach w_resync_empty /\ i_conv w_resync_empty 1 /\
  i_crun 1 w_resync_empty (p2_step w_resync_empty (LRec (CtlCfg 1) 9 (x_oracle COk))) /\
  exists C', cfgs (p2_step w_resync_empty (LRec (CtlCfg 1) 9 (x_oracle COk))) !! 1 = Some C' /\
             c_state C' = CSynchronized /\ c_aterm C' = c_term C' /\ c_term C' = 2 /\
             i_dstate_of (p2_step w_resync_empty (LRec (CtlCfg 1) 9 (x_oracle COk))) 1 = [(B "/a/b", B "1")].
Proof.
  split; [apply x_run_reach|]. split.
  { eexists. split; [vm_compute; reflexivity|]. split; [vm_compute; discriminate|]. split; [vm_compute; discriminate|].
    right. split; [vm_compute; reflexivity|]. right. vm_compute. reflexivity. }
  split.
  { apply crun_step; [apply crun_refl|]. split; [|split; [discriminate|split; [discriminate|]]].
    - cbn [complete]. apply Nat.leb_le. vm_compute. reflexivity.
    - intros C HC. cfg_tac HC. split; [repeat split; vm_compute; reflexivity|].
      intros _. eexists. split; [apply resync_payload_rs|]. split; [intros _|intros _ _]; vm_compute; reflexivity. }
  eexists. split; [vm_compute; reflexivity|]. repeat split; vm_compute; reflexivity.
Qed.

(** * The lagging delete at protocol level (finding F-23, repaired): converges in every order *)
(* /a/b = 1 is applied; the device becomes unreachable; "delete /a" and "/a/c = 3" are committed; the device comes
   back (term 2, re-push of /a/b = 1); the two changes are applied, the loops of reconcileApply in the Go map order
   [ord]; then the connection is replaced once more (term 3, complete re-push).  In every order: all transactions
   APPLIED, configuration SYNCHRONIZED in its term, device = applied values = committed configuration = {/a/c = 3},
   before and after the last re-push.  (Before the repair the order 1 kept /a/b in the applied values and the last
   re-push put it back on the device.) *)
Definition x_oracle_ord (ord : N) : oracle := mkOracle true true COk 0 ord.
Definition l_lag_a : list Label :=
  [LTarget 1 false; LConnUp 10 1; LChange [(1, x_ch "/a/b" "1")] true false] ++ x_rounds 20 (x_oracle COk) 10 1 [1]
  ++ [LConnDown 10; LRec (CtlConn 10) 9 (x_oracle COk); LRec (CtlMaster 1) 9 (x_oracle COk);
      LChange [(1, x_del "/a")] true false; LChange [(1, x_ch "/a/c" "3")] true false]
  ++ x_rounds 30 (x_oracle COk) 10 1 [2; 3].
Definition l_lag_b (o : oracle) : list Label :=
  l_lag_a ++ [LConnUp 11 1] ++ x_rounds 3 (x_oracle COk) 11 1 [] ++ x_rounds 16 o 11 1 [2; 3].
Definition l_lag_c (o : oracle) : list Label :=
  l_lag_b o ++ [LConnDown 11; LRec (CtlConn 11) 9 (x_oracle COk); LRec (CtlMaster 1) 9 (x_oracle COk); LConnUp 12 1]
  ++ x_rounds 4 (x_oracle COk) 12 1 [].
Definition lag_summary (w : Wd) :=
  (map (fun kv => (fst kv, t_state (snd kv))) (w_txs w),
   map (fun kv => (c_applied (snd kv), c_committed (snd kv), c_state (snd kv), c_term (snd kv), c_aterm (snd kv),
                   abs_app_i (aview overlay (snd kv)), abs_app_i (view overlay (snd kv)))) (w_cfgs w),
   map (fun kv => abs_dev_i (d_state (snd kv))) (w_devs w)).
Example lagging_delete_converges :
  Forall (fun ord =>
    lag_summary (x_run (l_lag_b (x_oracle_ord ord))) =
      ([(1, TApplied); (3, TApplied); (2, TApplied)],
       [(3, 3, CSynchronized, 2, 2, [(B "/a/c", B "3")], [(B "/a/c", B "3")])], [[(B "/a/c", B "3")]]) /\
    i_agrees (x_run (l_lag_b (x_oracle_ord ord))) 1 /\
    lag_summary (x_run (l_lag_c (x_oracle_ord ord))) =
      ([(1, TApplied); (3, TApplied); (2, TApplied)],
       [(3, 3, CSynchronized, 3, 3, [(B "/a/c", B "3")], [(B "/a/c", B "3")])], [[(B "/a/c", B "3")]]) /\
    i_agrees (x_run (l_lag_c (x_oracle_ord ord))) 1) ords6.
Proof.
  repeat (apply List.Forall_cons;
          [split; [vm_compute; reflexivity|]; split; [eexists; split; vm_compute; reflexivity|];
           split; [vm_compute; reflexivity|eexists; split; vm_compute; reflexivity]|]).
  apply List.Forall_nil.
Qed.
