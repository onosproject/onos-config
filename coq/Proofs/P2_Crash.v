(* C07 - a crash between any two store writes loses nothing and repeats nothing (protocol part).
   A crash, a swallowed write conflict and an error returned between two persisted effects are all the same thing in
   Model/Proto2.v: the step [LRec c k o] executes the first k effects of the invocation.  Hence every invariant proved
   over [reach] holds at every crash point.  This file proves what the RE-RUN of an interrupted invocation does
   (commit, apply, abort of the proposal reconciler; the transaction reconciler), and exhibits the two interruption
   points after which the re-run does NOT complete the interrupted work with the same content. *)
From stdpp Require Import gmap.
From RecordUpdate Require Import RecordUpdate.
From Coq Require Import NArith Lia String.
From OC Require Import Base.Bytes Model.P2Pure Model.Proto2 Model.P2Inst Proofs.P2Base Proofs.P2Phases Proofs.P2_Failure.
Open Scope N_scope.

Section Crash.
  Context {V Ch Req D : Type}.
  Context (candidate : V -> Ch -> V) (candidate_rb : V -> Ch -> V) (rollback_of : V -> Ch -> Ch)
          (overlay : V -> V -> V) (commit_merge : N -> N -> V -> V -> Ch -> V)
          (payload : N -> V -> Ch -> option Req) (record_applied : N -> N -> V -> V -> V -> Ch -> V)
          (touched : N -> V -> Ch -> V) (restore : V -> V -> V)
          (resync_payload : V -> list (option Req)) (doc_ok : V -> bool)
          (dev_apply : D -> Req -> D) (stamp : N -> Ch -> Ch) (v_empty : V) (d_empty : D) (ch_empty : Ch).

  Notation world := (@world V Ch Req D).
  Notation eff := (@eff V Ch Req).
  Notation txn := (@txn Ch).
  Notation prop := (@prop Ch).
  Notation config := (@config V).
  Notation apply_eff := (@apply_eff V Ch Req D dev_apply d_empty).
  Notation rec_tx := (@rec_tx V Ch Req D stamp).
  Notation rec_prop := (@rec_prop V Ch Req D candidate candidate_rb rollback_of overlay commit_merge payload record_applied
                                  touched restore doc_ok v_empty d_empty ch_empty).
  Notation reconcile := (@reconcile V Ch Req D candidate candidate_rb rollback_of overlay commit_merge payload record_applied
                                    touched restore resync_payload doc_ok stamp v_empty d_empty ch_empty).
  Notation step := (@step V Ch Req D candidate candidate_rb rollback_of overlay commit_merge payload record_applied
                          touched restore resync_payload doc_ok dev_apply stamp v_empty d_empty ch_empty).
  Notation reach := (@reach V Ch Req D candidate candidate_rb rollback_of overlay commit_merge payload record_applied
                            touched restore resync_payload doc_ok dev_apply stamp v_empty d_empty ch_empty).
  Notation J := (@J V Ch Req D).
  Notation view := (@view V overlay).
  Notation aview := (@aview V overlay).
  Notation dev_answer := (@dev_answer V Ch Req D d_empty).
  Notation dev_of := (@dev_of V Ch Req D d_empty).
  Notation rb_change := (@rb_change Ch ch_empty).
  Notation upd_status := (@upd_status V Ch Req overlay restore v_empty).
  Notation sendable := (@sendable V Ch Req D overlay payload ch_empty).
  Notation after_answer := (@after_answer V Ch Req overlay record_applied touched restore v_empty ch_empty).

  Lemma prefix_is_step (w : world) c (k : nat) o :
    step w (LRec c k o) = fold_left apply_eff (firstn k (fst (reconcile o w c))) w.
  Proof. reflexivity. Qed.

  Lemma invariants_survive_crash (w : world) :
    reach w -> forall c (k : nat) o, J (step w (LRec c k o)) /\ reach (step w (LRec c k o)).
  Proof.
    intros Hr c k o. split.
    - eapply J_reach, reach_step, Hr.
    - apply reach_step, Hr.
  Qed.

  Lemma any_invariant_survives_crash (I : world -> Prop) :
    I init -> (forall w l, I w -> I (step w l)) ->
    forall w, reach w -> forall c (k : nat) o, I (step w (LRec c k o)).
  Proof.
    intros Hi Hs w Hr c k o. apply Hs.
    eapply reach_ind; eauto.
  Qed.

  Lemma step_all (w : world) c (k : nat) o :
    (List.length (fst (reconcile o w c)) <= k)%nat -> step w (LRec c k o) = fold_left apply_eff (fst (reconcile o w c)) w.
  Proof. intros Hk. cbn [Proto2.step]. rewrite firstn_all2 by exact Hk. reflexivity. Qed.

  (* if, in the world after the first k effects, the invocation consists of exactly the effects that were left, then
     every prefix of the re-run continues the interrupted run *)
  Lemma resume (w : world) c (k k' : nat) o o' :
    fst (reconcile o' (step w (LRec c k o)) c) = skipn k (fst (reconcile o w c)) ->
    step (step w (LRec c k o)) (LRec c k' o') = step w (LRec c (k + k') o).
  Proof. intros He. cbn [Proto2.step] in *. rewrite He, <- fold_left_app, take_take_drop. reflexivity. Qed.

  (* ... and a re-run that is long enough gives the world of the uninterrupted invocation *)
  Lemma resume_end (w : world) c (k : nat) o o' (es : list eff) :
    fst (reconcile o w c) = es -> fst (reconcile o' (step w (LRec c k o)) c) = skipn k es ->
    forall k', (List.length es <= k + k')%nat -> step (step w (LRec c k o)) (LRec c k' o') = step w (LRec c (List.length es) o).
  Proof. intros <- He k' Hk. rewrite (resume _ _ _ _ _ _ He), !step_all by lia. reflexivity. Qed.

  Lemma put_twice (w : world) (e : eff) :
    match e with EPutTx _ _ | EPutProp _ _ | ECreateProp _ _ | ECreateCfg _ _ | EPutValues _ _ | EPutAValues _ _ => True | _ => False end ->
    apply_eff (apply_eff w e) e = apply_eff w e.
  Proof.
    destruct e as [i T|k P|k P|t c| |t v|t v| | |]; intros He; try destruct He; cbn.
    - rewrite insert_insert. reflexivity.
    - destruct (props w !! k) eqn:E; cbn; [rewrite E; reflexivity|]. rewrite lookup_insert. reflexivity.
    - rewrite insert_insert. reflexivity.
    - destruct (cfgs w !! t) eqn:E; cbn; [rewrite E; reflexivity|]. rewrite lookup_insert. reflexivity.
    - destruct (cfgs w !! t) eqn:E; cbn; [|rewrite E; reflexivity]. rewrite lookup_insert. cbn. rewrite insert_insert. reflexivity.
    - destruct (cfgs w !! t) eqn:E; cbn; [|rewrite E; reflexivity]. rewrite lookup_insert. cbn. rewrite insert_insert. reflexivity.
  Qed.

  Record committing (w : world) (t i : N) (P : prop) (C : config) : Prop := {
    cm_prop : props w !! (t, i) = Some P;
    cm_apply : p_apply P = None; cm_abort : p_abort P = None;
    cm_commit : p_commit P = Some Doing;
    cm_cfg : cfgs w !! t = Some C }.

  Definition commit_entry (i : N) (P : prop) (C : config) : config :=
    C <| c_index := match p_details P with PChange _ => i | PRollback _ => p_rbindex P end |>
      <| c_committed := i |> <| c_inline := v_empty |> <| c_ainline := aview C |>.

  Lemma commit_effects (o : oracle) (w : world) t i P C :
    committing w t i P C ->
    rec_prop o w (t, i) =
      ((if c_committed C =? p_prev P
        then [EPutValues t (commit_merge (o_order o) i (c_values C) (view C) (rb_change P)); EPutCfg t (commit_entry i P C)]
        else []) ++ [EPutProp (t, i) (P <| p_commit := Some Done |>)], requeue_next t P).
  Proof.
    intros [HP Ha Hb Hc HC]. unfold Proto2.rec_prop. rewrite HP, Ha, Hb, Hc, HC. reflexivity.
  Qed.

  Lemma commit_effects_merge (o : oracle) (w : world) t i P C :
    committing w t i P C -> c_committed C = p_prev P ->
    rec_prop o w (t, i) =
      ([EPutValues t (commit_merge (o_order o) i (c_values C) (view C) (rb_change P)); EPutCfg t (commit_entry i P C);
        EPutProp (t, i) (P <| p_commit := Some Done |>)], requeue_next t P).
  Proof. intros Hc He. rewrite (commit_effects o w t i P C Hc), He, N.eqb_refl. reflexivity. Qed.

  (* crash after the entry write, before the proposal write: the committed index has moved past the predecessor,
     the re-run does not merge again and only writes the proposal *)
  Lemma commit_resume_after_entry (o o' : oracle) (w : world) t i P C :
    committing w t i P C -> c_committed C = p_prev P -> p_prev P <> i ->
    let w2 := step w (LRec (CtlProp (t, i)) 2 o) in
    rec_prop o' w2 (t, i) = ([EPutProp (t, i) (P <| p_commit := Some Done |>)], requeue_next t P) /\
    forall k', (1 <= k')%nat ->
      step w2 (LRec (CtlProp (t, i)) k' o') = step w (LRec (CtlProp (t, i)) 3 o).
  Proof.
    intros Hc He Hne w2. pose proof (commit_effects_merge o w t i P C Hc He) as Hes.
    assert (Hr : rec_prop o' w2 (t, i) = ([EPutProp (t, i) (P <| p_commit := Some Done |>)], requeue_next t P)).
    { rewrite (commit_effects o' w2 t i P
                 (commit_entry i P C <| c_values := commit_merge (o_order o) i (c_values C) (view C) (rb_change P) |>
                                     <| c_avalues := c_avalues C |>)).
      - cbn [c_committed commit_entry set]. rewrite (proj2 (N.eqb_neq _ _)) by congruence. reflexivity.
      - subst w2. cbn [Proto2.step Proto2.reconcile]. rewrite Hes. cbn [fst firstn fold_left].
        destruct Hc as [HP Ha Hb Hcm HC]. split; try assumption.
        + rewrite !props_apply_eff. exact HP.
        + rewrite !cfgs_apply_eff, HC, lookup_insert. cbn. apply lookup_insert. }
    split; [exact Hr|]. intros k' Hk'. subst w2.
    apply (resume_end w (CtlProp (t, i)) 2 o o' _ (f_equal fst Hes)); [cbn [Proto2.reconcile]; rewrite Hr; reflexivity|cbn; lia].
  Qed.

  Lemma committed_idle (o : oracle) (w : world) t i (P : prop) :
    props w !! (t, i) = Some P -> p_apply P = None -> p_abort P = None -> p_commit P = Some Done ->
    fst (rec_prop o w (t, i)) = [].
  Proof.
    intros HP Ha Hb Hc. unfold Proto2.rec_prop. rewrite HP, Ha, Hb, Hc. reflexivity.
  Qed.

  (* the configuration store's Update is ONE call of the controller but TWO persisted effects (path-value map, then the
     version-checked entry).  A cut is at a store-call boundary when it is not between those two. *)
  Definition store_boundary (k : nat) : Prop := k <> 1%nat.

  (* PARTIAL (cuts at store-call boundaries): wherever the commit invocation is cut, re-running it to its end gives
     exactly the world of ONE uninterrupted commit: nothing merged twice, nothing skipped *)
  Lemma commit_resume_boundary (o o' : oracle) (w : world) t i P C (k : nat) :
    committing w t i P C -> c_committed C = p_prev P -> p_prev P <> i -> store_boundary k ->
    step (step w (LRec (CtlProp (t, i)) k o)) (LRec (CtlProp (t, i)) 3 o') =
    step w (LRec (CtlProp (t, i)) 3 (if Nat.eqb k 0 then o' else o)).
  Proof.
    intros Hc He Hne Hk. pose proof (commit_effects_merge o w t i P C Hc He) as Hes.
    destruct k as [|[|[|k]]]; [reflexivity|contradiction Hk; reflexivity|..]; cbn [Nat.eqb].
    - apply (commit_resume_after_entry o o' w t i P C Hc He Hne). lia.
    - (* all three effects are done: the re-run finds the proposal COMMITTED *)
      apply (resume_end w (CtlProp (t, i)) (S (S (S k))) o o' _ (f_equal fst Hes)); [|cbn; lia].
      cbn [fst skipn]. rewrite drop_nil. apply (committed_idle o' _ t i (P <| p_commit := Some Done |>)).
      + rewrite step_all by (cbn [Proto2.reconcile]; rewrite Hes; cbn; lia). cbn [Proto2.reconcile]. rewrite Hes.
        cbn [fst fold_left]. rewrite !props_apply_eff. apply lookup_insert.
      + exact (cm_apply _ _ _ _ _ Hc).
      + exact (cm_abort _ _ _ _ _ Hc).
      + reflexivity.
  Qed.

  (* crash between the path-value write and the entry write: the committed index has not moved, the re-run merges
     again, now on top of the values already written *)
  Lemma commit_resume_after_values (o o' : oracle) (w : world) t i P C :
    committing w t i P C -> c_committed C = p_prev P ->
    let v1 := commit_merge (o_order o) i (c_values C) (view C) (rb_change P) in
    let w1 := step w (LRec (CtlProp (t, i)) 1 o) in
    let C1 := C <| c_values := v1 |> in
    cfgs w1 !! t = Some C1 /\
    rec_prop o' w1 (t, i) =
      ([EPutValues t (commit_merge (o_order o') i v1 (view C1) (rb_change P)); EPutCfg t (commit_entry i P C1);
        EPutProp (t, i) (P <| p_commit := Some Done |>)], requeue_next t P).
  Proof.
    intros Hc He v1 w1 C1.
    assert (Hc1 : committing w1 t i P C1).
    { subst w1. cbn [Proto2.step Proto2.reconcile]. rewrite (commit_effects_merge o w t i P C Hc He). cbn [fst firstn fold_left].
      destruct Hc as [HP Ha Hb Hcm HC]. split; try assumption.
      - rewrite !props_apply_eff. exact HP.
      - rewrite !cfgs_apply_eff. rewrite HC, lookup_insert. reflexivity. }
    split; [exact (cm_cfg _ _ _ _ _ Hc1)|].
    rewrite (commit_effects_merge o' w1 t i P C1 Hc1 He). reflexivity.
  Qed.

  (* the second merge changes nothing when the pure layer's merge is stable under repetition *)
  Definition merge_rerun_stable (ord ord' i : N) (C : config) (ch : Ch) : Prop :=
    let v1 := commit_merge ord i (c_values C) (view C) ch in
    commit_merge ord' i v1 (overlay (c_inline C) v1) ch = v1.

  Lemma commit_resume_after_values_same (o o' : oracle) (w : world) t i P C :
    committing w t i P C -> c_committed C = p_prev P ->
    merge_rerun_stable (o_order o) (o_order o') i C (rb_change P) ->
    cfgs (step (step w (LRec (CtlProp (t, i)) 1 o)) (LRec (CtlProp (t, i)) 3 o')) =
    cfgs (step w (LRec (CtlProp (t, i)) 3 o)) /\
    props (step (step w (LRec (CtlProp (t, i)) 1 o)) (LRec (CtlProp (t, i)) 3 o')) =
    props (step w (LRec (CtlProp (t, i)) 3 o)).
  Proof.
    intros Hc He Hst.
    destruct (commit_resume_after_values o o' w t i P C Hc He) as [_ Hr]. cbn zeta in Hr.
    (* the second merge writes the values of the first once more; the two entry writes differ only in the values, which
       an entry write does not store: the worlds are equal *)
    assert (Hw : step (step w (LRec (CtlProp (t, i)) 1 o)) (LRec (CtlProp (t, i)) 3 o') = step w (LRec (CtlProp (t, i)) 3 o));
      [|rewrite Hw; split; reflexivity].
    cbn [Proto2.step Proto2.reconcile] in *. rewrite Hr, (commit_effects_merge o w t i P C Hc He). cbn [fst firstn fold_left].
    unfold merge_rerun_stable in Hst. cbn zeta in Hst. unfold Proto2.view in *. cbn [c_inline c_values set] in *.
    rewrite Hst, put_twice by exact I. reflexivity.
  Qed.

  Lemma apply_covered (o : oracle) (w : world) t i (P : prop) (C : config) :
    props w !! (t, i) = Some P -> p_apply P = Some Doing -> cfgs w !! t = Some C -> i <= c_applied C ->
    rec_prop o w (t, i) = ([EPutProp (t, i) (P <| p_apply := Some Done |> <| p_term := c_aterm C |>)], requeue_next t P).
  Proof.
    intros HP Ha HC Hle. unfold Proto2.rec_prop. rewrite HP, Ha, HC.
    replace (i <=? c_applied C) with true by (symmetry; apply N.leb_le; exact Hle). reflexivity.
  Qed.

  (* the device answered OK, so the election id was not below the highest the device had seen *)
  Lemma answered_ok_term (o : oracle) (w : world) t term :
    dev_answer w t term o = COk -> d_max (dev_of w t) <= term /\ o_answer o = COk.
  Proof.
    unfold Proto2.dev_answer. destruct (term <? d_max (dev_of w t)) eqn:E; [discriminate|].
    intros ->. apply N.ltb_ge in E. auto.
  Qed.

  (* crash after the device accepted the request, before anything was stored: the stores are as before, the re-run
     sends the SAME request again (the property text allows the re-send) and the device decides again *)
  Lemma apply_resume_after_send (o o' : oracle) (w : world) t i P C m req :
    sendable w t i P C m req -> dev_answer w t (c_term C) o = COk ->
    let w1 := step w (LRec (CtlProp (t, i)) 1 o) in
    sendable w1 t i P C m req /\
    dev_answer w1 t (c_term C) o' = o_answer o' /\
    rec_prop o' w1 (t, i) = after_answer (o_order o') t i P C m req (o_answer o').
  Proof.
    intros Hs Ha w1.
    assert (Hw1 : w1 = apply_eff w (EDev (DevSet t m (c_term C) (Some i) req COk))).
    { subst w1. cbn [Proto2.step Proto2.reconcile].
      erewrite ok_effects by eassumption. reflexivity. }
    assert (Hs1 : sendable w1 t i P C m req) by (rewrite Hw1; apply sendable_after_dev, Hs).
    assert (Hd : dev_answer w1 t (c_term C) o' = o_answer o').
    { destruct (answered_ok_term o w t (c_term C) Ha) as [Hmax _].
      unfold Proto2.dev_answer, Proto2.dev_of. rewrite Hw1, (devs_apply_eff dev_apply d_empty), lookup_insert. cbn [default d_max].
      rewrite (proj2 (N.ltb_ge _ _)); [reflexivity|]. unfold id. cbn [d_max]. lia. }
    split; [exact Hs1|]. split; [exact Hd|].
    erewrite rec_prop_send by exact Hs1. rewrite Hd. reflexivity.
  Qed.

  (* crash after the configuration entry was written, before the proposal write: the re-run only writes the proposal,
     with the term of the last synchronisation (equal to the mastership term whenever the request could be sent and
     applied terms never exceed mastership terms) *)
  Lemma apply_resume_after_entry (o o' : oracle) (w : world) t i P C m req :
    sendable w t i P C m req -> dev_answer w t (c_term C) o = COk ->
    let w3 := step w (LRec (CtlProp (t, i)) 3 o) in
    rec_prop o' w3 (t, i) = ([EPutProp (t, i) (P <| p_apply := Some Done |> <| p_term := c_aterm C |>)], requeue_next t P) /\
    (c_aterm C <= c_term C ->
     forall k', (1 <= k')%nat -> step w3 (LRec (CtlProp (t, i)) k' o') = step w (LRec (CtlProp (t, i)) 4 o)).
  Proof.
    intros Hs Ha w3.
    pose proof (ok_effects candidate candidate_rb rollback_of overlay commit_merge payload record_applied touched restore
                          doc_ok v_empty d_empty ch_empty o w t i P C m req Hs Ha) as He.
    assert (Hr : rec_prop o' w3 (t, i) = ([EPutProp (t, i) (P <| p_apply := Some Done |> <| p_term := c_aterm C |>)], requeue_next t P)).
    { subst w3. cbn [Proto2.step Proto2.reconcile]. rewrite He. cbn [fst firstn fold_left].
      erewrite apply_covered; cycle 1.
      - rewrite !props_apply_eff. exact (sd_prop _ _ _ _ _ _ _ _ _ _ Hs).
      - exact (sd_applying _ _ _ _ _ _ _ _ _ _ Hs).
      - rewrite !cfgs_apply_eff. rewrite (sd_cfg _ _ _ _ _ _ _ _ _ _ Hs), lookup_insert. cbn. rewrite lookup_insert. reflexivity.
      - cbn. lia.
      - reflexivity. }
    split; [exact Hr|]. intros Hterm k' Hk'. subst w3.
    apply (resume_end w (CtlProp (t, i)) 3 o o' _ (f_equal fst He)); [|cbn; lia].
    cbn [Proto2.reconcile]. rewrite Hr. cbn [fst skipn].
    replace (c_aterm C) with (c_term C) by (pose proof (sd_term _ _ _ _ _ _ _ _ _ _ Hs); lia). reflexivity.
  Qed.

  (* a proposal whose apply FAILED: its reconciler never writes the proposal again (the failure is final); it only moves
     the applied index past the proposal if that has not happened yet (passFailedProposal) *)
  Lemma failed_pass (o : oracle) (w : world) t i (P : prop) (C : config) :
    props w !! (t, i) = Some P -> p_apply P = Some Failed -> cfgs w !! t = Some C ->
    rec_prop o w (t, i) =
      ((if c_applied C <? i
        then [EPutAValues t (restore (c_avalues C) (aview C));
              EPutCfg t (C <| c_applied := i |> <| c_inline := view C |> <| c_ainline := v_empty |>)]
        else []),
       requeue_next t P).
  Proof. intros HP Ha HC. unfold Proto2.rec_prop, Proto2.upd_status. rewrite HP, Ha, HC. reflexivity. Qed.

  (* REFUSED apply, interrupted.  The failure is written on the proposal BEFORE the applied index moves:
     - after the device event only (k = 1) nothing is stored, the proposal is sendable again (the request is re-sent);
     - after the proposal write (k = 2, 3) the proposal is FAILED with the class, and the re-run completes the move of
       the applied index (two configuration effects, no proposal write);
     - after all four effects the re-run has nothing left to do.
     In no case can the proposal be recorded APPLIED (finding F-17, repaired). *)
  Lemma refused_apply_resume_after_send (o o' : oracle) (w : world) t i P C m req f :
    sendable w t i P C m req ->
    dev_answer w t (c_term C) o <> COk ->
    classify (observed (dev_answer w t (c_term C) o)) = ClsFail f ->
    let w1 := step w (LRec (CtlProp (t, i)) 1 o) in
    sendable w1 t i P C m req /\ devs w1 = devs w /\
    rec_prop o' w1 (t, i) = after_answer (o_order o') t i P C m req (dev_answer w t (c_term C) o').
  Proof.
    intros Hs Hne Hc w1.
    assert (Hw1 : w1 = apply_eff w (EDev (DevSet t m (c_term C) (Some i) req (dev_answer w t (c_term C) o)))).
    { subst w1. cbn [Proto2.step Proto2.reconcile].
      erewrite refusal_effects by eassumption. reflexivity. }
    assert (Hd : devs w1 = devs w) by (rewrite Hw1; apply refused_leaves_devices; exact Hne).
    assert (Hs1 : sendable w1 t i P C m req) by (rewrite Hw1; apply sendable_after_dev, Hs).
    split; [exact Hs1|]. split; [exact Hd|].
    erewrite rec_prop_send by exact Hs1.
    unfold Proto2.dev_answer, Proto2.dev_of. rewrite Hd. reflexivity.
  Qed.

  Lemma refused_apply_resume (o o' : oracle) (w : world) t i P C m req f (k : nat) :
    sendable w t i P C m req ->
    dev_answer w t (c_term C) o <> COk ->
    classify (observed (dev_answer w t (c_term C) o)) = ClsFail f ->
    (2 <= k)%nat ->
    let wk := step w (LRec (CtlProp (t, i)) k o) in
    let P' := P <| p_apply := Some Failed |> <| p_afail := Some f |> <| p_term := c_term C |> in
    props wk !! (t, i) = Some P' /\ devs wk = devs w /\
    exists Ck, cfgs wk !! t = Some Ck /\
      (c_applied Ck = c_applied C \/ c_applied Ck = i) /\ c_committed Ck = c_committed C /\ c_values Ck = c_values C /\
      rec_prop o' wk (t, i) =
        ((if c_applied Ck <? i
          then [EPutAValues t (restore (c_avalues Ck) (aview Ck));
                EPutCfg t (Ck <| c_applied := i |> <| c_inline := view Ck |> <| c_ainline := v_empty |>)]
          else []),
         requeue_next t P) /\
      (* running the re-run to its end leaves the applied index at i *)
      (exists C', cfgs (step wk (LRec (CtlProp (t, i)) 2 o')) !! t = Some C' /\ c_applied C' = i /\
                  c_committed C' = c_committed C /\ c_values C' = c_values C) /\
      props (step wk (LRec (CtlProp (t, i)) 2 o')) !! (t, i) = Some P'.
  Proof.
    intros Hs Hne Hc Hk wk P'.
    pose proof (refusal_effects candidate candidate_rb rollback_of overlay commit_merge payload record_applied touched restore
                          doc_ok v_empty d_empty ch_empty o w t i P C m req f Hs Hne Hc) as He.
    pose proof (sd_cfg _ _ _ _ _ _ _ _ _ _ Hs) as HC. pose proof (sd_not_applied _ _ _ _ _ _ _ _ _ _ Hs) as Hlt.
    (* the world at the cut: the proposal is FAILED, the applied index has moved (k >= 4) or not yet *)
    assert (Hw : props wk !! (t, i) = Some P' /\ devs wk = devs w /\
                 exists Ck, cfgs wk !! t = Some Ck /\ (c_applied Ck = c_applied C \/ c_applied Ck = i) /\
                            c_committed Ck = c_committed C /\ c_values Ck = c_values C).
    { subst wk. cbn [Proto2.step Proto2.reconcile]. rewrite He. cbn [fst]. split; [|split].
      - destruct k as [|[|[|[|k]]]]; try lia; cbn [firstn fold_left]; rewrite ?firstn_nil; cbn [fold_left];
          rewrite !props_apply_eff; apply lookup_insert.
      - apply (dev_quiet_fold dev_apply d_empty), Forall_take. repeat constructor. apply refused_quiet, Hne.
      - destruct k as [|[|[|[|k]]]]; try lia; cbn [firstn fold_left]; rewrite ?firstn_nil; cbn [fold_left];
          rewrite !cfgs_apply_eff, HC, ?lookup_insert; cbn; rewrite ?lookup_insert; eexists; (split; [reflexivity|]); cbn; auto. }
    destruct Hw as (HPk & Hd & Ck & HCk & Hap & Hcm & Hv).
    split; [exact HPk|]. split; [exact Hd|]. exists Ck. repeat (split; [assumption|]).
    (* the re-run: the failure is final, only the applied index is left to move *)
    pose proof (failed_pass o' wk t i P' Ck HPk eq_refl HCk) as Hr. split; [exact Hr|].
    cbn [Proto2.step Proto2.reconcile]. rewrite Hr. cbn [fst].
    destruct (N.ltb_spec (c_applied Ck) i) as [Hlt'|Hge]; cbn [firstn fold_left].
    - rewrite !cfgs_apply_eff, !props_apply_eff, HCk, lookup_insert. cbn. rewrite lookup_insert.
      split; [|exact HPk]. eexists. split; [reflexivity|]. cbn. auto.
    - split; [|exact HPk]. exists Ck. split; [exact HCk|]. split; [lia|auto].
  Qed.

  Record aborting (w : world) (t i : N) (P : prop) (C : config) : Prop := {
    ab_prop : props w !! (t, i) = Some P;
    ab_apply : p_apply P = None;
    ab_abort : p_abort P = Some Doing;
    ab_cfg : cfgs w !! t = Some C }.

  Lemma abort_effects (o : oracle) (w : world) t i P C :
    aborting w t i P C ->
    rec_prop o w (t, i) =
      if (c_committed C =? p_prev P) && (c_applied C =? p_prev P) then
        (upd_status t C (C <| c_committed := i |> <| c_applied := i |>) ++ [EPutProp (t, i) (P <| p_abort := Some Done |>)], requeue_next t P)
      else if c_committed C =? p_prev P then
        (upd_status t C (C <| c_committed := i |>), RDone)
      else if (c_applied C =? p_prev P) && (i <=? c_committed C) then
        (upd_status t C (C <| c_applied := i |>) ++ [EPutProp (t, i) (P <| p_abort := Some Done |>)], requeue_next t P)
      else if (i <=? c_committed C) && (i <=? c_applied C) then
        ([EPutProp (t, i) (P <| p_abort := Some Done |>)], requeue_next t P)
      else ([], if p_prev P =? 0 then RDone else RRequeueProp (t, p_prev P)).
  Proof.
    intros [HP Ha Hb HC]. unfold Proto2.rec_prop. rewrite HP, Ha, Hb, HC. reflexivity.
  Qed.

  (* the three branches, each with the configuration entry it writes *)
  Lemma abort_both (o : oracle) (w : world) t i P C :
    aborting w t i P C -> c_committed C = p_prev P -> c_applied C = p_prev P ->
    rec_prop o w (t, i) =
      ([EPutAValues t (restore (c_avalues C) (aview C));
        EPutCfg t (C <| c_committed := i |> <| c_applied := i |> <| c_inline := view C |> <| c_ainline := v_empty |>);
        EPutProp (t, i) (P <| p_abort := Some Done |>)], requeue_next t P).
  Proof. intros Ha H1 H2. rewrite (abort_effects o w t i P C Ha), H1, H2, N.eqb_refl. reflexivity. Qed.

  Lemma abort_committed_only (o : oracle) (w : world) t i P C :
    aborting w t i P C -> c_committed C = p_prev P -> c_applied C <> p_prev P ->
    rec_prop o w (t, i) =
      ([EPutAValues t (restore (c_avalues C) (aview C));
        EPutCfg t (C <| c_committed := i |> <| c_inline := view C |> <| c_ainline := v_empty |>)], RDone).
  Proof.
    intros Ha H1 H2. rewrite (abort_effects o w t i P C Ha), H1, N.eqb_refl, (proj2 (N.eqb_neq _ _) H2). reflexivity.
  Qed.

  Lemma abort_applied_only (o : oracle) (w : world) t i P C :
    aborting w t i P C -> c_committed C <> p_prev P -> c_applied C = p_prev P -> i <= c_committed C ->
    rec_prop o w (t, i) =
      ([EPutAValues t (restore (c_avalues C) (aview C));
        EPutCfg t (C <| c_applied := i |> <| c_inline := view C |> <| c_ainline := v_empty |>);
        EPutProp (t, i) (P <| p_abort := Some Done |>)], requeue_next t P).
  Proof.
    intros Ha H1 H2 H3.
    rewrite (abort_effects o w t i P C Ha), H2, N.eqb_refl, (proj2 (N.eqb_neq _ _) H1), (proj2 (N.leb_le _ _) H3). reflexivity.
  Qed.

  Lemma abort_idle (o : oracle) (w : world) t i P C :
    aborting w t i P C -> c_committed C <> p_prev P -> c_applied C <> p_prev P -> c_committed C < i \/ c_applied C < i ->
    rec_prop o w (t, i) = ([], if p_prev P =? 0 then RDone else RRequeueProp (t, p_prev P)).
  Proof.
    intros Ha H1 H2 H3. rewrite (abort_effects o w t i P C Ha), (proj2 (N.eqb_neq _ _) H1), (proj2 (N.eqb_neq _ _) H2).
    destruct H3 as [H3|H3]; rewrite (proj2 (N.leb_gt _ _) H3), ?andb_false_r; reflexivity.
  Qed.

  Lemma abort_passed (o : oracle) (w : world) t i P C :
    aborting w t i P C -> c_committed C <> p_prev P -> c_applied C <> p_prev P -> i <= c_committed C -> i <= c_applied C ->
    rec_prop o w (t, i) = ([EPutProp (t, i) (P <| p_abort := Some Done |>)], requeue_next t P).
  Proof.
    intros Ha H1 H2 H3 H4. rewrite (abort_effects o w t i P C Ha), (proj2 (N.eqb_neq _ _) H1), (proj2 (N.eqb_neq _ _) H2),
      (proj2 (N.leb_le _ _) H3), (proj2 (N.leb_le _ _) H4). reflexivity.
  Qed.

  Lemma abort_world2 (w : world) t i (P : prop) (C C' : config) va (rest : list eff) :
    aborting w t i P C ->
    aborting (fold_left apply_eff (firstn 2 (EPutAValues t va :: EPutCfg t C' :: rest)) w) t i P
             (C' <| c_values := c_values C |> <| c_avalues := va |>).
  Proof.
    intros [HP Ha Hb HC]. cbv beta iota zeta delta [firstn]. cbn [fold_left]. split; try assumption.
    - rewrite !props_apply_eff. exact HP.
    - rewrite !cfgs_apply_eff, HC, lookup_insert. cbn. apply lookup_insert.
  Qed.

  (* crash before the entry write (after the re-store of the applied values only): the indexes have not moved, the
     re-run takes the same branch again *)
  Lemma abort_resume_after_values (w : world) t i (P : prop) (C : config) va (rest : list eff) :
    aborting w t i P C ->
    let w1 := fold_left apply_eff (firstn 1 (EPutAValues t va :: rest)) w in
    aborting w1 t i P (C <| c_avalues := va |>).
  Proof.
    intros [HP Ha Hb HC]. cbv beta iota zeta delta [firstn]. cbn [fold_left]. split; try assumption.
    - rewrite !props_apply_eff. exact HP.
    - rewrite !cfgs_apply_eff. rewrite HC, lookup_insert. reflexivity.
  Qed.

  (* crash - or a swallowed write conflict on the proposal - after the entry write of a branch that moves the indexes
     and then writes the proposal: with the entry [C'] both indexes have passed the proposal, the re-run writes the
     proposal ABORTED and the world is the one of the uninterrupted invocation *)
  Lemma abort_entry_resume (o o' : oracle) (w : world) t i P C va C' :
    aborting w t i P C ->
    rec_prop o w (t, i) = ([EPutAValues t va; EPutCfg t C'; EPutProp (t, i) (P <| p_abort := Some Done |>)], requeue_next t P) ->
    c_committed C' <> p_prev P -> c_applied C' <> p_prev P -> i <= c_committed C' -> i <= c_applied C' ->
    let w2 := step w (LRec (CtlProp (t, i)) 2 o) in
    rec_prop o' w2 (t, i) = ([EPutProp (t, i) (P <| p_abort := Some Done |>)], requeue_next t P) /\
    forall k', (1 <= k')%nat -> step w2 (LRec (CtlProp (t, i)) k' o') = step w (LRec (CtlProp (t, i)) 3 o).
  Proof.
    intros Ha Hes H1 H2 H3 H4 w2.
    assert (Hr : rec_prop o' w2 (t, i) = ([EPutProp (t, i) (P <| p_abort := Some Done |>)], requeue_next t P)).
    { apply (abort_passed o' w2 t i P (C' <| c_values := c_values C |> <| c_avalues := va |>)); try assumption.
      subst w2. cbn [Proto2.step Proto2.reconcile]. rewrite Hes. exact (abort_world2 w t i P C C' va _ Ha). }
    split; [exact Hr|]. intros k' Hk'. subst w2.
    apply (resume_end w (CtlProp (t, i)) 2 o o' _ (f_equal fst Hes)); [cbn [Proto2.reconcile]; rewrite Hr; reflexivity|cbn; lia].
  Qed.

  (* the first branch (Committed.Index = Applied.Index = i after the entry write; finding F-18, repaired: before, no
     branch matched and the proposal stayed ABORTING for ever) *)
  Lemma abort_both_resume (o o' : oracle) (w : world) t i P C :
    aborting w t i P C -> c_committed C = p_prev P -> c_applied C = p_prev P -> p_prev P <> i ->
    let w2 := step w (LRec (CtlProp (t, i)) 2 o) in
    rec_prop o' w2 (t, i) = ([EPutProp (t, i) (P <| p_abort := Some Done |>)], requeue_next t P) /\
    forall k', (1 <= k')%nat -> step w2 (LRec (CtlProp (t, i)) k' o') = step w (LRec (CtlProp (t, i)) 3 o).
  Proof.
    intros Ha H1 H2 Hne. apply (abort_entry_resume o o' w t i P C _ _ Ha (abort_both o w t i P C Ha H1 H2)); cbn;
      try congruence; apply N.le_refl.
  Qed.

  (* the same for the third branch *)
  Lemma abort_applied_resume (o o' : oracle) (w : world) t i P C :
    aborting w t i P C -> c_committed C <> p_prev P -> c_applied C = p_prev P -> i <= c_committed C -> p_prev P <> i ->
    let w2 := step w (LRec (CtlProp (t, i)) 2 o) in
    rec_prop o' w2 (t, i) = ([EPutProp (t, i) (P <| p_abort := Some Done |>)], requeue_next t P) /\
    forall k', (1 <= k')%nat -> step w2 (LRec (CtlProp (t, i)) k' o') = step w (LRec (CtlProp (t, i)) 3 o).
  Proof.
    intros Ha H1 H2 H3 Hne. apply (abort_entry_resume o o' w t i P C _ _ Ha (abort_applied_only o w t i P C Ha H1 H2 H3)); cbn;
      try congruence; try apply N.le_refl; exact H3.
  Qed.

  (* second branch: it never writes the proposal; after its entry write the proposal waits until the applied index
     reaches its predecessor and then the third branch finishes the abort *)
  Lemma abort_committed_resume (o o' : oracle) (w : world) t i P C :
    aborting w t i P C -> c_committed C = p_prev P -> c_applied C <> p_prev P -> c_applied C < i -> p_prev P <> i ->
    let w2 := step w (LRec (CtlProp (t, i)) 2 o) in
    rec_prop o' w2 (t, i) = ([], if p_prev P =? 0 then RDone else RRequeueProp (t, p_prev P)) /\
    exists C2, aborting w2 t i P C2 /\ c_committed C2 = i /\ c_applied C2 = c_applied C.
  Proof.
    intros Ha H1 H2 H3 Hne w2. subst w2. cbn [Proto2.step Proto2.reconcile]. rewrite (abort_committed_only o w t i P C Ha H1 H2). cbn [fst].
    split.
    - eapply abort_idle; [exact (abort_world2 w t i P C _ _ [] Ha)|cbn; congruence..|right; exact H3].
    - eexists. split; [exact (abort_world2 w t i P C _ _ [] Ha)|split; reflexivity].
  Qed.

  (* its output is a function of the transaction and proposal stores alone *)
  Lemma scan_props_snapshot (w w' : world) i tg f : props w = props w' -> scan_props w i tg f = scan_props w' i tg f.
  Proof. intros Hp. induction tg as [|t ts IH]; cbn [scan_props]; [reflexivity|]. rewrite Hp, IH. reflexivity. Qed.

  Lemma rec_tx_snapshot (w w' : world) i : txs w = txs w' -> props w = props w' -> rec_tx w i = rec_tx w' i.
  Proof.
    intros Ht Hp. unfold Proto2.rec_tx, phase_scan, gate, all_props, blocked_by_prev, create_props.
    rewrite Ht. destruct (txs w' !! i) as [T|]; [|reflexivity]. cbv zeta.
    rewrite !(scan_props_snapshot w w') by exact Hp. rewrite Hp. reflexivity.
  Qed.

  Lemma neutral_fold (effs : list eff) : forall w : world,
    Forall (@tp_neutral V Ch Req) effs ->
    txs (fold_left apply_eff effs w) = txs w /\ props (fold_left apply_eff effs w) = props w.
  Proof.
    induction effs as [|e r IH]; intros w Hf; [split; reflexivity|].
    inversion Hf as [|? ? He Hr]; subst. cbn [fold_left]. destruct (IH (apply_eff w e) Hr) as [E1 E2].
    rewrite E1, E2, txs_apply_eff, props_apply_eff. destruct e; try (split; reflexivity); destruct He.
  Qed.

  (* an invocation repeated after steps that wrote no transaction and no proposal (whatever happened to
     configurations, devices, topology) emits exactly the same effects *)
  Lemma rec_tx_repeat (w : world) i c (k : nat) o :
    Forall (@tp_neutral V Ch Req) (firstn k (fst (reconcile o w c))) ->
    rec_tx (step w (LRec c k o)) i = rec_tx w i.
  Proof.
    intros Hf. cbn [Proto2.step]. destruct (neutral_fold _ w Hf) as [E1 E2]. apply rec_tx_snapshot; assumption.
  Qed.

  (* outside the proposal-creation branch an invocation of the transaction reconciler is at most ONE write *)
  Lemma rec_tx_single_write (w : world) i (T : txn) :
    txs w !! i = Some T -> is_Some (t_props T) \/ t_init T <> Some Doing \/ is_Some (t_validate T) ->
    (List.length (fst (rec_tx w i)) <= 1)%nat.
  Proof.
    intros HT Hc. unfold Proto2.rec_tx, phase_scan, gate, fail_init. rewrite HT.
    destruct_matches; cbn [fst List.length]; try lia.
    all: exfalso; destruct Hc as [[x Hx]|[Hx|[x Hx]]]; congruence.
  Qed.

  (* the proposal-creation branch: creations are guarded by the snapshot (nothing that exists is created again) and
     cover every target that has no proposal yet (nothing is lost); ECreateProp on an existing record is a no-op *)
  Lemma create_props_guarded (w : world) i (l : list (N * prop)) :
    Forall (fun e => exists t p, e = ECreateProp (t, i) p /\ props w !! (t, i) = None /\ In (t, p) l) (create_props w i l).
  Proof.
    unfold create_props. induction l as [|[t p] l IH]; cbn [flat_map]; [apply List.Forall_nil|].
    apply Forall_app_2.
    - cbn [fst snd]. destruct (props w !! (t, i)) eqn:E; [apply List.Forall_nil|].
      apply List.Forall_cons; [|apply List.Forall_nil]. exists t, p. repeat split; auto. left; reflexivity.
    - eapply Forall_impl; [exact IH|]. intros e (t' & p' & -> & Hn & Hin). exists t', p'. repeat split; auto. right; exact Hin.
  Qed.

  Lemma create_props_complete (w : world) i (l : list (N * prop)) t p :
    In (t, p) l -> props w !! (t, i) = None -> In (ECreateProp (t, i) p) (create_props w i l).
  Proof.
    intros Hin Hn. unfold create_props. apply in_flat_map. exists (t, p). split; [exact Hin|]. cbn [fst snd]. rewrite Hn. left; reflexivity.
  Qed.

  Lemma create_existing_noop (w : world) k (p : prop) : is_Some (props w !! k) -> apply_eff w (ECreateProp k p) = w.
  Proof. intros [q Hq]. cbn. rewrite Hq. reflexivity. Qed.
End Crash.

(** * Witnesses on the executable instance Model/P2Inst.v *)
Definition y_committing := @committing cmap cmap req dstate.
Definition y_aborting := @aborting cmap cmap req dstate.
Definition y_rec_prop := fun o w k => p2_reconcile o w (CtlProp k).
Definition y_state (w : Wd) (i : N) := t_state <$> (txs w !! i).
Definition y_papply (w : Wd) (k : N * N) := match props w !! k with Some p => p_apply p | None => None end.
Definition y_pabort (w : Wd) (k : N * N) := match props w !! k with Some p => p_abort p | None => None end.
Definition y_tabort (w : Wd) (i : N) := match txs w !! i with Some T => t_abort T | None => None end.

(* one change on target 1, every controller run round-robin with a friendly environment *)
Definition y_pre (n : nat) : list Label :=
  [LTarget 1 false; LConnUp 10 1; LChange [(1, x_ch "/a" "1")] true false] ++ x_rounds n (x_oracle COk) 1 [1].

(* round 10: the proposal is COMMITTING, the committed index is its predecessor (0) *)
Example y_commit_hyps : exists P C,
  y_committing (x_run (y_pre 10)) 1 1 P C /\ c_committed C = p_prev P /\ p_prev P <> 1 /\
  merge_rerun_stable overlay commit_merge 0 0 1 C (rb_change nil P).
Proof.
  eexists _, _. split; [split; vm_compute; reflexivity|].
  split; [vm_compute; reflexivity|]. split; [vm_compute; discriminate|]. vm_compute. reflexivity.
Qed.

(* round 13: APPLYING and sendable; the device answers OK *)
Example y_apply_hyps : exists P C r,
  x_sendable (x_run (y_pre 13)) 1 1 P C 10 r /\ dev_answer (nil : dstate) (x_run (y_pre 13)) 1 (c_term C) (x_oracle COk) = COk /\
  c_aterm C <= c_term C.
Proof. eexists _, _, _. split; [x_sendable_tac|]. split; vm_compute; [reflexivity|discriminate]. Qed.

(* REGRESSION for finding F-17 (a refused apply recorded as APPLIED when the invocation was cut between the configuration
   entry write and the proposal write; witness then: k = 3 followed by friendly rounds ended TApplied on a device that had
   refused).  The failure is written first: wherever the refusing invocation stops (k = 0..5) and whatever the
   device answers afterwards (refusing again: y_refused; accepting: y_refused_then_ok for k >= 2), the transaction ends
   FAILED with the class, the applied index passes the proposal, and the device is never changed *)
Definition y_refused (k : nat) : Wd :=
  x_run (y_pre 13 ++ [LRec (CtlProp (1, 1)) k (x_oracle CInvalidArgument)] ++ x_rounds 4 (x_oracle CInvalidArgument) 1 [1]).
Definition y_refused_then_ok (k : nat) : Wd :=
  x_run (y_pre 13 ++ [LRec (CtlProp (1, 1)) k (x_oracle CInvalidArgument)] ++ x_rounds 4 (x_oracle COk) 1 [1]).
Definition y_failed_well (w : Wd) : bool :=
  bool_decide (y_state w 1 = Some TFailed) && bool_decide (y_papply w (1, 1) = Some Failed) &&
  bool_decide ((match props w !! (1, 1) with Some p => p_afail p | None => None end) = Some FInvalid) &&
  bool_decide ((match txs w !! 1 with Some T => t_failure T | None => None end) = Some FInvalid) &&
  bool_decide ((c_applied <$> cfgs w !! 1) = Some 1) &&
  bool_decide (List.length (w_devs w) = 0%nat).

Lemma refused_apply_crash_regression :
  forallb (fun k => y_failed_well (y_refused k)) [0; 1; 2; 3; 4; 5]%nat = true /\
  forallb (fun k => y_failed_well (y_refused_then_ok k)) [2; 3; 4]%nat = true.
Proof. split; vm_compute; reflexivity. Qed.

(* a change that the model plugin rejects: round 9 ends with the proposal ABORTING, both indexes at its predecessor *)
Definition y_bad : oracle := mkOracle true false COk 0 0.
Definition y_rejected (n : nat) : list Label :=
  [LTarget 1 false; LConnUp 10 1; LChange [(1, x_ch "/a" "1")] true false] ++ x_rounds n y_bad 1 [1].

Example y_abort_both_hyps : exists P C,
  y_aborting (x_run (y_rejected 9)) 1 1 P C /\ c_committed C = p_prev P /\ c_applied C = p_prev P /\ p_prev P <> 1.
Proof.
  eexists _, _. split; [split; vm_compute; reflexivity|].
  split; [vm_compute; reflexivity|]. split; [vm_compute; reflexivity|]. vm_compute; discriminate.
Qed.

(* REGRESSION for finding F-18 (stopped after the entry write, k = 2, no branch of reconcileAbort matched any more and the
   proposal stayed ABORTING for ever; witness then: y_aborted 2 20 still ABORTING).  Wherever the invocation stops, two
   more rounds complete the abort *)
Definition y_aborted (k n : nat) : Wd :=
  x_run (y_rejected 9 ++ [LRec (CtlProp (1, 1)) k y_bad] ++ x_rounds n y_bad 1 [1]).

Lemma abort_crash_regression :
  forallb (fun k => bool_decide (y_pabort (y_aborted k 2) (1, 1) = Some Done) &&
                    bool_decide (y_tabort (y_aborted k 2) 1 = Some Done) &&
                    bool_decide (y_state (y_aborted k 2) 1 = Some TFailed) &&
                    bool_decide ((c_applied <$> cfgs (y_aborted k 2) !! 1) = Some 1) &&
                    bool_decide ((c_committed <$> cfgs (y_aborted k 2) !! 1) = Some 1)) [0; 1; 2; 3]%nat = true.
Proof. vm_compute; reflexivity. Qed.

(* the second and third abort branches: change 1 is committed but cannot be applied (device unreachable), change 2 is
   rejected by the plugin: its abort first advances the committed index only *)
Definition y_o1 : oracle := mkOracle true true CUnavailable 0 0.
Definition y_o2 : oracle := mkOracle true false CUnavailable 0 0.
Definition y_two (n : nat) : list Label :=
  [LTarget 1 false; LConnUp 10 1; LChange [(1, x_ch "/a" "1")] true false] ++ x_rounds 14 y_o1 1 [1]
  ++ [LChange [(1, x_ch "/b" "2")] true false] ++ x_rounds n y_o2 1 [2].

Example y_abort_committed_hyps : exists P C,
  y_aborting (x_run (y_two 11)) 1 2 P C /\ c_committed C = p_prev P /\ c_applied C <> p_prev P /\ p_prev P <> 2.
Proof.
  eexists _, _. split; [split; vm_compute; reflexivity|].
  split; [vm_compute; reflexivity|]. split; vm_compute; discriminate.
Qed.

(* ... then the device comes back, change 1 is applied, and the third branch finishes the abort of change 2 *)
Definition y_three : list Label :=
  y_two 11 ++ [LRec (CtlProp (1, 2)) 9 y_o2] ++ x_rounds 2 (x_oracle COk) 1 [1].

Example y_abort_applied_hyps : exists P C,
  y_aborting (x_run y_three) 1 2 P C /\ c_committed C <> p_prev P /\ c_applied C = p_prev P /\ 2 <= c_committed C /\ p_prev P <> 2.
Proof.
  eexists _, _. split; [split; vm_compute; reflexivity|].
  split; [vm_compute; discriminate|]. split; [vm_compute; reflexivity|]. split; vm_compute; discriminate.
Qed.

(* the transaction reconciler in a snapshot that a configuration-controller step left unchanged *)
Example y_tx_repeat_hyps :
  Forall (@tp_neutral cmap cmap req) (firstn 1 (fst (p2_reconcile (x_oracle COk) (x_run (y_pre 5)) (CtlCfg 1)))) /\
  fst (p2_reconcile (x_oracle COk) (x_run (y_pre 5)) (CtlCfg 1)) <> [].
Proof. split; vm_compute; [repeat constructor|discriminate]. Qed.

(* REFUTATION of the repeated merge: a Set that deletes /a and sets /a/c in one request.  The invocation stops between the
   path-value write and the entry write (k = 1); the committed index has not moved, the re-run merges the same change
   again into the values already written: AddDeleteChildren now finds /a/c in the store and cascades the delete to it.
   Uninterrupted (k = 3) the stored configuration shows /a/c = 2, after the torn commit it is empty. *)
Definition y_replace : cmap := [(B "/a", mkPV (B "/a") [] true 0); (B "/a/c", mkPV (B "/a/c") (B "2") false 0)].
Definition y_torn (k : nat) : Wd :=
  x_run ([LTarget 1 false; LConnUp 10 1; LChange [(1, y_replace)] true false] ++ x_rounds 10 (x_oracle COk) 1 [1]
         ++ [LRec (CtlProp (1, 1)) k (x_oracle COk)] ++ x_rounds 6 (x_oracle COk) 1 [1]).
Definition y_live (w : Wd) (t : N) := match cfgs w !! t with Some C => live (c_values C) | None => [] end.

Lemma torn_commit_refuted :
  y_state (y_torn 3) 1 = Some TApplied /\ y_live (y_torn 3) 1 = [(B "/a/c", B "2")] /\
  y_state (y_torn 1) 1 = Some TApplied /\ y_live (y_torn 1) 1 = [].
Proof. repeat (split; [vm_compute; reflexivity|]). vm_compute; reflexivity. Qed.

Lemma merge_rerun_unstable :
  exists (C : Cfg) (ch : cmap), ~ merge_rerun_stable overlay commit_merge 0 0 1 C ch.
Proof.
  exists (mkCfg 0 [] [] [] [] 1 0 0 CUnknown None 0 None 0), (stamp 1 y_replace). vm_compute. discriminate.
Qed.
