(* Cursors of a target's configuration in the v2 protocol model (Model/Proto2.v), all schedules, all crash prefixes:
     - the effects each reconciler can issue ([rec_tx_eff], [rec_prop_eff], [rec_cfg_eff], [rec_master_eff],
       [rec_conn_only_rel]); entry writes ([cfg_write]) and proposal writes ([prop_write]) carry the guard under which
       the reconciler issues them, writes of the value maps carry none,
     - what ONE step can do to a configuration entry ([cfg_step]), a proposal ([prop_step]) and the device log,
     - single-step theorems for C02 (who moves Committed / Applied, from where to where; who sends to the device).
   The record-local invariants are in P2_CursorInv.v, the chain / phase-order invariants needed for "never sent
   before merged" in P2_CursorChain.v ... P2_CursorGuard.v, the mastership theorems (C10) in P2_Term.v. *)
From stdpp Require Import gmap.
From RecordUpdate Require Import RecordUpdate.
From Coq Require Import NArith Lia.
From OC Require Import Model.Proto2 Proofs.P2Base.
Open Scope N_scope.

(** * The status part of a configuration entry (everything but the four value maps) *)
Section Sim.
  Context {V : Type}.
  Notation config := (@config V).

  Definition core (C : config) :=
    (c_index C, c_proposed C, c_committed C, c_applied C, c_state C, c_master C, c_term C, c_amaster C, c_aterm C).
  Definition sim (C C' : config) : Prop := core C = core C'.

  Lemma sim_refl C : sim C C. Proof. reflexivity. Qed.
  Lemma sim_trans A B C : sim A B -> sim B C -> sim A C. Proof. unfold sim. congruence. Qed.

  Lemma sim_fields (C C' : config) : sim C C' ->
    c_index C = c_index C' /\ c_proposed C = c_proposed C' /\ c_committed C = c_committed C' /\ c_applied C = c_applied C' /\
    c_state C = c_state C' /\ c_master C = c_master C' /\ c_term C = c_term C' /\ c_amaster C = c_amaster C' /\ c_aterm C = c_aterm C'.
  Proof. unfold sim, core. intros [= -> -> -> -> -> -> -> -> ->]. repeat split. Qed.
End Sim.

Ltac sim_cbn S := apply sim_fields in S; cbn in S; destruct S as (S1 & S2 & S3 & S4 & S5 & S6 & S7 & S8 & S9).

Section Cursor.
  Context {V Ch Req D : Type}.
  Context (candidate : V -> Ch -> V) (candidate_rb : V -> Ch -> V) (rollback_of : V -> Ch -> Ch)
          (overlay : V -> V -> V) (commit_merge : N -> N -> V -> V -> Ch -> V)
          (payload : N -> V -> Ch -> option Req) (record_applied : N -> N -> V -> V -> V -> Ch -> V)
          (touched : N -> V -> Ch -> V) (restore : V -> V -> V)
          (resync_payload : V -> list (option Req)) (doc_ok : V -> bool)
          (dev_apply : D -> Req -> D) (stamp : N -> Ch -> Ch) (v_empty : V) (d_empty : D) (ch_empty : Ch).

  Notation world := (@world V Ch Req D).
  Notation eff := (@eff V Ch Req).
  Notation txn := (@txn Ch).
  Notation prop := (@prop Ch).
  Notation config := (@config V).
  Notation apply_eff := (@apply_eff V Ch Req D dev_apply d_empty).
  Notation rec_tx := (@rec_tx V Ch Req D stamp).
  Notation rec_prop := (@rec_prop V Ch Req D candidate candidate_rb rollback_of overlay commit_merge payload record_applied
                                  touched restore doc_ok v_empty d_empty ch_empty).
  Notation rec_cfg := (@rec_cfg V Ch Req D overlay restore resync_payload v_empty d_empty).
  Notation rec_master := (@rec_master V Ch Req D overlay restore v_empty).
  Notation rec_conn := (@rec_conn V Ch Req D).
  Notation reconcile := (@reconcile V Ch Req D candidate candidate_rb rollback_of overlay commit_merge payload record_applied
                                    touched restore resync_payload doc_ok stamp v_empty d_empty ch_empty).
  Notation step := (@step V Ch Req D candidate candidate_rb rollback_of overlay commit_merge payload record_applied
                          touched restore resync_payload doc_ok dev_apply stamp v_empty d_empty ch_empty).
  Notation prefix_rel := (@prefix_rel V Ch Req D dev_apply d_empty).
  Notation step_cases := (@step_cases V Ch Req D candidate candidate_rb rollback_of overlay commit_merge payload record_applied
                                      touched restore resync_payload doc_ok dev_apply stamp v_empty d_empty ch_empty).
  Notation view := (@view V overlay).
  Notation aview := (@aview V overlay).
  Notation dev_answer := (@dev_answer V Ch Req D d_empty).
  Notation rb_change := (@rb_change Ch ch_empty).

  Lemma cfg_apply_eff_lookup (w : world) (e : eff) t C1 :
    cfgs (apply_eff w e) !! t = Some C1 ->
    (exists C, cfgs w !! t = Some C /\ sim C C1) \/
    (exists c, e = EPutCfg t c /\ sim c C1) \/
    (exists c, e = ECreateCfg t c /\ cfgs w !! t = None /\ C1 = c).
  Proof.
    assert (Hsame : forall C, cfgs w !! t = Some C -> sim C C1 ->
              (exists C, cfgs w !! t = Some C /\ sim C C1) \/ (exists c, e = EPutCfg t c /\ sim c C1) \/
              (exists c, e = ECreateCfg t c /\ cfgs w !! t = None /\ C1 = c)) by eauto.
    rewrite cfgs_apply_eff.
    destruct e as [| | |t0 c|t0 c|t0 v|t0 v| | |]; try (intros H; exact (Hsame _ H (sim_refl _)));
      destruct (cfgs w !! t0) eqn:E0; try (intros H; exact (Hsame _ H (sim_refl _)));
      (intros [[-> <-]|[_ H]]%lookup_insert_Some; [|exact (Hsame _ H (sim_refl _))]).
    - right. right. eauto.
    - right. left. eexists. split; reflexivity.
    - exact (Hsame _ E0 eq_refl).
    - exact (Hsame _ E0 eq_refl).
  Qed.

  Lemma cfg_apply_eff_none (w : world) (e : eff) t : cfgs (apply_eff w e) !! t = None -> cfgs w !! t = None.
  Proof.
    rewrite cfgs_apply_eff. destruct e as [| | |t0 c|t0 c|t0 v|t0 v| | |]; try (intros H; exact H);
      destruct (cfgs w !! t0) eqn:E0; try (intros H; exact H); intros [H _]%lookup_insert_None; exact H.
  Qed.

  Lemma cfg_prefix (es : list eff) : forall (w : world) (k : nat) t C',
    cfgs (fold_left apply_eff (firstn k es) w) !! t = Some C' ->
    (exists C, cfgs w !! t = Some C /\ sim C C') \/
    (exists c, In (EPutCfg t c) es /\ sim c C') \/
    (exists c, In (ECreateCfg t c) es /\ cfgs w !! t = None /\ sim c C').
  Proof.
    intros w k t C'. revert k w. refine (prefix_rel es (fun w w' => cfgs w' !! t = Some C' -> (_ : Prop)) _ _); [eauto using sim_refl|].
    intros w e w' Hin IH H. destruct (IH H) as [(C1 & H1 & S1)|[?|(c & ? & Hn & ?)]].
    - destruct (cfg_apply_eff_lookup _ _ _ _ H1) as [(C & HC & S0)|[(c & -> & S0)|(c & -> & Hn & ->)]];
        eauto 8 using sim_trans.
    - auto.
    - right. right. eauto using cfg_apply_eff_none.
  Qed.

  Lemma devlog_prefix (es : list eff) : forall (w : world) (k : nat),
    exists evs, devlog (fold_left apply_eff (firstn k es) w) = devlog w ++ evs /\ forall ev, In ev evs -> In (EDev ev) es.
  Proof.
    intros w k. revert k w. apply (prefix_rel es (fun w w' => exists evs, devlog w' = devlog w ++ evs /\ _)).
    - intros w. exists []. split; [symmetry; apply app_nil_r|intros ev []].
    - intros w e w' Hin (evs & Hd & Hevs). rewrite Hd, devlog_apply_eff.
      destruct e as [| | | | | | | | |ev0]; try (exists evs; split; [reflexivity|exact Hevs]).
      exists (ev0 :: evs). split; [rewrite <- app_assoc; reflexivity|]. intros ev [<-|Hev]; auto.
  Qed.

  Inductive cfg_write (w : world) : ctrl -> N -> config -> config -> Prop :=
  | CW_resign t C : c_master C <> None -> my_rels w t = [] ->
      cfg_write w (CtlMaster t) t C (C <| c_master := None |>)
  | CW_elect t C m : rels w !! m = Some (t, true) ->
      (forall m0, c_master C = Some m0 -> rels w !! m0 <> Some (t, true)) ->
      cfg_write w (CtlMaster t) t C (C <| c_term := c_term C + 1 |> <| c_master := Some m |>)
  | CW_persist t C : targets w !! t = Some true ->
      cfg_write w (CtlCfg t) t C (C <| c_state := CPersisted |> <| c_amaster := c_master C |> <| c_aterm := c_term C |>)
  | CW_desync t C : targets w !! t = Some false -> c_state C <> CSynchronizing -> c_aterm C < c_term C ->
      cfg_write w (CtlCfg t) t C (C <| c_state := CSynchronizing |>)
  | CW_synced t C m : targets w !! t = Some false -> c_state C = CSynchronizing -> c_master C = Some m ->
      cfg_write w (CtlCfg t) t C (C <| c_state := CSynchronized |> <| c_amaster := c_master C |> <| c_aterm := c_term C |>)
  | CW_propose t i C P : props w !! (t, i) = Some P ->
      p_apply P = None -> p_abort P = None -> p_commit P = None -> p_validate P = None -> p_init P = Some Doing ->
      c_proposed C < i ->
      (c_proposed C = 0 \/ props w !! (t, c_proposed C) = None \/
       exists Q, props w !! (t, c_proposed C) = Some Q /\ p_next Q <> 0 /\ p_prev P <> 0) ->
      cfg_write w (CtlProp (t, i)) t C (C <| c_proposed := i |>)
  | CW_commit t i C P ix : props w !! (t, i) = Some P ->
      p_apply P = None -> p_abort P = None -> p_commit P = Some Doing -> c_committed C = p_prev P ->
      cfg_write w (CtlProp (t, i)) t C (C <| c_index := ix |> <| c_committed := i |>)
  | CW_abort_both t i C P : props w !! (t, i) = Some P ->
      p_apply P = None -> p_abort P = Some Doing -> c_committed C = p_prev P -> c_applied C = p_prev P ->
      cfg_write w (CtlProp (t, i)) t C (C <| c_committed := i |> <| c_applied := i |>)
  | CW_abort_committed t i C P : props w !! (t, i) = Some P ->
      p_apply P = None -> p_abort P = Some Doing -> c_committed C = p_prev P -> c_applied C <> p_prev P ->
      cfg_write w (CtlProp (t, i)) t C (C <| c_committed := i |>)
  | CW_abort_applied t i C P : props w !! (t, i) = Some P ->
      p_apply P = None -> p_abort P = Some Doing -> c_committed C <> p_prev P -> c_applied C = p_prev P -> i <= c_committed C ->
      cfg_write w (CtlProp (t, i)) t C (C <| c_applied := i |>)
  | CW_apply t i C P m : props w !! (t, i) = Some P ->
      p_apply P = Some Doing -> c_applied C < i -> (p_prev P = 0 \/ c_applied C = p_prev P) ->
      c_state C <> CSynchronizing -> c_term C <= c_aterm C -> c_master C = Some m ->
      cfg_write w (CtlProp (t, i)) t C (C <| c_applied := i |>)
  (* passFailedProposal: the applied index moves past a proposal whose Apply phase has failed *)
  | CW_pass_failed t i C P : props w !! (t, i) = Some P ->
      p_apply P = Some Failed -> c_applied C < i ->
      cfg_write w (CtlProp (t, i)) t C (C <| c_applied := i |>).

  Lemma phase_scan_eff (w : world) i (T : txn) tg get start stop on_failed on_all_done e :
    In e (fst (phase_scan w i T tg get start stop on_failed on_all_done)) ->
    (exists p, e = EPutTx i (on_failed p)) \/ e = EPutTx i on_all_done \/
    exists t p, e = EPutProp (t, i) (start p) /\ props w !! (t, i) = Some p /\ In t tg /\ get p = None.
  Proof.
    unfold phase_scan. destruct (scan_props w i tg _) as [[u|[t p]]|] eqn:Hscan.
    - intros [].
    - apply scan_inr in Hscan. destruct Hscan as (Hin & Hp & _).
      destruct (get p) eqn:Hg; cbn; intros [<-|[]]; eauto 8.
    - destruct (default false _); cbn; [intros [<-|[]]; auto|intros []].
  Qed.

  Lemma gate_eff (w : world) i (T : txn) tg need next r e : In e (fst (gate w i T tg need next r)) -> e = EPutTx i next.
  Proof. unfold gate. destruct_matches; cbn; intros H; in_cases H. auto. Qed.

  Lemma create_props_in (w : world) i l e :
    In e (create_props w i l) -> exists tp, In tp l /\ e = ECreateProp (tp.1, i) tp.2.
  Proof.
    induction l as [|[t p] l IH]; cbn; [intros []|].
    destruct (props w !! (t, i)); cbn.
    - intros H. destruct (IH H) as (tp & Hin & ->). exists tp. auto.
    - intros [<-|H]; [exists (t, p); auto|]. destruct (IH H) as (tp & Hin & ->). exists tp. auto.
  Qed.

  Definition tx_starts (T : txn) (p P' : prop) : Prop :=
    (t_apply T = Some Doing /\ p_apply p = None /\ P' = p <| p_apply := Some Doing |>) \/
    (t_apply T = None /\ t_abort T = Some Doing /\ p_abort p = None /\ P' = p <| p_abort := Some Doing |>) \/
    (t_apply T = None /\ t_abort T = None /\ t_commit T = Some Doing /\ p_commit p = None /\ P' = p <| p_commit := Some Doing |>) \/
    (t_apply T = None /\ t_abort T = None /\ t_commit T = None /\ t_validate T = Some Doing /\ p_validate p = None /\
     P' = p <| p_validate := Some Doing |>).

  Definition prev_past (w : world) (i : N) : Prop :=
    forall Pv, txs w !! (i - 1) = Some Pv -> t_init Pv = Some Done \/ t_init Pv = Some Failed.

  (* the writes of a transaction by its reconciler, as far as its Initialize and Abort phases are concerned *)
  Inductive tx_write (w : world) (i : N) (T : txn) : txn -> Prop :=
  | TW_phase T' : t_init T' = t_init T -> t_abort T' = t_abort T \/ t_abort T = Some Doing -> tx_write w i T T'
  | TW_invalid T' : t_validate T = Some Doing -> t_init T' = t_init T -> tx_write w i T T'
  | TW_init : t_init T = None -> tx_write w i T (T <| t_init := Some Doing |>)
  | TW_init_done : t_init T = Some Doing -> prev_past w i -> tx_write w i T (T <| t_init := Some Done |>)
  (* a rollback of a transaction that does not exist or is itself a rollback *)
  | TW_init_failed ri f : t_init T = Some Doing -> prev_past w i -> t_details T = TRollback ri ->
      (txs w !! ri = None \/ exists R rj, txs w !! ri = Some R /\ t_details R = TRollback rj) ->
      tx_write w i T (T <| t_state := TFailed |> <| t_failure := Some f |> <| t_abort := Some Doing |> <| t_init := Some Failed |>).

  Inductive tx_eff (w : world) (i : N) : eff -> Prop :=
  | TE_tx T T' : txs w !! i = Some T -> tx_write w i T T' -> tx_eff w i (EPutTx i T')
  | TE_start t p T P' : txs w !! i = Some T -> In t (default [] (t_props T)) -> props w !! (t, i) = Some p -> tx_starts T p P' ->
      tx_eff w i (EPutProp (t, i) P')
  | TE_create t T P' : txs w !! i = Some T ->
      t_apply T = None -> t_abort T = None -> t_commit T = None -> t_validate T = None -> t_init T = Some Doing -> t_props T = None ->
      prev_past w i ->
      (exists chs c, t_details T = TChange chs /\ P' = new_change_prop c) \/
      (exists ri R chs, t_details T = TRollback ri /\ txs w !! ri = Some R /\ t_details R = TChange chs /\ P' = new_rollback_prop ri) ->
      tx_eff w i (ECreateProp (t, i) P').

  Lemma rec_tx_eff (w : world) i e : In e (fst (rec_tx w i)) -> tx_eff w i e.
  Proof.
    unfold Proto2.rec_tx, fail_init. destruct (txs w !! i) as [T|] eqn:HT; [|intros []].
    assert (Hscan : forall get start stop on_failed on_all_done,
              (forall p, get p = None -> tx_starts T p (start p)) ->
              (forall p, tx_write w i T (on_failed p)) -> tx_write w i T on_all_done ->
              In e (fst (phase_scan w i T (default [] (t_props T)) get start stop on_failed on_all_done)) -> tx_eff w i e).
    { intros get start stop on_failed on_all_done Hst Hf Hd H. apply phase_scan_eff in H.
      destruct H as [(p & ->)|[->|(t & p & -> & Hp & Hin & Hg)]]; [eapply TE_tx; eauto..|eapply TE_start; eauto]. }
    assert (Hgate : forall need next r, tx_write w i T next ->
              In e (fst (gate w i T (default [] (t_props T)) need next r)) -> tx_eff w i e).
    { intros need next r Hw H. apply gate_eff in H. subst e. eapply TE_tx; eauto. }
    destruct (t_apply T) as [a|] eqn:Ea.
    { destruct a; try (intros []; fail).
      destruct (scan_props w i (default [] (t_props T)) _) as [[u|[t1 p1]]|] eqn:Hs.
      - intros [].
      - intros [<-|[]]. apply scan_inr in Hs. destruct Hs as (Hin & Hp & Hf).
        eapply TE_start; eauto. left. destruct (p_apply p1); [discriminate Hf|auto].
      - apply Hscan; try (intros; apply TW_phase; auto). intros p Hg. left. auto. }
    destruct (t_abort T) as [ab|] eqn:Eb.
    { destruct ab; try (intros []; fail). apply Hscan; try (intros; apply TW_phase; auto). intros p Hg. right. left. auto. }
    destruct (t_commit T) as [c|] eqn:Ec.
    { destruct c; try (intros []; fail); [|apply Hgate; apply TW_phase; auto].
      apply Hscan; try (intros; apply TW_phase; auto). intros p Hg. right. right. left. auto. }
    destruct (t_validate T) as [v|] eqn:Ev.
    { destruct v; try (intros []; fail); [|apply Hgate; apply TW_phase; auto].
      apply Hscan; [|intros; apply TW_invalid; auto|apply TW_phase; auto]. intros p Hg. right. right. right. auto 6. }
    destruct (t_init T) as [ini|] eqn:Ei; [|intros H; in_cases H; subst e; eapply TE_tx; eauto using tx_write].
    destruct ini; try (intros []; fail); [|apply Hgate; apply TW_phase; auto].
    destruct (match txs w !! (i - 1) with Some P => _ | None => false end) eqn:Hprev; [intros []|].
    assert (Hpv : prev_past w i).
    { intros Pv HPv. rewrite HPv in Hprev. destruct (t_init Pv) as [[]|]; cbn in Hprev; try discriminate; auto. }
    assert (Htx : forall T', tx_write w i T T' -> tx_eff w i (EPutTx i T')) by (intros T'; apply TE_tx; exact HT).
    destruct (t_props T) eqn:Ep; [destruct_matches; intros H; in_cases H; subst e; apply Htx, TW_init_done; auto|].
    destruct_matches; cbn [fst]; intros H; try (in_cases H; subst e; apply Htx; eapply TW_init_failed; eauto 6);
      (apply in_app_or in H; destruct H as [H|H]; [|in_cases H; subst e; apply Htx, TW_phase; auto]);
      apply create_props_in in H; destruct H as ([tt pp] & Hin & ->); cbn [fst snd];
      apply in_map_iff in Hin; destruct Hin as (tc & [= <- <-] & _); eapply TE_create; eauto 10.
  Qed.

  Definition tp_only (e : eff) : Prop :=
    match e with EPutTx _ _ | ECreateProp _ _ | EPutProp _ _ => True | _ => False end.

  Lemma rec_tx_tp (w : world) i : Forall tp_only (fst (rec_tx w i)).
  Proof. apply List.Forall_forall. intros e H. apply rec_tx_eff in H. destruct H; exact I. Qed.

  Lemma rec_tx_putprop (w : world) i k P' :
    In (EPutProp k P') (fst (rec_tx w i)) ->
    exists t p T, k = (t, i) /\ txs w !! i = Some T /\ In t (default [] (t_props T)) /\ props w !! k = Some p /\ tx_starts T p P'.
  Proof. intros H. apply rec_tx_eff in H. inversion H; subst. eauto 8. Qed.

  Inductive prop_write (w : world) (t i : N) : N * N -> prop -> prop -> Prop :=
  | PW_applied P C : cfgs w !! t = Some C -> p_apply P = Some Doing -> i <= c_applied C ->
      prop_write w t i (t, i) P (P <| p_apply := Some Done |> <| p_term := c_aterm C |>)
  | PW_apply_ok P C : cfgs w !! t = Some C -> p_apply P = Some Doing ->
      prop_write w t i (t, i) P (P <| p_apply := Some Done |> <| p_term := c_term C |>)
  | PW_apply_failed P C f : cfgs w !! t = Some C -> p_apply P = Some Doing ->
      c_applied C < i -> (p_prev P = 0 \/ c_applied C = p_prev P) ->
      prop_write w t i (t, i) P (P <| p_apply := Some Failed |> <| p_afail := Some f |> <| p_term := c_term C |>)
  | PW_aborted P : p_apply P = None -> p_abort P = Some Doing ->
      prop_write w t i (t, i) P (P <| p_abort := Some Done |>)
  | PW_committed P : p_apply P = None -> p_abort P = None -> p_commit P = Some Doing ->
      prop_write w t i (t, i) P (P <| p_commit := Some Done |>)
  | PW_invalid P f : p_apply P = None -> p_abort P = None -> p_commit P = None -> p_validate P = Some Doing ->
      prop_write w t i (t, i) P (P <| p_validate := Some Failed |> <| p_vfail := Some f |>)
  | PW_validated P C rbi rbv : cfgs w !! t = Some C ->
      p_apply P = None -> p_abort P = None -> p_commit P = None -> p_validate P = Some Doing ->
      (p_prev P = 0 \/ c_committed C = p_prev P) ->
      prop_write w t i (t, i) P (P <| p_rbindex := rbi |> <| p_rbvalues := rbv |> <| p_validate := Some Done |>)
  (* linking into the chain: first NextIndex of the tail, then the own PrevIndex, then Proposed.Index ([CW_propose]) *)
  | PW_link_next Pi C Q : cfgs w !! t = Some C -> props w !! (t, i) = Some Pi -> p_init Pi = Some Doing ->
      c_proposed C < i -> 0 < c_proposed C -> p_next Q = 0 ->
      prop_write w t i (t, c_proposed C) Q (Q <| p_next := i |>)
  | PW_link_prev P C Q : cfgs w !! t = Some C -> p_init P = Some Doing ->
      c_proposed C < i -> 0 < c_proposed C -> props w !! (t, c_proposed C) = Some Q -> p_next Q <> 0 -> p_prev P = 0 ->
      prop_write w t i (t, i) P (P <| p_prev := c_proposed C |>)
  | PW_init_done P C : cfgs w !! t = Some C -> p_init P = Some Doing -> i <= c_proposed C ->
      prop_write w t i (t, i) P (P <| p_init := Some Done |>)
  | PW_init P : p_init P = None -> prop_write w t i (t, i) P (P <| p_init := Some Doing |>).

  (* the guard under which reconcileApply sends the change of proposal (t, i) *)
  Definition sent_by_apply (w : world) (o : oracle) (t i m term : N) (r : Req) (a : code) : Prop :=
    exists C P, cfgs w !! t = Some C /\ props w !! (t, i) = Some P /\
      term = c_term C /\ c_master C = Some m /\ (exists tt, rels w !! m = Some (tt, true)) /\ is_Some (conns w !! m) /\
      a = dev_answer w t (c_term C) o /\
      p_apply P = Some Doing /\ c_applied C < i /\ (p_prev P = 0 \/ c_applied C = p_prev P) /\
      c_state C <> CSynchronizing /\ c_term C <= c_aterm C /\ is_Some (targets w !! t) /\
      payload i (view C) (rb_change P) = Some r.

  Inductive prop_eff (o : oracle) (w : world) (t i : N) : eff -> Prop :=
  | PE_dev m term r a : sent_by_apply w o t i m term r a -> prop_eff o w t i (EDev (DevSet t m term (Some i) r a))
  | PE_values v : prop_eff o w t i (EPutValues t v)
  | PE_avalues v : prop_eff o w t i (EPutAValues t v)
  | PE_cfg C c0 c : cfgs w !! t = Some C -> cfg_write w (CtlProp (t, i)) t C c0 -> sim c0 c -> prop_eff o w t i (EPutCfg t c)
  | PE_create P c : cfgs w !! t = None -> props w !! (t, i) = Some P -> p_init P = Some Doing ->
      core c = (0, i, 0, 0, CUnknown, None, 0, None, 0) -> prop_eff o w t i (ECreateCfg t c)
  | PE_prop k P P' : props w !! k = Some P -> prop_write w t i k P P' -> prop_eff o w t i (EPutProp k P').

  Ltac close_sim := unfold sim, core; cbn; first [reflexivity | congruence].

  Lemma rec_prop_eff (o : oracle) (w : world) t i e : In e (fst (rec_prop o w (t, i))) -> prop_eff o w t i e.
  Proof.
    unfold Proto2.rec_prop, Proto2.vfail, Proto2.upd_status.
    destruct (props w !! (t, i)) as [P|] eqn:HP; [|intros []].
    assert (Hput : forall P', prop_write w t i (t, i) P P' -> prop_eff o w t i (EPutProp (t, i) P'))
      by (intros P'; apply PE_prop, HP).
    destruct (cfgs w !! t) as [C|] eqn:HC.
    2: { destruct_matches; intros H; in_cases H; subst e; [eapply PE_create; eauto; reflexivity|apply Hput, PW_init; assumption]. }
    assert (Hcfg : forall c0 c, cfg_write w (CtlProp (t, i)) t C c0 -> sim c0 c -> prop_eff o w t i (EPutCfg t c))
      by (intros c0 c; apply PE_cfg, HC).
    destruct (p_apply P) as [[]|] eqn:Ea.
    - destruct (i <=? c_applied C) eqn:E1; [intros [<-|[]]; bool_hyps; eapply Hput, PW_applied; eauto|].
      destruct (negb (p_prev P =? 0) && negb (c_applied C =? p_prev P)) eqn:E2; [intros []|].
      assert (Hpv : p_prev P = 0 \/ c_applied C = p_prev P) by (bool_hyps; auto).
      destruct (bool_decide (c_state C = CSynchronizing)) eqn:E3; [intros []|].
      destruct (is_none (targets w !! t)) eqn:E4; [intros []|].
      destruct (c_aterm C <? c_term C) eqn:E5; [intros []|].
      destruct (c_master C) as [m|] eqn:Em; [|intros []].
      destruct (rels w !! m) as [[tt []]|] eqn:Er; try (intros []; fail).
      destruct (conns w !! m) eqn:Ec; [|intros []].
      destruct (payload i (view C) (rb_change P)) as [r|] eqn:Ep; [|intros []].
      clear E2. bool_hyps. remember (dev_answer w t (c_term C) o) as a eqn:Ha.
      assert (Hs : sent_by_apply w o t i m (c_term C) r a).
      { exists C, P. repeat match goal with |- _ /\ _ => split end; eauto; lia. }
      assert (Hw : cfg_write w (CtlProp (t, i)) t C (C <| c_applied := i |>)) by (eapply CW_apply; eauto; lia).
      intros H. destruct a; try destruct (classify _); in_cases H; subst e;
        first [apply PE_dev, Hs | apply PE_avalues | eapply Hcfg; [exact Hw|close_sim]
              | eapply Hput, PW_apply_ok; eauto | eapply Hput, PW_apply_failed; eauto; lia].
    - intros [].
    - destruct (c_applied C <? i) eqn:E; intros H; in_cases H; subst e; [apply PE_avalues|].
      eapply Hcfg; [eapply CW_pass_failed; eauto; apply N.ltb_lt, E|close_sim].
    - destruct (p_abort P) as [[]|] eqn:Eb; [|intros []|intros []|].
      { destruct (N.eqb_spec (c_committed C) (p_prev P)) as [Hc|Hc], (N.eqb_spec (c_applied C) (p_prev P)) as [Hb|Hb]; cbn [andb].
        - intros H; in_cases H; subst e;
            [apply PE_avalues|eapply Hcfg; [eapply CW_abort_both; eauto|close_sim]|apply Hput, PW_aborted; assumption].
        - intros H; in_cases H; subst e; [apply PE_avalues|eapply Hcfg; [eapply CW_abort_committed; eauto|close_sim]].
        - destruct (N.leb_spec i (c_committed C)) as [Hl|Hl]; cbn [andb]; intros H; in_cases H; subst e;
            [apply PE_avalues|eapply Hcfg; [eapply CW_abort_applied; eauto|close_sim]|apply Hput, PW_aborted; assumption].
        - destruct (_ && _); intros H; in_cases H; subst e. apply Hput, PW_aborted; assumption. }
      destruct (p_commit P) as [[]|] eqn:Ec; [|intros []|intros []|].
      { destruct (N.eqb_spec (c_committed C) (p_prev P)) as [Hc|Hc]; intros H; in_cases H; subst e;
          [apply PE_values|eapply Hcfg; [eapply CW_commit; eauto|close_sim]|apply Hput, PW_committed; assumption..]. }
      destruct (p_validate P) as [[]|] eqn:Ev; [|intros []|intros []|].
      { destruct (negb (p_prev P =? 0) && negb (c_committed C =? p_prev P)) eqn:E1; [intros []|].
        assert (Hpv : p_prev P = 0 \/ c_committed C = p_prev P) by (bool_hyps; auto).
        destruct_matches; intros H; in_cases H; subst e; apply Hput;
          first [apply PW_invalid; assumption | eapply PW_validated; eassumption]. }
      destruct (p_init P) as [[]|] eqn:Ei; [|intros []|intros []|intros [<-|[]]; apply Hput, PW_init; assumption].
      destruct (c_proposed C <? i) eqn:E1; [|intros [<-|[]]; bool_hyps; eapply Hput, PW_init_done; eauto].
      destruct (0 <? c_proposed C) eqn:E2; [destruct (props w !! (t, c_proposed C)) as [Q|] eqn:HQ;
        [destruct (p_next Q =? 0) eqn:E3; [|destruct (p_prev P =? 0) eqn:E4]|]|];
        intros H; in_cases H; subst e; bool_hyps; try apply PE_avalues.
      + eapply PE_prop, PW_link_next; eauto.
      + eapply Hput, PW_link_prev; eauto.
      + eapply Hcfg; [eapply CW_propose; eauto 7|close_sim].
      + eapply Hcfg; [eapply CW_propose; eauto|close_sim].
      + eapply Hcfg; [eapply CW_propose; eauto|close_sim]. left. lia.
  Qed.

  Lemma resync_effs_in t m term a reqs e :
    In e (fst (@resync_effs V Ch Req t m term a reqs)) -> exists r, e = EDev (DevSet t m term None r a) /\ In (Some r) reqs.
  Proof.
    induction reqs as [|[r|] rest IH]; cbn; try (intros []).
    destruct a; cbn;
      try (intros [<-|[]]; exists r; split; [reflexivity|left; reflexivity]).
    destruct (resync_effs t m term COk rest) as [es res] eqn:E. cbn in *.
    intros [<-|Hin]; [exists r; split; [reflexivity|left; reflexivity]|].
    destruct (IH Hin) as (r' & -> & Hr). exists r'. split; [reflexivity|right; exact Hr].
  Qed.

  (* the re-push loop falls through only when every request was sent and answered OK *)
  Lemma resync_effs_complete t m term a reqs :
    snd (@resync_effs V Ch Req t m term a reqs) = None ->
    exists rs, reqs = map Some rs /\
               fst (@resync_effs V Ch Req t m term a reqs) = map (fun r => EDev (DevSet t m term None r COk)) rs.
  Proof.
    induction reqs as [|[r|] rest IH]; cbn.
    - intros _. exists []. split; reflexivity.
    - destruct a; cbn; try discriminate.
      destruct (resync_effs t m term COk rest) as [es res] eqn:E. cbn in *. intros ->.
      destruct (IH eq_refl) as (rs & -> & ->). exists (r :: rs). split; reflexivity.
    - discriminate.
  Qed.

  Definition sent_by_resync (w : world) (o : oracle) (t m term : N) (r : Req) (a : code) : Prop :=
    exists C, cfgs w !! t = Some C /\ targets w !! t = Some false /\
      term = c_term C /\ c_master C = Some m /\ (exists tt, rels w !! m = Some (tt, true)) /\ is_Some (conns w !! m) /\
      a = dev_answer w t (c_term C) o /\
      c_state C = CSynchronizing /\ c_applied C <> 0 /\ In (Some r) (resync_payload (aview C)).

  Inductive cfg_eff (o : oracle) (w : world) (t : N) : eff -> Prop :=
  | CE_dev m term r a : sent_by_resync w o t m term r a -> cfg_eff o w t (EDev (DevSet t m term None r a))
  | CE_avalues v : cfg_eff o w t (EPutAValues t v)
  | CE_cfg C c0 c : cfgs w !! t = Some C -> cfg_write w (CtlCfg t) t C c0 -> sim c0 c -> cfg_eff o w t (EPutCfg t c).

  Lemma rec_cfg_eff (o : oracle) (w : world) t e : In e (fst (rec_cfg o w t)) -> cfg_eff o w t e.
  Proof.
    unfold Proto2.rec_cfg, Proto2.upd_status.
    destruct_matches; intros H; cbn [fst] in H;
      try (apply in_app_or in H; destruct H as [H|H]);
      try (match goal with E : resync_effs ?t0 ?m0 ?te0 ?a0 ?rq0 = (?es, _), H : In _ ?es |- _ =>
           let Hx := fresh in
           pose proof (resync_effs_in t0 m0 te0 a0 rq0) as Hx;
           rewrite E in Hx; destruct (Hx _ H) as (r' & -> & Hr) end);
      in_cases H; try subst e; bool_hyps; econstructor; try eassumption.
    all: lazymatch goal with
         | |- sent_by_resync _ _ _ _ _ _ _ => eexists; repeat match goal with |- _ /\ _ => split end; eauto
         | |- cfg_write _ _ _ _ _ => econstructor; eauto; lia
         | |- sim _ _ => close_sim
         end.
  Qed.

  Lemma my_rels_spec (w : world) t m : In m (my_rels w t) -> rels w !! m = Some (t, true).
  Proof.
    unfold my_rels. intros H. apply in_map_iff in H. destruct H as ([m' [t' b]] & <- & H). cbn.
    apply elem_of_list_In in H. apply elem_of_list_filter in H. destruct H as [Hb H].
    apply elem_of_map_to_list in H. cbn in Hb. apply bool_decide_unpack in Hb. rewrite H. f_equal. exact Hb.
  Qed.

  Lemma rec_master_eff (o : oracle) (w : world) t e :
    In e (fst (rec_master o w t)) ->
    (exists v, e = EPutAValues t v) \/
    exists C c0 c, e = EPutCfg t c /\ cfgs w !! t = Some C /\ cfg_write w (CtlMaster t) t C c0 /\ sim c0 c.
  Proof.
    unfold Proto2.rec_master, Proto2.upd_status.
    destruct_matches; intros H; in_cases H; subst e; try (left; eexists; reflexivity); right; bool_hyps;
      eexists _, _, _; (split; [reflexivity|]); (split; [reflexivity|]).
    all: first
      [ split; [eapply CW_resign; eauto; congruence | close_sim]
      | split; [eapply CW_elect | close_sim] ].
    all: try (apply my_rels_spec; match goal with E : my_rels _ _ = _ |- _ => rewrite E end;
              eapply elem_of_list_In, elem_of_list_lookup_2; eassumption).
    all: intros m0 Hm0; match goal with E : match _ with _ => _ end = false |- _ => rewrite Hm0 in E end; bool_hyps; assumption.
  Qed.

  Lemma rec_master_only_putcfg (o : oracle) (w : world) t e :
    In e (fst (rec_master o w t)) -> match e with EPutCfg _ _ | EPutAValues _ _ => True | _ => False end.
  Proof. intros H. apply rec_master_eff in H. destruct H as [(v & ->)|(C & c0 & c & -> & _)]; exact I. Qed.

  Lemma rec_conn_only_rel (w : world) c e :
    In e (fst (rec_conn w c)) -> match e with ERelCreate _ _ | ERelDelete _ => True | _ => False end.
  Proof.
    unfold Proto2.rec_conn. destruct_matches; intros H; in_cases H; subst e; exact I.
  Qed.

  Definition cfg_side (e : eff) : Prop :=
    match e with EPutCfg _ _ | EPutAValues _ _ | EDev _ | ERelCreate _ _ | ERelDelete _ => True | _ => False end.

  Lemma rec_cfg_side (o : oracle) (w : world) t : Forall cfg_side (fst (rec_cfg o w t)).
  Proof. apply List.Forall_forall. intros e H. apply rec_cfg_eff in H. destruct H; exact I. Qed.

  Lemma rec_master_side (o : oracle) (w : world) t : Forall cfg_side (fst (rec_master o w t)).
  Proof. apply List.Forall_forall. intros e H. apply rec_master_only_putcfg in H. destruct e; try exact I; destruct H. Qed.

  Lemma rec_conn_side (w : world) c : Forall cfg_side (fst (rec_conn w c)).
  Proof. apply List.Forall_forall. intros e H. apply rec_conn_only_rel in H. destruct e; try exact I; destruct H. Qed.

  Lemma reconcile_putcfg (o : oracle) (w : world) ctl t c :
    In (EPutCfg t c) (fst (reconcile o w ctl)) ->
    exists C c0, cfgs w !! t = Some C /\ cfg_write w ctl t C c0 /\ sim c0 c.
  Proof.
    destruct ctl as [i|[t0 i]|t0|t0|c0]; cbn [Proto2.reconcile]; intros H.
    - apply rec_tx_eff in H. inversion H.
    - apply rec_prop_eff in H. inversion H; subst. eauto.
    - apply rec_cfg_eff in H. inversion H; subst. eauto.
    - apply rec_master_eff in H. destruct H as [(v & [=])|(C & c1 & c' & [= <- <-] & H)]. eauto.
    - apply rec_conn_only_rel in H. destruct H.
  Qed.

  Lemma reconcile_createcfg (o : oracle) (w : world) ctl t c :
    In (ECreateCfg t c) (fst (reconcile o w ctl)) ->
    exists i, ctl = CtlProp (t, i) /\ cfgs w !! t = None /\ is_Some (props w !! (t, i)) /\
              core c = (0, i, 0, 0, CUnknown, None, 0, None, 0).
  Proof.
    destruct ctl as [i|[t0 i]|t0|t0|c0]; cbn [Proto2.reconcile]; intros H.
    - apply rec_tx_eff in H. inversion H.
    - apply rec_prop_eff in H. inversion H; subst. eauto 6.
    - apply rec_cfg_eff in H. inversion H.
    - apply rec_master_only_putcfg in H. destruct H.
    - apply rec_conn_only_rel in H. destruct H.
  Qed.

  Lemma reconcile_dev (o : oracle) (w : world) ctl t m term og r a :
    In (EDev (DevSet t m term og r a)) (fst (reconcile o w ctl)) ->
    (exists i, ctl = CtlProp (t, i) /\ og = Some i /\ sent_by_apply w o t i m term r a) \/
    (ctl = CtlCfg t /\ og = None /\ sent_by_resync w o t m term r a).
  Proof.
    destruct ctl as [i|[t0 i]|t0|t0|c0]; cbn [Proto2.reconcile]; intros H.
    - apply rec_tx_eff in H. inversion H.
    - apply rec_prop_eff in H. inversion H; subst. eauto.
    - apply rec_cfg_eff in H. inversion H; subst. auto.
    - apply rec_master_only_putcfg in H. destruct H.
    - apply rec_conn_only_rel in H. destruct H.
  Qed.

  Lemma reconcile_prop_write (o : oracle) (w : world) ctl k P' :
    In (EPutProp k P') (fst (reconcile o w ctl)) ->
    exists P, props w !! k = Some P /\
      ((exists T, ctl = CtlTx k.2 /\ txs w !! k.2 = Some T /\ In k.1 (default [] (t_props T)) /\ tx_starts T P P') \/
       (exists t i, ctl = CtlProp (t, i) /\ prop_write w t i k P P')).
  Proof.
    destruct ctl as [i|[t0 i]|t0|t0|c0]; cbn [Proto2.reconcile]; intros H.
    - apply rec_tx_eff in H. inversion H; subst. eauto 10.
    - apply rec_prop_eff in H. inversion H; subst. eauto 10.
    - apply rec_cfg_eff in H. inversion H.
    - apply rec_master_only_putcfg in H. destruct H.
    - apply rec_conn_only_rel in H. destruct H.
  Qed.

  Lemma cfg_step_none (w : world) l t : cfgs (step w l) !! t = None -> cfgs w !! t = None.
  Proof.
    destruct (step_cases w l) as [(c & k & o & ->)|(-> & _)]; [|auto]. cbn [Proto2.step].
    generalize (fst (reconcile o w c)). intros es. revert k w.
    apply (prefix_rel es (fun w w' => cfgs w' !! t = None -> cfgs w !! t = None)); eauto using cfg_apply_eff_none.
  Qed.

  Lemma cfg_step (w : world) l t C' :
    cfgs (step w l) !! t = Some C' ->
    (exists C, cfgs w !! t = Some C /\
       (sim C C' \/ exists ctl k o c0, l = LRec ctl k o /\ cfg_write w ctl t C c0 /\ sim c0 C')) \/
    (cfgs w !! t = None /\ exists i k o, l = LRec (CtlProp (t, i)) k o /\ is_Some (props w !! (t, i)) /\
                                        core C' = (0, i, 0, 0, CUnknown, None, 0, None, 0)).
  Proof.
    destruct (step_cases w l) as [(c & k & o & ->)|(-> & _)]; [|intros H; left; eauto using sim_refl].
    intros H. apply cfg_prefix in H. destruct H as [(C & HC & S)|[(c0 & Hin & S)|(c0 & Hin & Hn & S)]].
    - left. eauto.
    - apply reconcile_putcfg in Hin. destruct Hin as (C & c1 & HC & Hw & S1). left. exists C. split; [exact HC|].
      right. exists c, k, o, c1. eauto using sim_trans.
    - apply reconcile_createcfg in Hin. destruct Hin as (i & -> & _ & Hp & Hc). right. split; [exact Hn|].
      exists i, k, o. split; [reflexivity|]. split; [exact Hp|]. rewrite <- Hc. symmetry. exact S.
  Qed.

  Lemma devlog_step_in (w : world) l evs t m term og r a :
    devlog (step w l) = devlog w ++ evs -> In (DevSet t m term og r a) evs ->
    exists ctl k o, l = LRec ctl k o /\
      ((exists i, ctl = CtlProp (t, i) /\ og = Some i /\ sent_by_apply w o t i m term r a) \/
       (ctl = CtlCfg t /\ og = None /\ sent_by_resync w o t m term r a)).
  Proof.
    intros Hd Hin. destruct (step_cases w l) as [(c & k & o & ->)|(_ & _ & Hd')].
    - destruct (devlog_prefix (fst (reconcile o w c)) w k) as (evs' & Hd' & Hin'). cbn [Proto2.step] in Hd.
      rewrite Hd in Hd'. apply app_inv_head in Hd'. subst evs'. exists c, k, o. split; [reflexivity|]. apply reconcile_dev. auto.
    - rewrite Hd' in Hd. rewrite <- (app_nil_r (devlog w)) in Hd at 1. apply app_inv_head in Hd. subst evs. destruct Hin.
  Qed.

  (** * C02, single step: who moves the cursors *)
  Definition committed_of (w : world) (t : N) : N := match cfgs w !! t with Some C => c_committed C | None => 0 end.
  Definition applied_of (w : world) (t : N) : N := match cfgs w !! t with Some C => c_applied C | None => 0 end.

  Theorem committed_moves_by_successor (w : world) l t :
    committed_of (step w l) t <> committed_of w t ->
    exists i k o P, l = LRec (CtlProp (t, i)) k o /\ props w !! (t, i) = Some P /\
      committed_of (step w l) t = i /\ committed_of w t = p_prev P /\
      p_apply P = None /\ ((p_abort P = None /\ p_commit P = Some Doing) \/ p_abort P = Some Doing).
  Proof.
    unfold committed_of. destruct (cfgs (step w l) !! t) as [C'|] eqn:H'.
    - apply cfg_step in H'. destruct H' as [(C & HC & [S|(ctl & k & o & c0 & -> & Hw & S)])|(Hn & i & k & o & -> & _ & Hc)].
      + rewrite HC. sim_cbn S. intros Hne. congruence.
      + rewrite HC. intros Hne. inversion Hw; subst; sim_cbn S; try congruence.
        all: exists i, k, o, P; repeat split; auto; congruence.
      + rewrite Hn. unfold core in Hc. injection Hc as _ _ -> _ _ _ _ _ _. intros Hne. congruence.
    - rewrite (cfg_step_none _ _ _ H'). intros Hne. congruence.
  Qed.

  Theorem applied_moves_by_successor (w : world) l t :
    applied_of (step w l) t <> applied_of w t ->
    exists i k o P, l = LRec (CtlProp (t, i)) k o /\ props w !! (t, i) = Some P /\
      applied_of (step w l) t = i /\
      ((p_apply P = Some Doing /\ applied_of w t < i /\ (p_prev P = 0 \/ applied_of w t = p_prev P)) \/
       (p_apply P = Some Failed /\ applied_of w t < i) \/
       (p_apply P = None /\ p_abort P = Some Doing /\ applied_of w t = p_prev P)).
  Proof.
    unfold applied_of. destruct (cfgs (step w l) !! t) as [C'|] eqn:H'.
    - apply cfg_step in H'. destruct H' as [(C & HC & [S|(ctl & k & o & c0 & -> & Hw & S)])|(Hn & i & k & o & -> & _ & Hc)].
      + rewrite HC. sim_cbn S. intros Hne. congruence.
      + rewrite HC. intros Hne. inversion Hw; subst; sim_cbn S; try congruence.
        all: exists i, k, o, P; (split; [reflexivity|]); (split; [assumption|]); (split; [congruence|]); auto 8.
      + rewrite Hn. unfold core in Hc. injection Hc as _ _ _ -> _ _ _ _ _. intros Hne. congruence.
    - rewrite (cfg_step_none _ _ _ H'). intros Hne. congruence.
  Qed.

  (* C02: every request sent for proposal (t, i) comes from that proposal's reconcileApply, in its Apply phase,
     when its PrevIndex is 0 or Applied.Index, outside SYNCHRONIZING and with the applied term up to date *)
  Theorem sent_in_order (w : world) l evs t m term i r a :
    devlog (step w l) = devlog w ++ evs -> In (DevSet t m term (Some i) r a) evs ->
    exists k o, l = LRec (CtlProp (t, i)) k o /\ sent_by_apply w o t i m term r a.
  Proof.
    intros Hd Hin. destruct (devlog_step_in _ _ _ _ _ _ _ _ _ Hd Hin) as (ctl & k & o & -> & [(i' & -> & [= <-] & Hs)|(_ & Hx & _)]).
    - exists k, o. auto.
    - discriminate Hx.
  Qed.

  Lemma prop_apply_eff_lookup (w : world) (e : eff) k P' :
    props (apply_eff w e) !! k = Some P' ->
    props w !! k = Some P' \/ e = EPutProp k P' \/ (e = ECreateProp k P' /\ props w !! k = None).
  Proof.
    rewrite props_apply_eff. destruct e as [|k0 p|k0 p| | | | | | |]; auto; [destruct (props w !! k0) eqn:E0; auto|];
      (intros [[-> <-]|[_ H]]%lookup_insert_Some; auto).
  Qed.

  Lemma prop_apply_eff_none (w : world) (e : eff) k : props (apply_eff w e) !! k = None -> props w !! k = None.
  Proof.
    rewrite props_apply_eff. destruct e as [|k0 p|k0 p| | | | | | |]; auto; [destruct (props w !! k0) eqn:E0; auto|];
      (intros [H _]%lookup_insert_None; exact H).
  Qed.

  Lemma prop_step_none (w : world) l k : props (step w l) !! k = None -> props w !! k = None.
  Proof.
    destruct (step_cases w l) as [(c & n & o & ->)|(_ & -> & _)]; [|auto]. cbn [Proto2.step].
    generalize (fst (reconcile o w c)). intros es. revert n w.
    apply (prefix_rel es (fun w w' => props w' !! k = None -> props w !! k = None)); eauto using prop_apply_eff_none.
  Qed.

  Lemma prop_step (w : world) l k P' :
    props (step w l) !! k = Some P' ->
    props w !! k = Some P' \/
    exists ctl n o, l = LRec ctl n o /\
      (In (EPutProp k P') (fst (reconcile o w ctl)) \/ (In (ECreateProp k P') (fst (reconcile o w ctl)) /\ props w !! k = None)).
  Proof.
    destruct (step_cases w l) as [(c & n & o & ->)|(_ & -> & _)]; [|auto].
    intros H. enough (props w !! k = Some P' \/ In (EPutProp k P') (fst (reconcile o w c)) \/
                      (In (ECreateProp k P') (fst (reconcile o w c)) /\ props w !! k = None)) as [?|?]; eauto 6.
    cbn [Proto2.step] in H. revert H. generalize (fst (reconcile o w c)). intros es. revert n w.
    refine (prefix_rel es (fun w w' => props w' !! k = Some P' -> (_ : Prop)) _ _); [auto|].
    intros w e w' Hin IH H. destruct (IH H) as [H1|[?|[? Hn]]]; eauto using prop_apply_eff_none.
    destruct (prop_apply_eff_lookup _ _ _ _ H1) as [?|[->|[-> ?]]]; auto.
  Qed.
End Cursor.
