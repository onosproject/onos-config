(* C02, "never sent before merged", first layer: a change is sent to the device only by a proposal whose Commit phase is
   done (phase-order invariant of Proofs/P2_Order.v), and IF the Commit guard holds in every reachable world
   ([commit_guard]: a proposal in Commit-Doing sees Committed.Index = its PrevIndex or its own index already merged) then
   "Commit done => merged" ([commit_merged_of_guard]: the merge effects precede the status write in the effect list, so
   the status write implies the merge) and Applied.Index <= Committed.Index ([applied_le_committed_of_guard]).
   The guard itself is discharged in Proofs/P2_CursorGuard.v from the chain invariant (P2_CursorLink.v,
   P2_CursorChainInv.v); the unconditional theorems are there. *)
From stdpp Require Import gmap.
From RecordUpdate Require Import RecordUpdate.
From Coq Require Import NArith Lia.
From OC Require Import Model.Proto2 Proofs.P2Base Proofs.P2Phases Proofs.P2_Order Proofs.P2_Cursor Proofs.P2_CursorInv.
Open Scope N_scope.

Section CursorChain.
  Context {V Ch Req D : Type}.
  Context (candidate : V -> Ch -> V) (candidate_rb : V -> Ch -> V) (rollback_of : V -> Ch -> Ch)
          (overlay : V -> V -> V) (commit_merge : N -> N -> V -> V -> Ch -> V)
          (payload : N -> V -> Ch -> option Req) (record_applied : N -> N -> V -> V -> V -> Ch -> V)
          (touched : N -> V -> Ch -> V) (restore : V -> V -> V)
          (resync_payload : V -> list (option Req)) (doc_ok : V -> bool)
          (dev_apply : D -> Req -> D) (stamp : N -> Ch -> Ch) (v_empty : V) (d_empty : D) (ch_empty : Ch).

  Notation world := (@world V Ch Req D).
  Notation prop := (@prop Ch).
  Notation config := (@config V).
  Notation rec_prop := (@rec_prop V Ch Req D candidate candidate_rb rollback_of overlay commit_merge payload record_applied
                                  touched restore doc_ok v_empty d_empty ch_empty).
  Notation reconcile := (@reconcile V Ch Req D candidate candidate_rb rollback_of overlay commit_merge payload record_applied
                                    touched restore resync_payload doc_ok stamp v_empty d_empty ch_empty).
  Notation step := (@step V Ch Req D candidate candidate_rb rollback_of overlay commit_merge payload record_applied
                          touched restore resync_payload doc_ok dev_apply stamp v_empty d_empty ch_empty).
  Notation reach := (@reach V Ch Req D candidate candidate_rb rollback_of overlay commit_merge payload record_applied
                            touched restore resync_payload doc_ok dev_apply stamp v_empty d_empty ch_empty).
  Notation inst f := (f candidate candidate_rb rollback_of overlay commit_merge payload record_applied touched restore
                        resync_payload doc_ok dev_apply stamp v_empty d_empty ch_empty).



  (* a proposal whose Commit phase is done has been merged into the stored configuration of its target *)
  Definition commit_merged (w : world) : Prop :=
    forall t i (P : prop) (C : config), props w !! (t, i) = Some P -> cfgs w !! t = Some C ->
      p_commit P = Some Done -> i <= c_committed C.

  (* unconditional: only a proposal whose Commit phase is done sends to the device *)
  Theorem sent_only_after_commit_phase (w : world) l evs t m term i r a :
    reach w -> devlog (step w l) = devlog w ++ evs -> In (DevSet t m term (Some i) r a) evs ->
    exists (P : prop) (C : config), props w !! (t, i) = Some P /\ cfgs w !! t = Some C /\
      p_apply P = Some Doing /\ p_commit P = Some Done /\ p_abort P = None.
  Proof.
    intros Hr Hd Hin.
    destruct (inst sent_in_order _ _ _ _ _ _ _ _ _ Hd Hin) as (k & o & -> & Hs).
    destruct Hs as (C & P & HC & HP & _ & _ & _ & _ & _ & Ha & _). exists P, C. split; [exact HP|]. split; [exact HC|].
    split; [exact Ha|].
    destruct (inst proposal_phase_order _ _ _ Hr HP) as (_ & _ & O3 & O4 & _).
    assert (Hc : p_commit P = Some Done) by (apply O3; rewrite Ha; eexists; reflexivity).
    split; [exact Hc|].
    destruct (p_abort P) eqn:Hab; [|reflexivity].
    destruct O4 as [O4 _]; [eexists; reflexivity|]. congruence.
  Qed.

  Theorem never_sent_before_merged_partial (w : world) l evs t m term i r a :
    reach w -> commit_merged w ->
    devlog (step w l) = devlog w ++ evs -> In (DevSet t m term (Some i) r a) evs ->
    exists (P : prop) (C : config), props w !! (t, i) = Some P /\ cfgs w !! t = Some C /\
      p_commit P = Some Done /\ i <= c_committed C.
  Proof.
    intros Hr Hcm Hd Hin. destruct (sent_only_after_commit_phase _ _ _ _ _ _ _ _ _ Hr Hd Hin) as (P & C & HP & HC & _ & Hc & _).
    exists P, C. split; [exact HP|]. split; [exact HC|]. split; [exact Hc|]. eapply Hcm; eassumption.
  Qed.

  (* boolean form of [commit_merged], for concrete worlds *)
  Definition commit_mergedb (w : world) : bool :=
    forallb (fun kp : N * N * prop =>
               match cfgs w !! kp.1.1 with
               | Some C => negb (bool_decide (p_commit kp.2 = Some Done)) || (kp.1.2 <=? c_committed C)
               | None => true
               end) (map_to_list (props w)).

  Lemma commit_mergedb_spec (w : world) : commit_mergedb w = true -> commit_merged w.
  Proof.
    unfold commit_mergedb, commit_merged. intros Hb t i P C HP HC Hc.
    rewrite forallb_forall in Hb. specialize (Hb ((t, i), P)). cbn in Hb. rewrite HC in Hb.
    apply elem_of_map_to_list, elem_of_list_In in HP. specialize (Hb HP).
    rewrite bool_decide_eq_true_2 in Hb by exact Hc. cbn in Hb. apply N.leb_le. exact Hb.
  Qed.
  (* a proposal in Commit-Doing sees Committed.Index = its PrevIndex (it will merge) or its index already merged (a retry
     after a crash between the configuration write and its own status write) *)
  Definition commit_guard (w : world) : Prop :=
    forall t i (P : prop) (C : config), props w !! (t, i) = Some P -> cfgs w !! t = Some C ->
      p_commit P = Some Doing -> p_abort P = None -> p_apply P = None ->
      c_committed C = p_prev P \/ i <= c_committed C.

  (* the only proposal write that completes a Commit phase is the one of reconcileCommit on its own proposal *)
  Lemma rec_prop_commit_write (o : oracle) (w : world) t i k (P P' : prop) :
    In (EPutProp k P') (fst (rec_prop o w (t, i))) -> props w !! k = Some P ->
    p_commit P = Some Doing -> p_commit P' = Some Done -> k = (t, i) /\ p_apply P = None /\ p_abort P = None.
  Proof.
    intros H HP Hc Hd. apply rec_prop_eff in H. inversion H as [| | | | |k0 P0 P1 HP0 Hw]; subst.
    rewrite HP in HP0. injection HP0 as <-. destruct Hw; cbn in Hd; try congruence. auto.
  Qed.

  Lemma rec_prop_commit_effs (o : oracle) (w : world) t i (P : prop) (C : config) :
    props w !! (t, i) = Some P -> p_apply P = None -> p_abort P = None -> p_commit P = Some Doing -> cfgs w !! t = Some C ->
    exists v c', c_committed c' = i /\
      fst (rec_prop o w (t, i)) =
      (if c_committed C =? p_prev P then [EPutValues t v; EPutCfg t c'] else []) ++ [EPutProp (t, i) (P <| p_commit := Some Done |>)].
  Proof.
    intros HP Hap Hab Hc HC. unfold Proto2.rec_prop. rewrite HP, Hap, Hab, Hc, HC. cbn [fst].
    eexists _, _. split; [|reflexivity]. reflexivity.
  Qed.

  Lemma rec_prop_commit_nocfg (o : oracle) (w : world) t i (P : prop) :
    props w !! (t, i) = Some P -> p_apply P = None -> p_abort P = None -> p_commit P = Some Doing -> cfgs w !! t = None ->
    fst (rec_prop o w (t, i)) = [].
  Proof. intros HP Hap Hab Hc HC. unfold Proto2.rec_prop. rewrite HP, Hap, Hab, Hc, HC. reflexivity. Qed.

  (* the step that completes the Commit phase of (t, i): the merge (if any) was executed before the status write *)
  Lemma commit_done_step (w : world) l t i (P P' : prop) :
    props w !! (t, i) = Some P -> p_commit P = Some Doing ->
    props (step w l) !! (t, i) = Some P' -> p_commit P' = Some Done ->
    p_apply P = None /\ p_abort P = None /\
    exists C C' : config, cfgs w !! t = Some C /\ cfgs (step w l) !! t = Some C' /\
      ((c_committed C = p_prev P /\ c_committed C' = i) \/ (c_committed C <> p_prev P /\ c_committed C' = c_committed C)).
  Proof.
    intros HP Hc H' Hd. pose proof H' as H0. apply prop_step in H0.
    destruct H0 as [H0|(ctl & n & o & -> & [H0|[H0 Hn]])]; [congruence| |congruence].
    apply reconcile_prop_write in H0. rewrite HP in H0. destruct H0 as (P0 & [= <-] & [(T & _ & _ & _ & Hs)|(t0 & i0 & -> & Hw)]).
    - destruct Hs as [(_ & _ & ->)|[(_ & _ & _ & ->)|[(_ & _ & _ & _ & ->)|(_ & _ & _ & _ & _ & ->)]]]; cbn in Hd; congruence.
    - assert (Hap : t0 = t /\ i0 = i /\ p_apply P = None /\ p_abort P = None) by (inversion Hw; subst; cbn in Hd; auto; congruence).
      destruct Hap as (-> & -> & Hap & Hab). clear Hw. split; [exact Hap|]. split; [exact Hab|].
      cbn [Proto2.step Proto2.reconcile] in H' |- *.
      destruct (cfgs w !! t) as [C|] eqn:HC.
      2:{ rewrite (rec_prop_commit_nocfg o _ _ _ _ HP Hap Hab Hc HC) in H'. rewrite firstn_nil in H'. cbn in H'. congruence. }
      destruct (rec_prop_commit_effs o _ _ _ _ _ HP Hap Hab Hc HC) as (v & c' & Hci & Heff). rewrite Heff in H' |- *. clear Heff.
      exists C. destruct (c_committed C =? p_prev P) eqn:E; cbn [app] in H' |- *.
      + apply N.eqb_eq in E.
        destruct n as [|[|[|n]]]; cbn [firstn fold_left] in H' |- *;
          try (rewrite ?props_apply_eff in H'; cbn in H'; congruence).
        rewrite firstn_nil. cbn [fold_left].
        eexists. split; [reflexivity|]. split; [|left; split; [exact E|]].
        * rewrite !cfgs_apply_eff. rewrite HC. rewrite lookup_insert. rewrite lookup_insert. reflexivity.
        * cbn. exact Hci.
      + apply N.eqb_neq in E.
        destruct n as [|n]; cbn [firstn fold_left] in H' |- *; [congruence|].
        rewrite firstn_nil. cbn [fold_left]. exists C. split; [reflexivity|]. split; [rewrite cfgs_apply_eff; exact HC|]. right. auto.
  Qed.

  Definition merged_inv (w : world) : Prop :=
    forall t i (P : prop), props w !! (t, i) = Some P -> p_commit P = Some Done ->
      exists C : config, cfgs w !! t = Some C /\ i <= c_committed C.

  Lemma merged_inv_step (w : world) l : reach w -> commit_guard w -> merged_inv w -> merged_inv (step w l).
  Proof.
    intros Hr Hg Hm t i P' H' Hd.
    assert (Hkeep : forall P : prop, props w !! (t, i) = Some P -> p_commit P = Some Done ->
                    exists C' : config, cfgs (step w l) !! t = Some C' /\ i <= c_committed C').
    { intros P HP Hc. destruct (Hm _ _ _ HP Hc) as (C & HC & Hle).
      destruct (cfgs (step w l) !! t) as [C'|] eqn:HC'.
      - exists C'. split; [reflexivity|].
        destruct (inst cursors_monotone w l t Hr) as [Hmono _].
        unfold P2_Cursor.committed_of in Hmono. rewrite HC, HC' in Hmono. lia.
      - apply cfg_step_none in HC'. congruence. }
    pose proof H' as H0. apply prop_step in H0.
    destruct H0 as [H0|(ctl & n & o & -> & [H0|[H0 Hn]])].
    - eapply Hkeep; eassumption.
    - apply reconcile_putprop in H0. destruct H0 as (P & HP & _ & Hu).
      destruct (decide (p_commit P = Some Done)) as [Hc|Hnc]; [eapply Hkeep; eassumption|].
      assert (Hc : p_commit P = Some Doing).
      { destruct Hu as [(i0 & _ & _ & [He|(Hc & _)] & _)|(T & _ & _ & _ & Hs)]; [congruence|exact Hc|].
        destruct Hs as [(_ & _ & ->)|[(_ & _ & _ & ->)|[(_ & _ & _ & _ & ->)|(_ & _ & _ & _ & _ & ->)]]]; cbn in Hd; congruence. }
      destruct (commit_done_step _ _ _ _ _ _ HP Hc H' Hd) as (Hap & Hab & C & C' & HC & HC' & Hcase).
      exists C'. split; [exact HC'|]. destruct Hcase as [[_ ->]|[Hne ->]]; [lia|].
      destruct (Hg _ _ _ _ HP HC Hc Hab Hap) as [He|Hle]; [congruence|exact Hle].
    - apply reconcile_createprop in H0. destruct H0 as (T & _ & _ & _ & _ & _ & _ & _ & _ & _ & [(c & ->)|(ri & ->)]); discriminate Hd.
  Qed.

  Theorem commit_merged_of_guard :
    (forall w : world, reach w -> commit_guard w) -> forall w : world, reach w -> commit_merged w.
  Proof.
    intros Hg. assert (Hall : forall w : world, reach w -> merged_inv w).
    { apply (inst reach_ind merged_inv).
      - intros t i P H. cbn in H. rewrite lookup_empty in H. discriminate.
      - intros w l Hr Hm. apply merged_inv_step; auto. }
    intros w Hr t i P C HP HC Hc. destruct (Hall _ Hr _ _ _ HP Hc) as (C0 & HC0 & Hle). congruence.
  Qed.

  Theorem never_sent_before_merged_partial_guard (w : world) l evs t m term i r a :
    (forall w' : world, reach w' -> commit_guard w') -> reach w ->
    devlog (step w l) = devlog w ++ evs -> In (DevSet t m term (Some i) r a) evs ->
    exists (P : prop) (C : config), props w !! (t, i) = Some P /\ cfgs w !! t = Some C /\
      p_commit P = Some Done /\ i <= c_committed C.
  Proof.
    intros Hg Hr. apply never_sent_before_merged_partial; [exact Hr|]. apply commit_merged_of_guard; assumption.
  Qed.
  Definition applied_le_committed (w : world) : Prop :=
    forall t (C : config), cfgs w !! t = Some C -> c_applied C <= c_committed C.

  Lemma applied_le_committed_step (w : world) l :
    reach w -> commit_merged w -> applied_le_committed w -> applied_le_committed (step w l).
  Proof.
    intros Hr Hcm Hle t C' H'. apply cfg_step in H'.
    destruct H' as [(C & HC & [S|(ctl & n & o & c0 & -> & Hw & S)])|(Hn & i & n & o & -> & _ & Hcore)].
    - pose proof (Hle _ _ HC). sim_cbn S. lia.
    - pose proof (Hle _ _ HC). inversion Hw; subst; sim_cbn S; try lia.
      all: match goal with HP : props _ !! (_, _) = Some _ |- _ =>
             pose proof (inst links_ordered _ _ _ _ Hr HP) as [Hlk _] end; try lia.
      all: match goal with HP : props _ !! (_, _) = Some ?P, Ha : p_apply ?P = Some _ |- _ =>
        destruct (inst proposal_phase_order _ _ _ Hr HP) as (_ & _ & O3 & _);
        assert (Hc : p_commit P = Some Done) by (apply O3; rewrite Ha; eexists; reflexivity);
        pose proof (Hcm _ _ _ _ HP HC Hc) end; lia.
    - unfold core in Hcore. injection Hcore as _ _ -> -> _ _ _ _ _. lia.
  Qed.

  Theorem applied_le_committed_of_guard :
    (forall w : world, reach w -> commit_guard w) ->
    forall (w : world) t (C : config), reach w -> cfgs w !! t = Some C -> c_applied C <= c_committed C.
  Proof.
    intros Hg. assert (Hall : forall w : world, reach w -> applied_le_committed w).
    { apply (inst reach_ind applied_le_committed).
      - intros t C H. cbn in H. rewrite lookup_empty in H. discriminate.
      - intros w l Hr Hm. apply applied_le_committed_step; auto. apply commit_merged_of_guard; assumption. }
    intros w t C Hr HC. exact (Hall _ Hr _ _ HC).
  Qed.
  (* boolean form of [commit_guard], for concrete worlds *)
  Definition commit_guardb (w : world) : bool :=
    forallb (fun kp : N * N * prop =>
               match cfgs w !! kp.1.1 with
               | Some C => negb (bool_decide (p_commit kp.2 = Some Doing)) || (c_committed C =? p_prev kp.2) || (kp.1.2 <=? c_committed C)
               | None => true
               end) (map_to_list (props w)).

  Lemma commit_guardb_spec (w : world) : commit_guardb w = true -> commit_guard w.
  Proof.
    unfold commit_guardb, commit_guard. intros Hb t i P C HP HC Hc _ _.
    rewrite forallb_forall in Hb. specialize (Hb ((t, i), P)). cbn in Hb. rewrite HC in Hb.
    apply elem_of_map_to_list, elem_of_list_In in HP. specialize (Hb HP).
    rewrite bool_decide_eq_true_2 in Hb by exact Hc. cbn in Hb. apply orb_prop in Hb.
    destruct Hb as [Hb|Hb]; [left; apply N.eqb_eq; exact Hb|right; apply N.leb_le; exact Hb].
  Qed.
End CursorChain.
