(* The per-target chain invariant of the v2 protocol model (C02): the proposals of a target are linked into ONE
   PrevIndex/NextIndex chain in index order and the cursors of its configuration point into that chain ([C_inv]); hence
   no two INITIALIZED proposals share a PrevIndex ([unique_prev]).  [commit_guard] is derived from this in
   P2_CursorGuard.v. *)
From stdpp Require Import gmap.
From RecordUpdate Require Import RecordUpdate.
From Coq Require Import NArith Lia.
From OC Require Import Model.Proto2 Proofs.P2Base Proofs.P2Phases Proofs.P2_Order Proofs.P2_Cursor Proofs.P2_CursorInv
     Proofs.P2_CursorChain Proofs.P2_CursorLink.
Open Scope N_scope.

Section ChainInv.
  Context {V Ch Req D : Type}.
  Context (candidate : V -> Ch -> V) (candidate_rb : V -> Ch -> V) (rollback_of : V -> Ch -> Ch)
          (overlay : V -> V -> V) (commit_merge : N -> N -> V -> V -> Ch -> V)
          (payload : N -> V -> Ch -> option Req) (record_applied : N -> N -> V -> V -> V -> Ch -> V)
          (touched : N -> V -> Ch -> V) (restore : V -> V -> V)
          (resync_payload : V -> list (option Req)) (doc_ok : V -> bool)
          (dev_apply : D -> Req -> D) (stamp : N -> Ch -> Ch) (v_empty : V) (d_empty : D) (ch_empty : Ch).

  Notation world := (@world V Ch Req D).
  Notation txn := (@txn Ch).
  Notation prop := (@prop Ch).
  Notation config := (@config V).
  Notation rec_tx := (@rec_tx V Ch Req D stamp).
  Notation rec_prop := (@rec_prop V Ch Req D candidate candidate_rb rollback_of overlay commit_merge payload record_applied
                                  touched restore doc_ok v_empty d_empty ch_empty).
  Notation reconcile := (@reconcile V Ch Req D candidate candidate_rb rollback_of overlay commit_merge payload record_applied
                                    touched restore resync_payload doc_ok stamp v_empty d_empty ch_empty).
  Notation step := (@step V Ch Req D candidate candidate_rb rollback_of overlay commit_merge payload record_applied
                          touched restore resync_payload doc_ok dev_apply stamp v_empty d_empty ch_empty).
  Notation reach := (@reach V Ch Req D candidate candidate_rb rollback_of overlay commit_merge payload record_applied
                            touched restore resync_payload doc_ok dev_apply stamp v_empty d_empty ch_empty).
  Notation inst f := (f candidate candidate_rb rollback_of overlay commit_merge payload record_applied touched restore
                        resync_payload doc_ok dev_apply stamp v_empty d_empty ch_empty).


  Notation past_init := (@past_init Ch).

  Definition link_write (w : world) (t i : N) (k : N * N) (P P' : prop) : Prop :=
    (p_prev P' = p_prev P /\ p_next P' = p_next P /\
     (p_init P' = p_init P \/ (k = (t, i) /\ p_init P = None /\ p_init P' = Some Doing) \/
      (k = (t, i) /\ p_init P = Some Doing /\ p_init P' = Some Done /\
       exists C : config, cfgs w !! t = Some C /\ i <= c_proposed C))) \/
    (exists (C : config) (Pi : prop), cfgs w !! t = Some C /\ props w !! (t, i) = Some Pi /\ p_init Pi = Some Doing /\
       c_proposed C < i /\ 0 < c_proposed C /\ k = (t, c_proposed C) /\ p_next P = 0 /\ P' = P <| p_next := i |>) \/
    (exists (C : config) (Q : prop), cfgs w !! t = Some C /\ k = (t, i) /\ p_init P = Some Doing /\
       c_proposed C < i /\ 0 < c_proposed C /\ props w !! (t, c_proposed C) = Some Q /\ p_next Q <> 0 /\ p_prev P = 0 /\
       P' = P <| p_prev := c_proposed C |>).

  Lemma prop_write_link (w : world) t i k (P P' : prop) : prop_write w t i k P P' -> link_write w t i k P P'.
  Proof.
    intros Hw. unfold link_write. destruct Hw; cbn;
      try (left; split; [reflexivity|]; split; [reflexivity|]; eauto 10; fail); [right; left|right; right]; eauto 12.
  Qed.

  Lemma link_write_fields (w : world) t i k (P P' : prop) : link_write w t i k P P' ->
    (p_prev P' = p_prev P \/ p_prev P = 0 /\ p_init P = Some Doing /\ 0 < p_prev P') /\
    (p_next P' = p_next P \/ p_next P = 0) /\
    (p_init P' = p_init P \/ (p_init P = None /\ p_init P' = Some Doing) \/
     (k = (t, i) /\ p_init P = Some Doing /\ p_init P' = Some Done /\ exists C : config, cfgs w !! t = Some C /\ i <= c_proposed C)).
  Proof.
    intros [(Hp & Hn & [He|[(_ & H1 & H2)|H]])|[(C & Pi & _ & _ & _ & _ & _ & _ & Hz & ->)|
            (C & Q & _ & _ & Hd & _ & Hpos & _ & _ & Hz & ->)]]; cbn; auto 7.
  Qed.

  Lemma rec_prop_createcfg_init (o : oracle) (w : world) t i t' c :
    In (ECreateCfg t' c) (fst (rec_prop o w (t, i))) -> exists P : prop, props w !! (t, i) = Some P /\ p_init P = Some Doing.
  Proof. intros H. apply rec_prop_eff in H. inversion H. eauto. Qed.

  Lemma prop_step_keep (w : world) l k : is_Some (props w !! k) -> is_Some (props (step w l) !! k).
  Proof.
    intros [P HP]. destruct (props (step w l) !! k) eqn:E; [eexists; reflexivity|].
    apply prop_step_none in E. congruence.
  Qed.

  Definition same_link (P P' : prop) : Prop := p_prev P' = p_prev P /\ p_next P' = p_next P /\ p_init P' = p_init P.

  Lemma tx_starts_same (T : txn) (P P' : prop) : tx_starts T P P' -> same_link P P'.
  Proof.
    intros [(_ & _ & ->)|[(_ & _ & _ & ->)|[(_ & _ & _ & _ & ->)|(_ & _ & _ & _ & _ & ->)]]]; repeat split.
  Qed.

  Lemma prop_post (w : world) l k (P' : prop) :
    props (step w l) !! k = Some P' ->
    (props w !! k = None /\ p_prev P' = 0 /\ p_next P' = 0 /\ p_init P' = None /\
     exists n o, l = LRec (CtlTx k.2) n o /\ In (ECreateProp k P') (fst (rec_tx w k.2))) \/
    (exists P, props w !! k = Some P /\
       (same_link P P' \/ exists t i n o, l = LRec (CtlProp (t, i)) n o /\ link_write w t i k P P')).
  Proof.
    intros H. apply prop_step in H. destruct H as [H|(ctl & n & o & -> & [H|[H Hn]])].
    - right. exists P'. split; [exact H|]. left. repeat split.
    - right. apply reconcile_prop_write in H. destruct H as (P & HP & [(T & -> & _ & _ & Hs)|(t & i & -> & Hw)]);
        eauto 10 using tx_starts_same, prop_write_link.
    - left. pose proof H as Hin. apply reconcile_createprop in H.
      destruct H as (T & -> & _ & _ & _ & _ & _ & _ & _ & _ & Hnew). cbn [Proto2.reconcile] in Hin.
      split; [exact Hn|]. destruct Hnew as [(c & ->)|(ri & ->)]; cbn; repeat split; eauto.
  Qed.

  Lemma prop_post_old (w : world) l k (P P' : prop) :
    props w !! k = Some P -> props (step w l) !! k = Some P' ->
    same_link P P' \/ exists t i n o, l = LRec (CtlProp (t, i)) n o /\ link_write w t i k P P'.
  Proof.
    intros HP H'. apply prop_post in H'. destruct H' as [(Hn & _)|(P0 & HP0 & H)]; [congruence|].
    rewrite HP in HP0. injection HP0 as <-. exact H.
  Qed.

  Lemma init_done_post (w : world) l k (P : prop) :
    props w !! k = Some P -> p_init P = Some Done -> exists P', props (step w l) !! k = Some P' /\ p_init P' = Some Done.
  Proof.
    intros HP Hi. destruct (prop_step_keep w l k) as [P' HP']; [eauto|]. exists P'. split; [exact HP'|].
    destruct (prop_post_old _ _ _ _ _ HP HP') as [(_ & _ & He)|(t & i & n & o & _ & Hl)]; [congruence|].
    destruct (link_write_fields _ _ _ _ _ _ Hl) as (_ & _ & [He|[(Hn & _)|(_ & Hd & _)]]); congruence.
  Qed.

  Definition cur3 (C : config) := (c_proposed C, c_committed C, c_applied C).

  Lemma cfg_post (w : world) l t (C : config) :
    cfgs w !! t = Some C -> exists C', cfgs (step w l) !! t = Some C' /\ c_proposed C <= c_proposed C'.
  Proof.
    intros HC. destruct (cfgs (step w l) !! t) as [C'|] eqn:H'; [|apply cfg_step_none in H'; congruence].
    exists C'. split; [reflexivity|]. apply cfg_step in H'.
    destruct H' as [(C0 & HC0 & [S|(ctl & n & o & c0 & -> & Hw & S)])|(Hn & _)]; [| |congruence];
      rewrite HC in HC0; injection HC0 as <-.
    - sim_cbn S. lia.
    - inversion Hw; subst; sim_cbn S; lia.
  Qed.

  Lemma prop_index_pos (w : world) t i (P : prop) : reach w -> props w !! (t, i) = Some P -> 1 <= i.
  Proof.
    intros Hr HP. pose proof (inst T_inv_reach _ Hr) as HT. destruct (ti_created _ HT _ _ _ HP) as (T & HTi & _).
    exact (tx_index_pos _ _ _ HT HTi).
  Qed.

  Lemma phase_linked (w : world) t i (P : prop) :
    reach w -> props w !! (t, i) = Some P ->
    is_Some (p_validate P) \/ is_Some (p_commit P) \/ is_Some (p_apply P) \/ is_Some (p_abort P) -> p_init P = Some Done.
  Proof.
    intros Hr HP Hs. destruct (inst proposal_phase_order _ _ _ Hr HP) as (O1 & O2 & O3 & _).
    destruct Hs as [Hs|[Hs|[Hs|Hs]]].
    - auto.
    - apply O1. rewrite (O2 Hs). eexists; reflexivity.
    - apply O1. rewrite (O2 ltac:(rewrite (O3 Hs); eexists; reflexivity)). eexists; reflexivity.
    - pose proof (inst P2_Order.K_reach _ Hr) as HK. pose proof (inst T_inv_reach _ Hr) as HT.
      destruct (j_back _ (P2_Order.k_J _ HK) _ _ HP) as (T & HTi & _ & _ & Hab & _); [tauto|]. cbn in HTi.
      eapply past_tx_linked; [exact Hr|exact HP|exact HTi|]. eapply (ti_abort _ HT); [exact HTi|]. apply Hab. exact Hs.
  Qed.

  Lemma started_linked (w : world) t i (P : prop) a :
    reach w -> props w !! (t, i) = Some P ->
    p_validate P = Some a \/ p_commit P = Some a \/ p_apply P = Some a \/ p_abort P = Some a -> p_init P = Some Done.
  Proof. intros Hr HP Hs. eapply phase_linked; [exact Hr|exact HP|]. destruct Hs as [H|[H|[H|H]]]; rewrite H; eauto 6. Qed.

  Lemma no_create_below (w : world) t j j' (P Q : prop) :
    reach w -> In (ECreateProp (t, j) P) (fst (rec_tx w j)) -> props w !! (t, j') = Some Q -> j < j' -> False.
  Proof.
    intros Hr Hin HQ Hlt. pose proof (inst T_inv_reach _ Hr) as HT.
    apply rec_tx_eff in Hin. inversion Hin as [| |t0 T P0 HTj _ _ _ _ Hi]; subst.
    destruct (ti_created _ HT _ _ _ HQ) as (Tj' & HTj' & _ & _ & Hg).
    pose proof (tx_index_pos _ _ _ HT HTj) as Hj.
    destruct (inst older_past w j' Hr) with (d := N.to_nat (j' - j - 1)) (i := j)
      as (T' & HT' & Hp); [rewrite HTj'; eexists; reflexivity|exact Hg|exact Hj|lia|].
    rewrite HTj in HT'. injection HT' as <-. destruct Hp as [Hp|Hp]; congruence.
  Qed.
  Record C_inv (w : world) : Prop := {
    (* Proposed.Index names an existing proposal (the tail of the chain) *)
    ci_tail : forall t (C : config), cfgs w !! t = Some C -> is_Some (props w !! (t, c_proposed C));
    (* an INITIALIZED proposal is registered: its index is at most Proposed.Index *)
    ci_reg : forall t i (P : prop), props w !! (t, i) = Some P -> p_init P = Some Done ->
             exists C : config, cfgs w !! t = Some C /\ i <= c_proposed C;
    ci_prev : forall t i (P : prop), props w !! (t, i) = Some P -> p_prev P <> 0 ->
              exists Q : prop, props w !! (t, p_prev P) = Some Q /\ p_next Q = i;
    (* the NextIndex of the tail, if set, names a proposal that is still initialising *)
    ci_tailnext : forall t (C : config) (Q : prop), cfgs w !! t = Some C -> props w !! (t, c_proposed C) = Some Q -> p_next Q <> 0 ->
                  exists Pn : prop, props w !! (t, p_next Q) = Some Pn /\ p_init Pn <> Some Done;
    ci_opennext : forall t i (P : prop), props w !! (t, i) = Some P -> p_init P <> Some Done -> p_next P = 0;
    (* among the registered proposals only the first has PrevIndex 0 *)
    ci_first : forall t (C : config) i j (P Q : prop), cfgs w !! t = Some C -> props w !! (t, i) = Some P -> props w !! (t, j) = Some Q ->
               i <= c_proposed C -> j <= c_proposed C -> p_prev P = 0 -> i <= j;
    ci_committed : forall t (C : config), cfgs w !! t = Some C -> c_committed C <> 0 ->
                   exists P : prop, props w !! (t, c_committed C) = Some P /\ p_init P = Some Done;
    ci_applied : forall t (C : config), cfgs w !! t = Some C -> c_applied C <> 0 ->
                 exists P : prop, props w !! (t, c_applied C) = Some P /\ p_init P = Some Done }.

  Lemma C_inv_init : C_inv (@init V Ch Req D).
  Proof. split; cbn; intros; rewrite lookup_empty in *; discriminate. Qed.

  Lemma next_stable (w : world) l k (Q : prop) :
    props w !! k = Some Q -> p_next Q <> 0 -> exists Q', props (step w l) !! k = Some Q' /\ p_next Q' = p_next Q.
  Proof.
    intros HQ Hn. destruct (prop_step_keep w l k) as [Q' HQ']; [eauto|]. exists Q'. split; [exact HQ'|].
    destruct (prop_post_old _ _ _ _ _ HQ HQ') as [(_ & He & _)|(t & i & n & o & _ & Hl)]; [exact He|].
    destruct (link_write_fields _ _ _ _ _ _ Hl) as (_ & [He|Hz] & _); [exact He|congruence].
  Qed.

  Section Step.
    Context (w : world) (l : @label Ch) (Hr : reach w) (HC : C_inv w).

    Lemma step_tail t (C' : config) : cfgs (step w l) !! t = Some C' -> is_Some (props (step w l) !! (t, c_proposed C')).
    Proof.
      intros H'. apply cfg_step in H'.
      destruct H' as [(C & HCf & [S|(ctl & n & o & c0 & -> & Hw & S)])|(Hn & i & n & o & -> & Hp & Hcore)].
      - sim_cbn S. rewrite <- S2. apply prop_step_keep. eapply ci_tail; eassumption.
      - pose proof (ci_tail _ HC _ _ HCf) as Ht.
        inversion Hw; subst; sim_cbn S; rewrite <- ?S2; try (apply prop_step_keep; exact Ht).
        apply prop_step_keep. eauto.
      - unfold core in Hcore. injection Hcore as _ Hpi _ _ _ _ _ _ _. rewrite Hpi. apply prop_step_keep. exact Hp.
    Qed.

    Lemma step_reg t i (P' : prop) : props (step w l) !! (t, i) = Some P' -> p_init P' = Some Done ->
      exists C' : config, cfgs (step w l) !! t = Some C' /\ i <= c_proposed C'.
    Proof.
      intros H' Hd.
      assert (Hold : forall P : prop, props w !! (t, i) = Some P -> p_init P = Some Done ->
                     exists C' : config, cfgs (step w l) !! t = Some C' /\ i <= c_proposed C').
      { intros P HP Hi. destruct (ci_reg _ HC _ _ _ HP Hi) as (C & HCf & Hle).
        destruct (cfg_post w l t C HCf) as (C' & HC' & Hle'). exists C'. split; [exact HC'|lia]. }
      apply prop_post in H'. destruct H' as [(_ & _ & _ & Hi & _)|(P & HP & [(_ & _ & He)|(t0 & i0 & n & o & _ & Hl)])]; [congruence| |].
      - apply (Hold P HP). congruence.
      - destruct (link_write_fields _ _ _ _ _ _ Hl) as (_ & _ & [He|[(_ & Hx)|([= <- <-] & _ & _ & C & HCf & Hle)]]).
        + apply (Hold P HP). congruence.
        + congruence.
        + destruct (cfg_post w l t C HCf) as (C' & HC' & Hle'). exists C'. split; [exact HC'|lia].
    Qed.

    Lemma step_opennext t i (P' : prop) : props (step w l) !! (t, i) = Some P' -> p_init P' <> Some Done -> p_next P' = 0.
    Proof.
      intros H' Hd.
      apply prop_post in H'. destruct H' as [(_ & _ & Hn & _)|(P & HP & [(_ & Hn & He)|(t0 & i0 & n & o & _ & Hl)])]; [exact Hn| |].
      - rewrite Hn. eapply ci_opennext; [exact HC|exact HP|congruence].
      - destruct Hl as [(_ & Hn & [He|[(_ & Hx & _)|(_ & _ & Hx & _)]])|[(C & Pi & HCf & HPi & _ & Hlt & _ & [= <- Hi0] & _ & ->)|(C & Q & _ & _ & _ & _ & _ & _ & _ & _ & ->)]].
        + rewrite Hn. eapply ci_opennext; [exact HC|exact HP|congruence].
        + rewrite Hn. eapply ci_opennext; [exact HC|exact HP|congruence].
        + congruence.
        + exfalso. apply Hd. cbn. eapply (inst open_is_last w t i i0); [exact Hr|exact HP|exact HPi|lia].
        + cbn in *. eapply ci_opennext; [exact HC|exact HP|exact Hd].
    Qed.

    Lemma step_prev t i (P' : prop) : props (step w l) !! (t, i) = Some P' -> p_prev P' <> 0 ->
      exists Q' : prop, props (step w l) !! (t, p_prev P') = Some Q' /\ p_next Q' = i.
    Proof.
      intros H' Hp.
      assert (Hold : forall P : prop, props w !! (t, i) = Some P -> p_prev P' = p_prev P ->
                     exists Q' : prop, props (step w l) !! (t, p_prev P') = Some Q' /\ p_next Q' = i).
      { intros P HP He. rewrite He in Hp |- *. destruct (ci_prev _ HC _ _ _ HP Hp) as (Q & HQ & Hn).
        pose proof (prop_index_pos _ _ _ _ Hr HP) as Hi.
        destruct (next_stable w l _ Q HQ) as (Q' & HQ' & Hn'); [lia|]. exists Q'. split; [exact HQ'|lia]. }
      pose proof H' as H0. apply prop_post in H0.
      destruct H0 as [(_ & Hz & _)|(P & HP & [(He & _)|(t0 & i0 & n & o & _ & Hl)])]; [congruence|apply (Hold P HP He)|].
      destruct Hl as [(He & _)|[(C & Pi & _ & _ & _ & _ & _ & _ & _ & ->)|(C & Q & HCf & [= <- <-] & Hdo & Hlt & Hpos & HQ & Hnn & Hz & ->)]].
      - apply (Hold P HP He).
      - apply (Hold P HP). reflexivity.
      - cbn. destruct (ci_tailnext _ HC _ _ _ HCf HQ Hnn) as (Pn & HPn & Hnd).
        assert (Hn : p_next Q = i).
        { destruct (N.lt_trichotomy (p_next Q) i) as [Hlt'|[He|Hgt]]; [|exact He|].
          - exfalso. apply Hnd. eapply (inst open_is_last w t (p_next Q) i); eassumption.
          - exfalso. assert (p_init P = Some Done) by (eapply (inst open_is_last w t i (p_next Q)); eassumption). congruence. }
        destruct (next_stable w l _ Q HQ Hnn) as (Q' & HQ' & Hn'). exists Q'. split; [exact HQ'|congruence].
    Qed.
    Lemma cfg_post_cases t (C' : config) : cfgs (step w l) !! t = Some C' ->
      (exists C : config, cfgs w !! t = Some C /\ c_proposed C' = c_proposed C) \/
      (exists (C : config) (P Q : prop), cfgs w !! t = Some C /\ c_proposed C < c_proposed C' /\
         props w !! (t, c_proposed C') = Some P /\ p_init P = Some Doing /\
         props w !! (t, c_proposed C) = Some Q /\ p_next Q <> 0 /\ p_prev P <> 0) \/
      (cfgs w !! t = None /\ exists P : prop, props w !! (t, c_proposed C') = Some P /\ p_init P <> Some Done).
    Proof.
      intros H'. apply cfg_step in H'.
      destruct H' as [(C & HCf & [S|(ctl & n & o & c0 & -> & Hw & S)])|(Hn & i & n & o & -> & [P HP] & Hcore)].
      - left. exists C. split; [exact HCf|]. sim_cbn S. congruence.
      - destruct (ci_tail _ HC _ _ HCf) as [Q HQ]. pose proof (prop_index_pos _ _ _ _ Hr HQ) as Hpos.
        inversion Hw; subst; sim_cbn S; try (left; exists C; split; [exact HCf|congruence]).
        right. left. rewrite <- S2.
        match goal with Hg : _ \/ _ \/ _ |- _ => destruct Hg as [Hz|[Hnone|(Q0 & HQ0 & Hnn & Hpp)]] end; [lia|congruence|].
        rewrite HQ in HQ0. injection HQ0 as <-. eexists C, _, Q. repeat split; eauto.
      - right. right. split; [exact Hn|]. unfold core in Hcore. injection Hcore as _ Hpi _ _ _ _ _ _ _. rewrite Hpi.
        exists P. split; [exact HP|]. intros Hd. destruct (ci_reg _ HC _ _ _ HP Hd) as (C0 & HC0 & _). congruence.
    Qed.

    Lemma post_tail_pre t (C' : config) : cfgs (step w l) !! t = Some C' -> is_Some (props w !! (t, c_proposed C')).
    Proof.
      intros H'. destruct (cfg_post_cases _ _ H') as [(C & HCf & ->)|[(C & P & Q & _ & _ & HP & _)|(_ & P & HP & _)]].
      - eapply ci_tail; eassumption.
      - eauto.
      - eauto.
    Qed.

    Lemma open_post t n (Pn : prop) : props w !! (t, n) = Some Pn -> p_init Pn <> Some Done ->
      (forall C : config, cfgs w !! t = Some C -> c_proposed C < n) ->
      exists Pn' : prop, props (step w l) !! (t, n) = Some Pn' /\ p_init Pn' <> Some Done.
    Proof.
      intros HPn Hnd Hlt. destruct (prop_step_keep w l (t, n)) as [Pn' HPn']; [eauto|].
      exists Pn'. split; [exact HPn'|].
      destruct (prop_post_old _ _ _ _ _ HPn HPn') as [(_ & _ & He)|(t0 & i0 & n0 & o & _ & Hl)]; [congruence|].
      destruct (link_write_fields _ _ _ _ _ _ Hl) as (_ & _ & [He|[(_ & Hx)|([= <- <-] & _ & _ & C & HCf & Hle)]]); try congruence.
      specialize (Hlt _ HCf). lia.
    Qed.

    Lemma tailnext_core t (C : config) (Q Q' : prop) :
      cfgs w !! t = Some C -> props w !! (t, c_proposed C) = Some Q -> props (step w l) !! (t, c_proposed C) = Some Q' -> p_next Q' <> 0 ->
      exists Pn' : prop, props (step w l) !! (t, p_next Q') = Some Pn' /\ p_init Pn' <> Some Done.
    Proof.
      intros HCf HQ HQ' Hnn.
      assert (Hsame : p_next Q' = p_next Q -> exists Pn' : prop, props (step w l) !! (t, p_next Q') = Some Pn' /\ p_init Pn' <> Some Done).
      { intros He. rewrite He in Hnn |- *. destruct (ci_tailnext _ HC _ _ _ HCf HQ Hnn) as (Pn & HPn & Hnd).
        destruct (inst links_ordered _ _ _ _ Hr HQ) as [_ [Hz|Hlt]]; [congruence|].
        apply (open_post _ _ _ HPn Hnd). intros C0 HC0. rewrite HCf in HC0. injection HC0 as <-. exact Hlt. }
      destruct (prop_post_old _ _ _ _ _ HQ HQ') as [(_ & He & _)|(t0 & i0 & n0 & o & _ & Hl)]; [exact (Hsame He)|].
      destruct Hl as [(_ & He & _)|[(C1 & Pi & HC1 & HPi & Hdo & Hlt & _ & [= <- _] & _ & ->)|(C1 & Q1 & _ & _ & _ & _ & _ & _ & _ & _ & ->)]].
      - exact (Hsame He).
      - cbn. rewrite HCf in HC1. injection HC1 as <-. apply (open_post _ _ _ HPi); [congruence|].
        intros C0 HC0. rewrite HCf in HC0. injection HC0 as <-. exact Hlt.
      - apply Hsame. reflexivity.
    Qed.

    Lemma step_tailnext t (C' : config) (Q' : prop) :
      cfgs (step w l) !! t = Some C' -> props (step w l) !! (t, c_proposed C') = Some Q' -> p_next Q' <> 0 ->
      exists Pn' : prop, props (step w l) !! (t, p_next Q') = Some Pn' /\ p_init Pn' <> Some Done.
    Proof.
      intros H' HQ' Hnn.
      (* a tail that is still initialising has NextIndex 0, before and after the step *)
      assert (Hopen : forall P : prop, props w !! (t, c_proposed C') = Some P -> p_init P <> Some Done ->
                      (forall C : config, cfgs w !! t = Some C -> c_proposed C < c_proposed C') -> False).
      { intros P HP Hnd Hlt. pose proof (ci_opennext _ HC _ _ _ HP Hnd) as Hz.
        destruct (prop_post_old _ _ _ _ _ HP HQ') as [(_ & He & _)|(t0 & i0 & n0 & o & _ & Hl)]; [congruence|].
        destruct Hl as [(_ & He & _)|[(C1 & Pi & HC1 & _ & _ & Hlt1 & _ & [= <- Hk] & _ & ->)|(C1 & Q1 & _ & _ & _ & _ & _ & _ & _ & _ & ->)]];
          try congruence.
        - specialize (Hlt _ HC1). lia.
        - cbn in Hnn. congruence. }
      destruct (cfg_post_cases _ _ H') as [(C & HCf & He)|[(C & P & Q & HCf & Hlt & HP & Hdo & _)|(Hn & P & HP & Hnd)]].
      - rewrite He in HQ'. destruct (ci_tail _ HC _ _ HCf) as [Q HQ]. eapply tailnext_core; eassumption.
      - exfalso. apply (Hopen P HP); [congruence|]. intros C0 HC0. rewrite HCf in HC0. injection HC0 as <-. exact Hlt.
      - exfalso. apply (Hopen P HP Hnd). intros C0 HC0. congruence.
    Qed.
    (* a registered proposal (index <= Proposed.Index after the step) existed before the step, with the same PrevIndex
       unless the step linked it *)
    Lemma registered_pre t (C' : config) i (P' : prop) :
      cfgs (step w l) !! t = Some C' -> props (step w l) !! (t, i) = Some P' -> i <= c_proposed C' ->
      exists P : prop, props w !! (t, i) = Some P /\ (p_prev P' = 0 -> p_prev P = 0).
    Proof.
      intros H' HP' Hle. destruct (props w !! (t, i)) as [P|] eqn:HP.
      - exists P. split; [reflexivity|].
        destruct (prop_post_old _ _ _ _ _ HP HP') as [(He & _)|(t0 & i0 & n0 & o & _ & Hl)]; [congruence|].
        destruct (link_write_fields _ _ _ _ _ _ Hl) as ([He|(_ & _ & Hpos)] & _); [congruence|lia].
      - exfalso. apply prop_post in HP'. destruct HP' as [(_ & _ & _ & _ & n & o & _ & Hin)|(P & HP0 & _)]; [|congruence].
        cbn in Hin. destruct (post_tail_pre _ _ H') as [Q HQ].
        destruct (N.eq_dec i (c_proposed C')) as [->|Hne]; [congruence|].
        eapply (no_create_below w t i (c_proposed C')); [exact Hr|exact Hin|exact HQ|lia].
    Qed.

    Lemma step_first t (C' : config) i j (P' Q' : prop) :
      cfgs (step w l) !! t = Some C' -> props (step w l) !! (t, i) = Some P' -> props (step w l) !! (t, j) = Some Q' ->
      i <= c_proposed C' -> j <= c_proposed C' -> p_prev P' = 0 -> i <= j.
    Proof.
      intros H' HP' HQ' Hi Hj Hz.
      destruct (registered_pre _ _ _ _ H' HP' Hi) as (P & HP & Hz'). specialize (Hz' Hz).
      destruct (registered_pre _ _ _ _ H' HQ' Hj) as (Q & HQ & _).
      destruct (cfg_post_cases _ _ H') as [(C & HCf & He)|[(C & Pw & Qt & HCf & Hlt & HPw & Hdo & _ & _ & Hpp)|(Hn & Pc & HPc & Hnd)]].
      - rewrite He in Hi, Hj. eapply (ci_first _ HC t C i j); eassumption.
      - destruct (N.le_gt_cases i (c_proposed C)) as [Hi0|Hi0].
        + destruct (N.le_gt_cases j (c_proposed C)) as [Hj0|Hj0]; [|lia]. eapply (ci_first _ HC t C i j); eassumption.
        + destruct (N.eq_dec i (c_proposed C')) as [->|Hne].
          * rewrite HP in HPw. injection HPw as <-. congruence.
          * exfalso. assert (Hd : p_init P = Some Done) by (eapply (inst open_is_last w t i (c_proposed C')); [exact Hr|exact HP|exact HPw|lia]).
            destruct (ci_reg _ HC _ _ _ HP Hd) as (C0 & HC0 & Hle0). rewrite HCf in HC0. injection HC0 as <-. lia.
      - destruct (N.eq_dec j (c_proposed C')) as [->|Hne]; [exact Hi|].
        exfalso. assert (Hd : p_init Q = Some Done) by (eapply (inst open_is_last w t j (c_proposed C')); [exact Hr|exact HQ|exact HPc|lia]).
        destruct (ci_reg _ HC _ _ _ HQ Hd) as (C0 & HC0 & _). congruence.
    Qed.

    Lemma step_cursors t (C' : config) : cfgs (step w l) !! t = Some C' ->
      (c_committed C' <> 0 -> exists P' : prop, props (step w l) !! (t, c_committed C') = Some P' /\ p_init P' = Some Done) /\
      (c_applied C' <> 0 -> exists P' : prop, props (step w l) !! (t, c_applied C') = Some P' /\ p_init P' = Some Done).
    Proof.
      intros H'.
      assert (Hmover : forall i (P : prop) a, props w !! (t, i) = Some P ->
                p_validate P = Some a \/ p_commit P = Some a \/ p_apply P = Some a \/ p_abort P = Some a ->
                exists P' : prop, props (step w l) !! (t, i) = Some P' /\ p_init P' = Some Done).
      { intros i P a HP Hs. apply (init_done_post w l _ P HP). eapply started_linked; eassumption. }
      assert (Hold : forall C : config, cfgs w !! t = Some C ->
                (c_committed C <> 0 -> exists P' : prop, props (step w l) !! (t, c_committed C) = Some P' /\ p_init P' = Some Done) /\
                (c_applied C <> 0 -> exists P' : prop, props (step w l) !! (t, c_applied C) = Some P' /\ p_init P' = Some Done)).
      { intros C HCf. split; intros Hnz.
        - destruct (ci_committed _ HC _ _ HCf Hnz) as (P & HP & Hd). eapply init_done_post; eassumption.
        - destruct (ci_applied _ HC _ _ HCf Hnz) as (P & HP & Hd). eapply init_done_post; eassumption. }
      apply cfg_step in H'.
      destruct H' as [(C & HCf & [S|(ctl & n & o & c0 & -> & Hw & S)])|(Hn & i & n & o & -> & _ & Hcore)].
      - sim_cbn S. rewrite <- S3, <- S4. apply Hold. exact HCf.
      - destruct (Hold _ HCf) as [Hc Ha].
        inversion Hw; subst; sim_cbn S; rewrite <- ?S3, <- ?S4; (split; [try exact Hc|try exact Ha]); intros _;
          eapply Hmover; eauto 6.
      - unfold core in Hcore. injection Hcore as _ _ Hc Ha _ _ _ _ _. rewrite Hc, Ha. split; intros Hx; congruence.
    Qed.
  End Step.
  Lemma C_inv_step (w : world) l : reach w -> C_inv w -> C_inv (step w l).
  Proof.
    intros Hr HC. split.
    - apply step_tail; assumption.
    - apply step_reg; assumption.
    - apply step_prev; assumption.
    - apply step_tailnext; assumption.
    - apply step_opennext; assumption.
    - apply step_first; assumption.
    - intros t C' H'. exact (proj1 (step_cursors w l Hr HC t C' H')).
    - intros t C' H'. exact (proj2 (step_cursors w l Hr HC t C' H')).
  Qed.

  Theorem C_inv_reach (w : world) : reach w -> C_inv w.
  Proof.
    apply (inst reach_ind C_inv).
    - exact C_inv_init.
    - intros w0 l Hr Hi. apply C_inv_step; assumption.
  Qed.

  Lemma first_le (w : world) t i j (P Q : prop) :
    reach w -> props w !! (t, i) = Some P -> props w !! (t, j) = Some Q ->
    p_init P = Some Done -> p_init Q = Some Done -> p_prev P = 0 -> i <= j.
  Proof.
    intros Hr HP HQ Hdp Hdq Hz. pose proof (C_inv_reach _ Hr) as HC.
    destruct (ci_reg _ HC _ _ _ HP Hdp) as (C & HCf & Hi). destruct (ci_reg _ HC _ _ _ HQ Hdq) as (C0 & HC0 & Hj).
    rewrite HCf in HC0. injection HC0 as <-. exact (ci_first _ HC t C i j P Q HCf HP HQ Hi Hj Hz).
  Qed.

  Theorem unique_prev (w : world) t i j (P Q : prop) :
    reach w -> props w !! (t, i) = Some P -> props w !! (t, j) = Some Q ->
    p_init P = Some Done -> p_init Q = Some Done -> p_prev P = p_prev Q -> i = j.
  Proof.
    intros Hr HP HQ Hdp Hdq He. pose proof (C_inv_reach _ Hr) as HC.
    destruct (N.eq_dec (p_prev P) 0) as [Hz|Hnz].
    - pose proof (first_le _ _ i j _ _ Hr HP HQ Hdp Hdq Hz). pose proof (first_le _ _ j i _ _ Hr HQ HP Hdq Hdp ltac:(congruence)). lia.
    - destruct (ci_prev _ HC _ _ _ HP Hnz) as (R & HR & Hn). rewrite He in HR, Hnz.
      destruct (ci_prev _ HC _ _ _ HQ Hnz) as (R' & HR' & Hn'). rewrite HR in HR'. injection HR' as <-. congruence.
  Qed.

  Lemma first_below_cursors (w : world) t i (P : prop) (C : config) :
    reach w -> props w !! (t, i) = Some P -> cfgs w !! t = Some C -> p_init P = Some Done -> p_prev P = 0 ->
    (c_committed C = 0 \/ i <= c_committed C) /\ (c_applied C = 0 \/ i <= c_applied C).
  Proof.
    intros Hr HP HCf Hd Hz. pose proof (C_inv_reach _ Hr) as HC. split.
    - destruct (N.eq_dec (c_committed C) 0) as [|Hnz]; [left; assumption|right].
      destruct (ci_committed _ HC _ _ HCf Hnz) as (Q & HQ & Hdq). eapply first_le; eassumption.
    - destruct (N.eq_dec (c_applied C) 0) as [|Hnz]; [left; assumption|right].
      destruct (ci_applied _ HC _ _ HCf Hnz) as (Q & HQ & Hdq). eapply first_le; eassumption.
  Qed.
End ChainInv.
