(* C02, full strength: from the chain invariant (Proofs/P2_CursorChainInv.v) to
     - [g_commit], hence [commit_guard], in every reachable world: a validated proposal sees Committed.Index = its
       PrevIndex, or its own index already merged; hence "a proposal whose Commit phase is done has been merged", "never
       sent before merged", Applied.Index <= Committed.Index,
     - the same for Applied.Index and a failed apply ([g_failed]),
     - the sharpened single-step facts: Applied.Index moves, and a change is sent, from EXACTLY PrevIndex (without the
       "or PrevIndex = 0" alternative of [applied_moves_by_successor] and [sent_in_order] in P2_Cursor.v). *)
From stdpp Require Import gmap.
From RecordUpdate Require Import RecordUpdate.
From Coq Require Import NArith Lia.
From OC Require Import Model.Proto2 Proofs.P2Base Proofs.P2Phases Proofs.P2_Order Proofs.P2_Cursor Proofs.P2_CursorInv
     Proofs.P2_CursorChain Proofs.P2_CursorLink Proofs.P2_CursorChainInv.
Open Scope N_scope.

Section Guard.
  Context {V Ch Req D : Type}.
  Context (candidate : V -> Ch -> V) (candidate_rb : V -> Ch -> V) (rollback_of : V -> Ch -> Ch)
          (overlay : V -> V -> V) (commit_merge : N -> N -> V -> V -> Ch -> V)
          (payload : N -> V -> Ch -> option Req) (record_applied : N -> N -> V -> V -> V -> Ch -> V)
          (touched : N -> V -> Ch -> V) (restore : V -> V -> V)
          (resync_payload : V -> list (option Req)) (doc_ok : V -> bool)
          (dev_apply : D -> Req -> D) (stamp : N -> Ch -> Ch) (v_empty : V) (d_empty : D) (ch_empty : Ch).

  Notation world := (@world V Ch Req D).
  Notation prop := (@prop Ch).
  Notation config := (@config V).
  Notation rec_prop := (@rec_prop V Ch Req D candidate candidate_rb rollback_of overlay commit_merge payload record_applied
                                  touched restore doc_ok v_empty d_empty ch_empty).
  Notation reconcile := (@reconcile V Ch Req D candidate candidate_rb rollback_of overlay commit_merge payload record_applied
                                    touched restore resync_payload doc_ok stamp v_empty d_empty ch_empty).
  Notation step := (@step V Ch Req D candidate candidate_rb rollback_of overlay commit_merge payload record_applied
                          touched restore resync_payload doc_ok dev_apply stamp v_empty d_empty ch_empty).
  Notation reach := (@reach V Ch Req D candidate candidate_rb rollback_of overlay commit_merge payload record_applied
                            touched restore resync_payload doc_ok dev_apply stamp v_empty d_empty ch_empty).
  Notation inst f := (f candidate candidate_rb rollback_of overlay commit_merge payload record_applied touched restore
                        resync_payload doc_ok dev_apply stamp v_empty d_empty ch_empty).

  Lemma prev_stable (w : world) l k (P P' : prop) :
    props w !! k = Some P -> p_init P = Some Done -> props (step w l) !! k = Some P' -> p_prev P' = p_prev P.
  Proof.
    intros HP Hd HP'. destruct (inst prop_post_old _ _ _ _ _ HP HP') as [(He & _)|(t & i & n & o & _ & Hl)]; [exact He|].
    destruct (link_write_fields _ _ _ _ _ _ Hl) as ([He|(_ & Hdo & _)] & _); [exact He|congruence].
  Qed.

  (* a proposal whose validation is done, or whose apply has failed, after a step: it was so before, or the step is
     the write of that result and has read the cursor at the proposal's PrevIndex *)
  Lemma phase_post (w : world) l t i (P' : prop) :
    reach w -> props (step w l) !! (t, i) = Some P' ->
    (p_validate P' = Some Done -> exists P, props w !! (t, i) = Some P /\ p_init P = Some Done /\
       (p_validate P = Some Done \/ exists C : config, cfgs w !! t = Some C /\ (p_prev P = 0 \/ c_committed C = p_prev P))) /\
    (p_apply P' = Some Failed -> exists P, props w !! (t, i) = Some P /\ p_init P = Some Done /\
       (p_apply P = Some Failed \/ exists C : config, cfgs w !! t = Some C /\ (p_prev P = 0 \/ c_applied C = p_prev P))).
  Proof.
    intros Hr HP'.
    pose proof (fun P a => inst started_linked w t i P a Hr) as Hl.
    apply prop_step in HP'. destruct HP' as [H|(ctl & n & o & -> & [H|[H Hn]])].
    - split; intros Hx; exists P'; eauto 9.
    - apply reconcile_prop_write in H. destruct H as (P & HP & [(T & _ & _ & _ & Hs)|(t0 & i0 & -> & Hw)]).
      + destruct Hs as [(_ & _ & ->)|[(_ & _ & _ & ->)|[(_ & _ & _ & _ & ->)|(_ & _ & _ & _ & _ & ->)]]]; cbn;
          split; intros Hx; try discriminate Hx; exists P; eauto 9.
      + inversion Hw; subst; cbn; split; intros Hx; try discriminate Hx; exists P; eauto 11.
    - apply reconcile_createprop in H. destruct H as (T & _ & _ & _ & _ & _ & _ & _ & _ & _ & [(c & ->)|(ri & ->)]);
        split; intros Hx; discriminate Hx.
  Qed.

  (* a proposal in phase [ph] sees the cursor [cur] of its target at its PrevIndex, or at or past its own index *)
  Definition cursor_guard (cur : config -> N) (ph : prop -> Prop) (w : world) : Prop :=
    forall t i (P : prop) (C : config), props w !! (t, i) = Some P -> cfgs w !! t = Some C -> ph P ->
      cur C = p_prev P \/ i <= cur C.

  Lemma cursor_guard_step cur ph (w : world) l :
    reach w -> cursor_guard cur ph w ->
    (forall C C' : config, sim C C' -> cur C' = cur C) ->
    (forall t i (P : prop) (C : config), props w !! (t, i) = Some P -> cfgs w !! t = Some C -> p_init P = Some Done ->
       p_prev P = 0 -> cur C = 0 \/ i <= cur C) ->
    (* the phase is entered with the cursor at the PrevIndex *)
    (forall t i (P' : prop), props (step w l) !! (t, i) = Some P' -> ph P' ->
       exists P, props w !! (t, i) = Some P /\ p_init P = Some Done /\
         (ph P \/ exists C : config, cfgs w !! t = Some C /\ (p_prev P = 0 \/ cur C = p_prev P))) ->
    (* every write that moves the cursor moves it to an initialised proposal, from its PrevIndex *)
    (forall ctl t (C c0 : config), cfgs w !! t = Some C -> cfg_write w ctl t C c0 -> cur c0 = cur C \/
       exists P1 : prop, props w !! (t, cur c0) = Some P1 /\ p_init P1 = Some Done /\
         (cur C = p_prev P1 \/ cur C < cur c0 /\ (p_prev P1 = 0 \/ ph P1))) ->
    cursor_guard cur ph (step w l).
  Proof.
    intros Hr Hg Hsim Hfirst Hph Hmove t i P' C' HP' HC' Hv.
    destruct (Hph _ _ _ HP' Hv) as (P & HP & Hd & Hin).
    rewrite (prev_stable _ _ _ _ _ HP Hd HP').
    destruct (ci_reg _ (inst C_inv_reach _ Hr) _ _ _ HP Hd) as (C & HCf & _).
    assert (Hsame : cur C = p_prev P \/ i <= cur C).
    { destruct Hin as [Hp|(C1 & HC1 & [Hz|He])]; [eauto| |left; congruence].
      destruct (Hfirst _ _ _ _ HP HC1 Hd Hz); [left|right]; congruence. }
    apply cfg_step in HC'. destruct HC' as [(C0 & HC0 & Hrel)|(Hn & _)]; [|congruence]. rewrite HCf in HC0. injection HC0 as <-.
    destruct Hrel as [S|(ctl & n & o & c0 & _ & Hw & S)]; rewrite (Hsim _ _ S); [exact Hsame|].
    destruct (Hmove _ _ _ _ HCf Hw) as [->|(P1 & HP1 & Hd1 & Hfrom)]; [exact Hsame|]. right.
    assert (He1 : cur C = p_prev P1).
    { destruct Hfrom as [He|(Hlt & [Hz|Hp1])]; [exact He| |].
      - destruct (Hfirst _ _ _ _ HP1 HCf Hd1 Hz); [congruence|lia].
      - destruct (Hg _ _ _ _ HP1 HCf Hp1); [assumption|lia]. }
    destruct Hsame as [He|Hle].
    - assert (i = cur c0) by (eapply (inst unique_prev _ _ i (cur c0) P P1); try eassumption; congruence). lia.
    - pose proof (inst prop_index_pos _ _ _ _ Hr HP). destruct (inst links_ordered _ _ _ _ Hr HP1) as [[Hz|Hlt] _]; lia.
  Qed.

  Record G_inv (w : world) : Prop := {
    g_commit : cursor_guard c_committed (fun P => p_validate P = Some Done) w;
    g_failed : cursor_guard c_applied (fun P => p_apply P = Some Failed) w }.

  Lemma G_inv_init : G_inv (@init V Ch Req D).
  Proof. split; intros t i P C H; cbn in H; rewrite lookup_empty in H; discriminate. Qed.

  Lemma G_inv_step (w : world) l : reach w -> G_inv w -> G_inv (step w l).
  Proof.
    intros Hr [Hgc Hgf].
    pose proof (fun t i P a => inst started_linked w t i P a Hr) as Hl.
    split; apply cursor_guard_step; try assumption.
    - intros C C' S. sim_cbn S. auto.
    - intros t i P C HP HC Hd Hz. apply (inst first_below_cursors _ _ _ _ _ Hr HP HC Hd Hz).
    - intros t i P' HP'. apply (phase_post _ _ _ _ _ Hr HP').
    - intros ctl t C c0 HC Hw. inversion Hw; subst; cbn; auto; right; exists P; eauto 9.
    - intros C C' S. sim_cbn S. auto.
    - intros t i P C HP HC Hd Hz. apply (inst first_below_cursors _ _ _ _ _ Hr HP HC Hd Hz).
    - intros t i P' HP'. apply (phase_post _ _ _ _ _ Hr HP').
    - intros ctl t C c0 HC Hw. inversion Hw; subst; cbn; auto; right; exists P;
        (split; [assumption|]); (split; [eauto 6|tauto]).
  Qed.

  Theorem G_inv_reach (w : world) : reach w -> G_inv w.
  Proof.
    apply (inst reach_ind G_inv).
    - exact G_inv_init.
    - intros w0 l Hr Hi. apply G_inv_step; assumption.
  Qed.

  Notation commit_guard := (@commit_guard V Ch Req D).
  Notation commit_merged := (@commit_merged V Ch Req D).
  Notation applied_of := (@applied_of V Ch Req D).

  Theorem commit_guard_reach (w : world) : reach w -> commit_guard w.
  Proof.
    intros Hr t i P C HP HCf Hc _ _. destruct (inst proposal_phase_order _ _ _ Hr HP) as (_ & O2 & _).
    eapply (g_commit _ (G_inv_reach _ Hr)); [exact HP|exact HCf|]. apply O2. rewrite Hc. eexists; reflexivity.
  Qed.

  Theorem commit_merged_reach (w : world) : reach w -> commit_merged w.
  Proof.
    apply (inst commit_merged_of_guard). exact commit_guard_reach.
  Qed.

  (* C02: the device is never sent a change that has not been merged into the stored configuration *)
  Theorem never_sent_before_merged (w : world) l evs t m term i r a :
    reach w -> devlog (step w l) = devlog w ++ evs -> In (DevSet t m term (Some i) r a) evs ->
    exists (P : prop) (C : config), props w !! (t, i) = Some P /\ cfgs w !! t = Some C /\
      p_commit P = Some Done /\ i <= c_committed C.
  Proof.
    intros Hr. apply (inst never_sent_before_merged_partial); [exact Hr|].
    apply commit_merged_reach. exact Hr.
  Qed.

  Theorem cursors_ordered (w : world) t (C : config) :
    reach w -> cfgs w !! t = Some C -> c_applied C <= c_committed C /\ c_committed C <= c_proposed C.
  Proof.
    intros Hr HCf. split.
    - eapply (inst applied_le_committed_of_guard commit_guard_reach); eassumption.
    - pose proof (inst C_inv_reach _ Hr) as HCI. destruct (N.eq_dec (c_committed C) 0) as [->|Hnz]; [lia|].
      destruct (ci_committed _ HCI _ _ HCf Hnz) as (P & HP & Hd). destruct (ci_reg _ HCI _ _ _ HP Hd) as (C0 & HC0 & Hle).
      rewrite HCf in HC0. injection HC0 as <-. exact Hle.
  Qed.

  (* a change is sent when Applied.Index is EXACTLY the PrevIndex of its proposal *)
  Theorem sent_from_prev (w : world) l evs t m term i r a :
    reach w -> devlog (step w l) = devlog w ++ evs -> In (DevSet t m term (Some i) r a) evs ->
    exists (P : prop) (C : config), props w !! (t, i) = Some P /\ cfgs w !! t = Some C /\
      p_apply P = Some Doing /\ c_applied C = p_prev P /\ c_applied C < i.
  Proof.
    intros Hr Hd Hin.
    destruct (inst sent_in_order _ _ _ _ _ _ _ _ _ Hd Hin) as (k & o & -> & Hs).
    destruct Hs as (C & P & HCf & HP & _ & _ & _ & _ & _ & Ha & Hlt & Hg & _). exists P, C. repeat split; auto.
    destruct Hg as [Hz|He]; [|exact He].
    assert (Hdn : p_init P = Some Done) by (eapply (inst started_linked); eauto 6).
    destruct (inst first_below_cursors _ _ _ _ _ Hr HP HCf Hdn Hz) as [_ [H0|Hle]]; [congruence|lia].
  Qed.

  (* ANY step from a reachable world moves Applied.Index of a target from exactly the PrevIndex of the moving proposal *)
  Theorem applied_moves_from_prev (w : world) l t :
    reach w -> applied_of (step w l) t <> applied_of w t ->
    exists i k o (P : prop), l = LRec (CtlProp (t, i)) k o /\ props w !! (t, i) = Some P /\
      applied_of (step w l) t = i /\ applied_of w t = p_prev P /\ applied_of w t < i /\
      (p_apply P = Some Doing \/ p_apply P = Some Failed \/ (p_apply P = None /\ p_abort P = Some Doing)).
  Proof.
    intros Hr Hne. apply applied_moves_by_successor in Hne. destruct Hne as (i & k & o & P & -> & HP & Hnew & Hcase).
    exists i, k, o, P. split; [reflexivity|]. split; [exact HP|]. split; [exact Hnew|].
    assert (Hd : p_init P = Some Done).
    { destruct Hcase as [(Ha & _)|[(Ha & _)|(_ & Ha & _)]]; eapply (inst started_linked); eauto 6. }
    destruct (ci_reg _ (inst C_inv_reach _ Hr) _ _ _ HP Hd) as (C & HCf & _).
    unfold P2_Cursor.applied_of in *. rewrite HCf in *.
    destruct Hcase as [(Ha & Hlt & Hg)|[(Ha & Hlt)|(Ha & Hab & He)]].
    - split; [|split; [exact Hlt|left; exact Ha]]. destruct Hg as [Hz|He]; [|exact He].
      destruct (inst first_below_cursors _ _ _ _ _ Hr HP HCf Hd Hz) as [_ [H0|Hle]]; [congruence|lia].
    - split; [|split; [exact Hlt|right; left; exact Ha]].
      destruct (g_failed _ (G_inv_reach _ Hr) _ _ _ _ HP HCf Ha) as [He|Hle]; [exact He|lia].
    - split; [exact He|]. split; [|right; right; auto].
      rewrite He. destruct (inst links_ordered _ _ _ _ Hr HP) as [[Hz|Hlt] _]; [|exact Hlt]. rewrite Hz. pose proof (inst prop_index_pos _ _ _ _ Hr HP). lia.
  Qed.
End Guard.
