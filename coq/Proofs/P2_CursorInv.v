(* Record-local invariants of the v2 protocol model and what follows from them (C02):
     - PrevIndex < index < NextIndex on every proposal, applied term <= term on every configuration,
     - the Committed and Applied indexes of a target never decrease,
     - every proposal write of a reconciler starts a phase or advances one (Doing -> Done/Failed) ([reconcile_putprop]),
       Commit never fails. *)
From stdpp Require Import gmap.
From RecordUpdate Require Import RecordUpdate.
From Coq Require Import NArith Lia.
From OC Require Import Model.Proto2 Proofs.P2Base Proofs.P2Phases Proofs.P2_Cursor.
Open Scope N_scope.

Section CursorInv.
  Context {V Ch Req D : Type}.
  Context (candidate : V -> Ch -> V) (candidate_rb : V -> Ch -> V) (rollback_of : V -> Ch -> Ch)
          (overlay : V -> V -> V) (commit_merge : N -> N -> V -> V -> Ch -> V)
          (payload : N -> V -> Ch -> option Req) (record_applied : N -> N -> V -> V -> V -> Ch -> V)
          (touched : N -> V -> Ch -> V) (restore : V -> V -> V)
          (resync_payload : V -> list (option Req)) (doc_ok : V -> bool)
          (dev_apply : D -> Req -> D) (stamp : N -> Ch -> Ch) (v_empty : V) (d_empty : D) (ch_empty : Ch).

  Notation world := (@world V Ch Req D).
  Notation eff := (@eff V Ch Req).
  Notation txn := (@txn Ch).
  Notation prop := (@prop Ch).
  Notation config := (@config V).
  Notation rec_prop := (@rec_prop V Ch Req D candidate candidate_rb rollback_of overlay commit_merge payload record_applied
                                  touched restore doc_ok v_empty d_empty ch_empty).
  Notation rec_cfg := (@rec_cfg V Ch Req D overlay restore resync_payload v_empty d_empty).
  Notation reconcile := (@reconcile V Ch Req D candidate candidate_rb rollback_of overlay commit_merge payload record_applied
                                    touched restore resync_payload doc_ok stamp v_empty d_empty ch_empty).
  Notation step := (@step V Ch Req D candidate candidate_rb rollback_of overlay commit_merge payload record_applied
                          touched restore resync_payload doc_ok dev_apply stamp v_empty d_empty ch_empty).
  Notation reach := (@reach V Ch Req D candidate candidate_rb rollback_of overlay commit_merge payload record_applied
                            touched restore resync_payload doc_ok dev_apply stamp v_empty d_empty ch_empty).


  Notation committed_of := (@committed_of V Ch Req D).
  Notation applied_of := (@applied_of V Ch Req D).

  Definition link_upd (k : N * N) (P P' : prop) : Prop :=
    (p_prev P' = p_prev P \/ (p_prev P = 0 /\ p_prev P' < k.2)) /\
    (p_next P' = p_next P \/ (p_next P = 0 /\ k.2 < p_next P')).

  Definition phase_upd (P P' : prop) : Prop :=
    (p_validate P' = p_validate P \/ (p_validate P = Some Doing /\ (p_validate P' = Some Done \/ p_validate P' = Some Failed))) /\
    (p_commit P' = p_commit P \/ (p_commit P = Some Doing /\ p_commit P' = Some Done /\ p_apply P = None)) /\
    (p_abort P' = p_abort P \/ (p_abort P = Some Doing /\ p_abort P' = Some Done)) /\
    (p_apply P' = p_apply P \/ (p_apply P = Some Doing /\ (p_apply P' = Some Done \/ p_apply P' = Some Failed))) /\
    (p_init P' = p_init P \/ (p_init P = None /\ p_init P' = Some Doing) \/ (p_init P = Some Doing /\ p_init P' = Some Done)).

  Lemma prop_write_upd (w : world) t i k (P P' : prop) : prop_write w t i k P P' -> k.1 = t /\ link_upd k P P' /\ phase_upd P P'.
  Proof. intros Hw. unfold link_upd, phase_upd. destruct Hw; cbn; auto 10. Qed.

  Lemma rec_prop_putprop (o : oracle) (w : world) t i k P' :
    In (EPutProp k P') (fst (rec_prop o w (t, i))) ->
    exists P, props w !! k = Some P /\ k.1 = t /\ link_upd k P P' /\ phase_upd P P'.
  Proof. intros H. apply rec_prop_eff in H. inversion H; subst. eauto using prop_write_upd. Qed.

  Definition cfg_kind (e : eff) : Prop := match e with EDev _ | EPutAValues _ _ | EPutCfg _ _ => True | _ => False end.
  Lemma rec_cfg_kinds (o : oracle) (w : world) t e : In e (fst (rec_cfg o w t)) -> cfg_kind e.
  Proof. intros H. apply rec_cfg_eff in H. destruct H; exact I. Qed.

  Lemma tx_starts_link (T : txn) k (P P' : prop) : tx_starts T P P' -> link_upd k P P'.
  Proof.
    intros [(_ & _ & ->)|[(_ & _ & _ & ->)|[(_ & _ & _ & _ & ->)|(_ & _ & _ & _ & _ & ->)]]]; split; left; reflexivity.
  Qed.

  Lemma reconcile_putprop (o : oracle) (w : world) ctl k P' :
    In (EPutProp k P') (fst (reconcile o w ctl)) ->
    exists P, props w !! k = Some P /\ link_upd k P P' /\
      ((exists i, ctl = CtlProp (k.1, i) /\ phase_upd P P') \/
       (exists T, ctl = CtlTx k.2 /\ txs w !! k.2 = Some T /\ In k.1 (default [] (t_props T)) /\ tx_starts T P P')).
  Proof.
    intros H. apply reconcile_prop_write in H. destruct H as (P & HP & [(T & -> & Hs)|(t & i & -> & Hw)]); exists P; (split; [exact HP|]).
    - split; [eapply tx_starts_link; apply Hs|]. eauto.
    - destruct (prop_write_upd _ _ _ _ _ _ Hw) as (<- & Hl & Hu). eauto.
  Qed.

  Lemma reconcile_createprop (o : oracle) (w : world) ctl k P' :
    In (ECreateProp k P') (fst (reconcile o w ctl)) ->
    exists T, ctl = CtlTx k.2 /\ txs w !! k.2 = Some T /\
      t_apply T = None /\ t_abort T = None /\ t_commit T = None /\ t_validate T = None /\ t_init T = Some Doing /\ t_props T = None /\
      (forall Pv, txs w !! (k.2 - 1) = Some Pv -> t_init Pv = Some Done \/ t_init Pv = Some Failed) /\
      ((exists c, P' = new_change_prop c) \/ (exists ri, P' = new_rollback_prop ri)).
  Proof.
    destruct ctl as [i|kk|t0|t0|c0]; cbn [Proto2.reconcile]; intros H.
    - apply rec_tx_eff in H. inversion H as [| |t T P0 HT ? ? ? ? ? ? Hpv Hd]; subst. exists T. cbn. repeat split; auto.
      destruct Hd as [(chs & c & _ & ->)|(ri & R & chs & _ & _ & _ & ->)]; eauto.
    - destruct kk. apply rec_prop_eff in H. inversion H.
    - apply rec_cfg_kinds in H. destruct H.
    - apply rec_master_only_putcfg in H. destruct H.
    - apply rec_conn_only_rel in H. destruct H.
  Qed.

  Definition prop_good (k : N * N) (P : prop) : Prop :=
    (p_prev P = 0 \/ p_prev P < k.2) /\ (p_next P = 0 \/ k.2 < p_next P) /\ p_commit P <> Some Failed.
  Definition cfg_good (C : config) : Prop := c_aterm C <= c_term C.

  Record K (w : world) : Prop := {
    k_prop : forall k P, props w !! k = Some P -> prop_good k P;
    k_cfg : forall t C, cfgs w !! t = Some C -> cfg_good C }.

  Lemma step_K (w : world) l : K w -> K (step w l).
  Proof.
    intros [Hp Hc]. split.
    - intros k P' H. apply prop_step in H. destruct H as [H|(ctl & n & o & -> & [H|[H Hn]])].
      + apply Hp. exact H.
      + apply reconcile_putprop in H. destruct H as (P & HP & [Hl1 Hl2] & Hu). destruct (Hp _ _ HP) as (G1 & G2 & G3).
        split; [|split].
        * destruct Hl1 as [->|[_ Hl]]; [exact G1|right; exact Hl].
        * destruct Hl2 as [->|[_ Hl]]; [exact G2|right; exact Hl].
        * destruct Hu as [(i & _ & _ & [->|(_ & -> & _)] & _)|(T & _ & _ & _ & Hs)]; [exact G3|discriminate|].
          destruct Hs as [(_ & _ & ->)|[(_ & _ & _ & ->)|[(_ & _ & _ & _ & ->)|(_ & _ & _ & _ & _ & ->)]]]; cbn; try exact G3. discriminate.
      + apply reconcile_createprop in H. destruct H as (T & _ & _ & _ & _ & _ & _ & _ & _ & _ & [(c & ->)|(ri & ->)]);
          (split; [left; reflexivity|split; [left; reflexivity|discriminate]]).
    - intros t C' H. unfold cfg_good. apply cfg_step in H.
      destruct H as [(C & HC & [S|(ctl & n & o & c0 & -> & Hw & S)])|(Hn & i & n & o & -> & _ & Hcore)].
      + pose proof (Hc _ _ HC) as G. unfold cfg_good in G. sim_cbn S. lia.
      + pose proof (Hc _ _ HC) as G. unfold cfg_good in G. inversion Hw; subst; sim_cbn S; lia.
      + unfold core in Hcore. injection Hcore as _ _ _ _ _ _ -> _ ->. lia.
  Qed.

  Lemma K_init : K (@init V Ch Req D).
  Proof. split; cbn; intros ? ? H; rewrite lookup_empty in H; discriminate. Qed.

  Theorem K_reach (w : world) : reach w -> K w.
  Proof.
    revert w. apply reach_ind; [exact K_init|]. intros w l _. apply step_K.
  Qed.

  (* 0 = no link *)
  Theorem links_ordered (w : world) t i (P : prop) :
    reach w -> props w !! (t, i) = Some P -> (p_prev P = 0 \/ p_prev P < i) /\ (p_next P = 0 \/ i < p_next P).
  Proof. intros Hr HP. destruct (k_prop _ (K_reach _ Hr) _ _ HP) as (G1 & G2 & _). auto. Qed.

  (* the term in which the device was last synchronised never exceeds the mastership term *)
  Theorem aterm_le_term (w : world) t (C : config) : reach w -> cfgs w !! t = Some C -> c_aterm C <= c_term C.
  Proof. intros Hr HC. exact (k_cfg _ (K_reach _ Hr) _ _ HC). Qed.

  (* C02 *)
  Theorem cursors_monotone (w : world) l t :
    reach w -> committed_of w t <= committed_of (step w l) t /\ applied_of w t <= applied_of (step w l) t.
  Proof.
    intros Hr. split.
    - destruct (N.eq_dec (committed_of (step w l) t) (committed_of w t)) as [->|Hne]; [lia|].
      apply committed_moves_by_successor in Hne. destruct Hne as (i & k & o & P & -> & HP & -> & -> & _).
      destruct (links_ordered _ _ _ _ Hr HP) as [[->|Hlt] _]; lia.
    - destruct (N.eq_dec (applied_of (step w l) t) (applied_of w t)) as [->|Hne]; [lia|].
      apply applied_moves_by_successor in Hne. destruct Hne as (i & k & o & P & -> & HP & -> & [(_ & Hlt & _)|[(_ & Hlt)|(_ & _ & ->)]]); [lia|lia|].
      destruct (links_ordered _ _ _ _ Hr HP) as [[->|Hlt] _]; lia.
  Qed.
End CursorInv.
