(* Transactions initialise in index order (towards the chain invariant of C02):
     - what ONE step can do to a transaction record ([tx_step], [rec_tx_puttx]),
     - the invariant [T_inv]: indexes are dense, a transaction is past its Initialize phase only after its predecessor,
       a proposal exists only for a transaction that started initialising after its predecessor finished and that did not
       fail its Initialize phase, an aborting transaction is past Initialize,
     - hence [open_is_last]: of two proposals of one target, the one with the smaller index is INITIALIZED - at most one
       proposal per target is linking itself into the chain, and it is the last one. *)
From stdpp Require Import gmap.
From RecordUpdate Require Import RecordUpdate.
From Coq Require Import NArith Lia.
From OC Require Import Model.Proto2 Proofs.P2Base Proofs.P2Phases Proofs.P2_Order Proofs.P2_Cursor Proofs.P2_CursorInv.
Open Scope N_scope.

Section Link.
  Context {V Ch Req D : Type}.
  Context (candidate : V -> Ch -> V) (candidate_rb : V -> Ch -> V) (rollback_of : V -> Ch -> Ch)
          (overlay : V -> V -> V) (commit_merge : N -> N -> V -> V -> Ch -> V)
          (payload : N -> V -> Ch -> option Req) (record_applied : N -> N -> V -> V -> V -> Ch -> V)
          (touched : N -> V -> Ch -> V) (restore : V -> V -> V)
          (resync_payload : V -> list (option Req)) (doc_ok : V -> bool)
          (dev_apply : D -> Req -> D) (stamp : N -> Ch -> Ch) (v_empty : V) (d_empty : D) (ch_empty : Ch).

  Notation world := (@world V Ch Req D).
  Notation eff := (@eff V Ch Req).
  Notation txn := (@txn Ch).
  Notation prop := (@prop Ch).
  Notation apply_eff := (@apply_eff V Ch Req D dev_apply d_empty).
  Notation rec_tx := (@rec_tx V Ch Req D stamp).
  Notation rec_prop := (@rec_prop V Ch Req D candidate candidate_rb rollback_of overlay commit_merge payload record_applied
                                  touched restore doc_ok v_empty d_empty ch_empty).
  Notation reconcile := (@reconcile V Ch Req D candidate candidate_rb rollback_of overlay commit_merge payload record_applied
                                    touched restore resync_payload doc_ok stamp v_empty d_empty ch_empty).
  Notation step := (@step V Ch Req D candidate candidate_rb rollback_of overlay commit_merge payload record_applied
                          touched restore resync_payload doc_ok dev_apply stamp v_empty d_empty ch_empty).
  Notation reach := (@reach V Ch Req D candidate candidate_rb rollback_of overlay commit_merge payload record_applied
                            touched restore resync_payload doc_ok dev_apply stamp v_empty d_empty ch_empty).
  Notation inst f := (f candidate candidate_rb rollback_of overlay commit_merge payload record_applied touched restore
                        resync_payload doc_ok dev_apply stamp v_empty d_empty ch_empty).



  Definition past_init (T : txn) : Prop := t_init T = Some Done \/ t_init T = Some Failed.

  Lemma tx_prefix (es : list eff) : forall (w : world) (n : nat) i T',
    txs (fold_left apply_eff (firstn n es) w) !! i = Some T' -> txs w !! i = Some T' \/ In (EPutTx i T') es.
  Proof.
    intros w n i T'. revert n w. apply (prefix_rel _ _ es (fun w w' => txs w' !! i = Some T' -> txs w !! i = Some T' \/ _)); [auto|].
    intros w e w' Hin IH H. destruct (IH H) as [H1|?]; [|auto]. rewrite txs_apply_eff in H1.
    destruct e; auto. apply lookup_insert_Some in H1. destruct H1 as [[-> <-]|[_ ?]]; auto.
  Qed.

  Lemma tx_keep_prefix (es : list eff) : forall (w : world) (n : nat) i,
    is_Some (txs w !! i) -> is_Some (txs (fold_left apply_eff (firstn n es) w) !! i).
  Proof.
    intros w n i. revert n w. apply (prefix_rel _ _ es (fun w w' => is_Some (txs w !! i) -> is_Some (txs w' !! i))); [auto|].
    intros w e w' _ IH H. apply IH. rewrite txs_apply_eff. destruct e; auto. apply lookup_insert_is_Some'. auto.
  Qed.

  Lemma next_index_prefix (es : list eff) : forall (w : world) (n : nat),
    next_index (fold_left apply_eff (firstn n es) w) = next_index w.
  Proof.
    intros w n. revert n w. apply (prefix_rel _ _ es (fun w w' => next_index w' = next_index w)); [auto|].
    intros w e w' _ ->. apply next_index_apply_eff.
  Qed.

  Definition tx_upd (w : world) (i : N) (T T' : txn) : Prop :=
    ((t_init T' = t_init T) \/ (t_init T = None /\ t_init T' = Some Doing) \/
     (t_init T = Some Doing /\ past_init T' /\ (forall Pv, txs w !! (i - 1) = Some Pv -> past_init Pv) /\
      (t_init T' = Some Failed ->
       (forall t, props w !! (t, i) = None) /\ (forall k (P : prop), ~ In (ECreateProp k P) (fst (rec_tx w i)))))) /\
    (t_abort T' = t_abort T \/ past_init T' \/ is_Some (t_abort T)).

  Lemma tx_wf_validate (T : txn) : tx_wf T -> is_Some (t_validate T) -> t_init T = Some Done.
  Proof.
    unfold tx_wf, wfb, imp, some, is_ph. intros H [v Hv]. rewrite Hv in H.
    destruct (t_init T) as [[]|]; cbn in H; try discriminate; reflexivity.
  Qed.

  Lemma rec_tx_puttx (w : world) i j T' :
    reach w -> In (EPutTx j T') (fst (rec_tx w i)) ->
    j = i /\ exists T, txs w !! i = Some T /\ tx_upd w i T T'.
  Proof.
    intros Hr H. pose proof (inst P2_Order.K_reach _ Hr) as HK.
    apply rec_tx_eff in H. inversion H as [T T0 HT Hw| |]; subst j T0. split; [reflexivity|]. exists T. split; [exact HT|].
    destruct Hw as [T' Hi Ha|T' Hv Hi| | |ri f Hi Hpv Hd Hri]; unfold tx_upd, past_init; cbn.
    - split; [auto|]. destruct Ha as [Ha|Ha]; [auto|]. right. right. rewrite Ha. eauto.
    - split; [auto|]. right. left. left. rewrite Hi. apply tx_wf_validate; [|rewrite Hv; eauto].
      exact (j_tx _ (P2_Order.k_J _ HK) _ _ HT).
    - auto.
    - split; [|auto]. right. right. split; [auto|]. split; [auto|]. split; [auto|]. discriminate.
    - split; [|auto]. right. right. split; [exact Hi|]. split; [auto|]. split; [exact Hpv|]. intros _. split.
      + (* a proposal of this transaction would be one of a change that the rollback names *)
        intros t. destruct (props w !! (t, i)) as [P|] eqn:HP; [|reflexivity]. exfalso.
        destruct (P2_Order.k_exist _ HK _ _ _ HP) as (T0 & HT0 & Hin). rewrite HT in HT0. injection HT0 as <-.
        unfold tgts_of in Hin. rewrite Hd in Hin. destruct Hri as [Hn|(R & rj & HR & HdR)]; [rewrite Hn in Hin|rewrite HR, HdR in Hin]; destruct Hin.
      + intros k P Hin. apply rec_tx_eff in Hin. inversion Hin as [| |t T0 P0 HT0 _ _ _ _ _ _ _ Hc]; subst.
        rewrite HT in HT0. injection HT0 as <-.
        destruct Hc as [(chs & c & Hd' & _)|(ri' & R & chs & Hd' & HR & HdR & _)]; [congruence|].
        rewrite Hd in Hd'. injection Hd' as <-. destruct Hri as [Hn|(R' & rj & HR' & HdR')]; congruence.
  Qed.

  Lemma puttx_writer (o : oracle) (w : world) c j T' :
    In (EPutTx j T') (fst (reconcile o w c)) -> c = CtlTx j.
  Proof.
    destruct c as [i|kk|t0|t0|c0]; cbn [Proto2.reconcile]; intros H.
    - apply rec_tx_eff in H. inversion H. reflexivity.
    - destruct kk. apply rec_prop_eff in H. inversion H.
    - apply rec_cfg_kinds in H. destruct H.
    - apply rec_master_only_putcfg in H. destruct H.
    - apply rec_conn_only_rel in H. destruct H.
  Qed.

  Lemma tx_step (w : world) l i T' :
    reach w -> txs (step w l) !! i = Some T' ->
    (txs w !! i = None /\ i = next_index w /\ t_init T' = None /\ t_abort T' = None) \/
    exists T, txs w !! i = Some T /\ (T' = T \/ tx_upd w i T T').
  Proof.
    intros Hr. pose proof (j_fresh _ (P2_Order.k_J _ (inst P2_Order.K_reach _ Hr))) as Hfresh.
    destruct (inst step_txs w l) as [(c & n & o & ->)|[(-> & _)|(T & Hi & Ha & -> & _)]]; [|eauto|].
    - intros H. apply tx_prefix in H. destruct H as [H|H]; [eauto|]. right.
      pose proof (puttx_writer _ _ _ _ _ H) as ->. cbn [Proto2.reconcile] in H.
      apply (rec_tx_puttx _ _ _ _ Hr) in H. destruct H as (_ & T & HT & Hu). eauto.
    - intros [[<- <-]|[_ H]]%lookup_insert_Some; [left|eauto]. rewrite Hfresh by lia. auto.
  Qed.

  Lemma tx_step_keep (w : world) l i : is_Some (txs w !! i) -> is_Some (txs (step w l) !! i).
  Proof.
    intros H. destruct (inst step_txs w l) as [(c & n & o & ->)|[(-> & _)|(T & _ & _ & -> & _)]]; [apply tx_keep_prefix|..]; auto.
    apply lookup_insert_is_Some'. auto.
  Qed.

  Lemma next_index_step (w : world) l :
    next_index (step w l) = next_index w \/
    (next_index (step w l) = next_index w + 1 /\ is_Some (txs (step w l) !! next_index w)).
  Proof.
    destruct (inst step_txs w l) as [(c & n & o & ->)|[(_ & ->)|(T & _ & _ & -> & ->)]]; [left; apply next_index_prefix|auto|right].
    rewrite lookup_insert. eauto.
  Qed.

  Lemma past_stable (w : world) i (T T' : txn) : tx_upd w i T T' -> past_init T -> past_init T'.
  Proof.
    intros [[He|[[Hn _]|(Hd & Hp & _)]] _] Hp0; unfold past_init in *.
    - rewrite He. exact Hp0.
    - rewrite Hn in Hp0. destruct Hp0; discriminate.
    - exact Hp.
  Qed.

  Record T_inv (w : world) : Prop := {
    ti_zero : txs w !! 0 = None;
    ti_next : 1 <= next_index w;
    ti_dense : forall j, 1 <= j -> j < next_index w -> is_Some (txs w !! j);
    ti_order : forall i T Pv, txs w !! i = Some T -> past_init T -> txs w !! (i - 1) = Some Pv -> past_init Pv;
    ti_created : forall t i (P : prop), props w !! (t, i) = Some P ->
                 exists T, txs w !! i = Some T /\ t_init T <> None /\ t_init T <> Some Failed /\
                           (forall Pv, txs w !! (i - 1) = Some Pv -> past_init Pv);
    ti_abort : forall i T, txs w !! i = Some T -> is_Some (t_abort T) -> past_init T }.

  Lemma T_inv_init : T_inv (@init V Ch Req D).
  Proof.
    split; cbn; try (intros; rewrite lookup_empty in *; discriminate); try reflexivity; try lia.
    all: intros; try lia; try (rewrite lookup_empty in *; discriminate).
  Qed.

  Lemma T_inv_step (w : world) l : reach w -> T_inv w -> T_inv (step w l).
  Proof.
    intros Hr [Hz Hn Hd Ho Hc Ha].
    pose proof (j_fresh _ (P2_Order.k_J _ (inst P2_Order.K_reach _ Hr))) as Hfresh.
    (* the predecessor of an existing transaction stays past Initialize *)
    assert (Hprev : forall i T, txs w !! i = Some T -> (forall Pv, txs w !! (i - 1) = Some Pv -> past_init Pv) ->
                    forall Pv', txs (step w l) !! (i - 1) = Some Pv' -> past_init Pv').
    { intros i T HT Hg Pv' HPv'. apply (tx_step _ _ _ _ Hr) in HPv'. destruct HPv' as [(Hnone & Hi & _)|(Pv & HPv & Hu')].
      - assert (i = next_index w + 1) by lia. subst i. rewrite Hfresh in HT by lia. discriminate.
      - destruct Hu' as [->|Hu']; [|eapply past_stable; [exact Hu'|]]; apply Hg; exact HPv. }
    split.
    - destruct (txs (step w l) !! 0) as [T'|] eqn:H; [|reflexivity]. exfalso.
      apply (tx_step _ _ _ _ Hr) in H. destruct H as [(_ & Hi & _)|(T & HT & _)]; [lia|congruence].
    - destruct (next_index_step w l) as [->|[-> _]]; lia.
    - intros j H1 H2. destruct (next_index_step w l) as [He|[He Hs]].
      + rewrite He in H2. apply tx_step_keep. apply Hd; assumption.
      + rewrite He in H2. destruct (decide (j = next_index w)) as [->|Hne]; [exact Hs|]. apply tx_step_keep. apply Hd; [assumption|lia].
    - intros i T' Pv' HT' Hp. revert Pv'.
      apply (tx_step _ _ _ _ Hr) in HT'. destruct HT' as [(_ & _ & Hi & _)|(T & HT & Hu)].
      { unfold past_init in Hp. rewrite Hi in Hp. destruct Hp; discriminate. }
      apply (Hprev _ _ HT). destruct Hu as [->|[[He|[[_ Hdo]|(_ & _ & Hg & _)]] _]].
      + intros Pv HPv. eapply Ho; [exact HT|exact Hp|exact HPv].
      + intros Pv HPv. eapply Ho; [exact HT| |exact HPv]. unfold past_init in *. rewrite <- He. exact Hp.
      + unfold past_init in Hp. rewrite Hdo in Hp. destruct Hp; discriminate.
      + exact Hg.
    - intros t i P' HP'.
      assert (Hex : exists T, txs w !! i = Some T /\ t_init T <> None /\ t_init T <> Some Failed /\
                              (forall Pv, txs w !! (i - 1) = Some Pv -> past_init Pv) /\
                              (props w !! (t, i) = None -> In (ECreateProp (t, i) P') (fst (rec_tx w i)))).
      { apply prop_step in HP'. destruct HP' as [H|(ctl & n & o & -> & [H|[H Hnone]])].
        - destruct (Hc _ _ _ H) as (T & HT & H1 & H2 & H3). exists T. repeat split; auto. intros Hx. congruence.
        - apply reconcile_putprop in H. destruct H as (P & HP & _). destruct (Hc _ _ _ HP) as (T & HT & H1 & H2 & H3).
          exists T. repeat split; auto. intros Hx. congruence.
        - pose proof H as Hin. apply reconcile_createprop in H. cbn in H.
          destruct H as (T & -> & HT & _ & _ & _ & _ & Hi & _ & Hg & _). exists T. split; [exact HT|].
          split; [congruence|]. split; [congruence|]. split; [exact Hg|]. intros _. exact Hin. }
      destruct Hex as (T & HT & H1 & H2 & Hg & Hcr).
      destruct (tx_step_keep w l i) as [T' HT']; [eauto|].
      exists T'. split; [exact HT'|]. enough (t_init T' <> None /\ t_init T' <> Some Failed) as []; [eauto|].
      apply (tx_step _ _ _ _ Hr) in HT'. destruct HT' as [(Hnone & _)|(T0 & HT0 & Hu)]; [congruence|].
      rewrite HT in HT0. injection HT0 as <-. destruct Hu as [->|[[He|[[Hn0 _]|(_ & Hp & _ & Hf)]] _]].
      + auto.
      + rewrite He. auto.
      + congruence.
      + split; [destruct Hp as [Hp|Hp]; rewrite Hp; discriminate|].
        intros Hfail. destruct (Hf Hfail) as [Hnp Hnc]. exact (Hnc _ _ (Hcr (Hnp t))).
    - intros i T' HT' Hab. apply (tx_step _ _ _ _ Hr) in HT'. destruct HT' as [(_ & _ & _ & Hi)|(T & HT & [->|Hu])].
      + rewrite Hi in Hab. destruct Hab; discriminate.
      + eapply Ha; eassumption.
      + pose proof Hu as [_ [He|[Hp|Hs]]].
        * eapply past_stable; [exact Hu|]. eapply Ha; [exact HT|]. rewrite <- He. exact Hab.
        * exact Hp.
        * eapply past_stable; [exact Hu|]. eapply Ha; eassumption.
  Qed.

  Theorem T_inv_reach (w : world) : reach w -> T_inv w.
  Proof.
    apply (inst reach_ind T_inv).
    - exact T_inv_init.
    - intros w0 l Hr Hi. apply T_inv_step; assumption.
  Qed.

  Lemma tx_index_pos (w : world) i (T : txn) : T_inv w -> txs w !! i = Some T -> 1 <= i.
  Proof. intros HT Hi. destruct (N.eq_dec i 0) as [->|]; [|lia]. rewrite (ti_zero _ HT) in Hi. discriminate. Qed.

  (* every transaction older than one whose predecessor is past Initialize is itself past Initialize *)
  Lemma older_past (w : world) j : reach w -> is_Some (txs w !! j) ->
    (forall Pv, txs w !! (j - 1) = Some Pv -> past_init Pv) ->
    forall (d : nat) i, 1 <= i -> i + N.of_nat d + 1 = j -> exists T, txs w !! i = Some T /\ past_init T.
  Proof.
    intros Hr Hj Hg.
    pose proof (T_inv_reach _ Hr) as HT.
    pose proof (inst P2_Order.K_reach _ Hr) as HK.
    pose proof (j_fresh _ (P2_Order.k_J _ HK)) as Hfresh.
    assert (Hjn : j < next_index w).
    { destruct (N.lt_ge_cases j (next_index w)) as [H|H]; [exact H|]. rewrite (Hfresh _ H) in Hj. destruct Hj; discriminate. }
    induction d as [|d IH]; intros i Hi Hd.
    - assert (i = j - 1) by lia. subst i. destruct (ti_dense _ HT (j - 1)) as [Pv HPv]; [lia|lia|]. exists Pv. split; [exact HPv|]. apply Hg. exact HPv.
    - destruct (IH (i + 1)) as (T1 & HT1 & Hp1); [lia|lia|].
      destruct (ti_dense _ HT i) as [Pv HPv]; [lia|lia|]. exists Pv. split; [exact HPv|].
      eapply (ti_order _ HT (i + 1)); [exact HT1|exact Hp1|]. replace (i + 1 - 1) with i by lia. exact HPv.
  Qed.

  Lemma past_tx_linked (w : world) t i (P : prop) (T : txn) :
    reach w -> props w !! (t, i) = Some P -> txs w !! i = Some T -> past_init T -> p_init P = Some Done.
  Proof.
    intros Hr HP HTi Hp. pose proof (T_inv_reach _ Hr) as HT. pose proof (inst P2_Order.K_reach _ Hr) as HK.
    destruct (ti_created _ HT _ _ _ HP) as (Ti & HTi' & Hn & Hf & _). rewrite HTi in HTi'. injection HTi' as <-.
    assert (Hd : t_init T = Some Done) by (destruct Hp as [Hp|Hp]; [exact Hp|congruence]).
    pose proof (j_tx _ (P2_Order.k_J _ HK) _ _ HTi) as Hwf.
    destruct (t_props T) as [tg|] eqn:Htg.
    2:{ exfalso. revert Hwf. unfold tx_wf, wfb, imp, some, is_ph. rewrite Hd, Htg. cbn.
        destruct (t_validate T) as [[]|], (t_commit T) as [[]|], (t_apply T) as [[]|], (t_abort T) as [[]|]; cbn; discriminate. }
    destruct (P2_Order.k_exist _ HK _ _ _ HP) as (T0 & HT0 & Hin). rewrite HTi in HT0. injection HT0 as <-.
    destruct (P2_Order.k_tp _ HK _ _ _ HTi Htg) as [-> _].
    destruct (P2_Order.k_agree _ HK _ _ _ _ HTi Htg Hin) as (P0 & HP0 & Hag & _). rewrite HP in HP0. injection HP0 as <-.
    apply Hag. exact Hd.
  Qed.

  Theorem open_is_last (w : world) t i j (P Q : prop) :
    reach w -> props w !! (t, i) = Some P -> props w !! (t, j) = Some Q -> i < j -> p_init P = Some Done.
  Proof.
    intros Hr HP HQ Hlt.
    pose proof (T_inv_reach _ Hr) as HT.
    destruct (ti_created _ HT _ _ _ HQ) as (Tj & HTj & _ & _ & Hg).
    destruct (ti_created _ HT _ _ _ HP) as (Ti & HTi & _).
    pose proof (tx_index_pos _ _ _ HT HTi) as Hi.
    destruct (older_past w j Hr) with (d := N.to_nat (j - i - 1)) (i := i) as (Ti' & HTi' & Hp); [rewrite HTj; eexists; reflexivity|exact Hg|exact Hi|lia|].
    rewrite HTi in HTi'. injection HTi' as <-. eapply past_tx_linked; eassumption.
  Qed.
End Link.
