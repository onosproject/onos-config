(* C11 - a device refusing a change fails that change only, and only real refusals.
   Single-step facts about the apply branch of the proposal reconciler (Model/Proto2.v rec_prop), the
   classification table, the transaction reconciler's report and the frame property of rec_prop
   (an invocation for (t,i) never writes a record of another target).
   The characterisation [rec_prop_send] (what the reconciler does once every guard before the device
   request is passed) is reused by Proofs/P2_Crash.v; the enumeration of the branches of rec_prop is done once, in
   [rec_prop_shape], and read off by the frame property here, by Proofs/P2_Converge.v and by Proofs/P2_Rollback.v. *)
From stdpp Require Import gmap.
From RecordUpdate Require Import RecordUpdate.
From Coq Require Import NArith Lia String.
From OC Require Import Base.Bytes Model.P2Pure Model.Proto2 Model.P2Inst Proofs.P2Base Proofs.P2Phases.
Open Scope N_scope.

Definition transient (c : code) : Prop :=
  c = CUnavailable \/ c = CCanceled \/ c = CDeadlineExceeded \/ c = CPermissionDenied.

(* which codes a refusing device can answer that end in which failure type *)
Definition fail_table (c : code) : option ftype :=
  match c with
  | COk => None                                     (* not an error: the switch is not reached *)
  | CUnavailable | CCanceled | CDeadlineExceeded => None      (* retried *)
  | CPermissionDenied => None                       (* waited out *)
  | CNotFound => Some FNotFound
  | CAlreadyExists => Some FAlreadyExists
  | CUnauthenticated => Some FUnauthorized
  | CFailedPrecondition => Some FConflict
  | CInvalidArgument => Some FInvalid
  | CUnimplemented => Some FNotSupported
  | CInternal => Some FInternal
  | CUnknownC | CResourceExhausted | CAborted | COutOfRange | CDataLoss => Some FUnknown
  end.

Lemma classes_retry (c : code) :
  classify (observed c) = ClsRetry <-> c = CUnavailable \/ c = CCanceled \/ c = CDeadlineExceeded.
Proof.
  split.
  - destruct c; cbn; intros H; try discriminate H; auto.
  - intros [->|[->| ->]]; reflexivity.
Qed.

Lemma classes_wait (c : code) : classify (observed c) = ClsWait <-> c = CPermissionDenied.
Proof.
  split.
  - destruct c; cbn; intros H; try discriminate H; auto.
  - intros ->; reflexivity.
Qed.

Lemma classes_fail (c : code) (f : ftype) :
  c <> COk -> (classify (observed c) = ClsFail f <-> fail_table c = Some f).
Proof.
  intros Hc. destruct c; cbn; try (exfalso; apply Hc; reflexivity);
    split; intros H; try discriminate H; try (injection H as <-; reflexivity).
Qed.

Lemma classes_transient (c : code) :
  (classify (observed c) = ClsRetry \/ classify (observed c) = ClsWait) <-> transient c.
Proof.
  unfold transient. rewrite classes_retry, classes_wait. tauto.
Qed.

Lemma transient_not_ok (c : code) : transient c -> c <> COk.
Proof. intros [->|[->|[->| ->]]]; discriminate. Qed.

(* never FCanceled / FForbidden / FUnavailable / FTimeout: those arms of the inner switch are dead *)
Lemma classes_dead_arms (c : code) (f : ftype) :
  classify (observed c) = ClsFail f -> f <> FCanceled /\ f <> FForbidden /\ f <> FUnavailable /\ f <> FTimeout.
Proof. destruct c; cbn; intros H; try discriminate H; injection H as <-; repeat split; discriminate. Qed.

Section Failure.
  Context {V Ch Req D : Type}.
  Context (candidate : V -> Ch -> V) (candidate_rb : V -> Ch -> V) (rollback_of : V -> Ch -> Ch)
          (overlay : V -> V -> V) (commit_merge : N -> N -> V -> V -> Ch -> V)
          (payload : N -> V -> Ch -> option Req) (record_applied : N -> N -> V -> V -> V -> Ch -> V)
          (touched : N -> V -> Ch -> V) (restore : V -> V -> V)
          (resync_payload : V -> list (option Req)) (doc_ok : V -> bool)
          (dev_apply : D -> Req -> D) (stamp : N -> Ch -> Ch) (v_empty : V) (d_empty : D) (ch_empty : Ch).

  Notation world := (@world V Ch Req D).
  Notation eff := (@eff V Ch Req).
  Notation txn := (@txn Ch).
  Notation prop := (@prop Ch).
  Notation config := (@config V).
  Notation apply_eff := (@apply_eff V Ch Req D dev_apply d_empty).
  Notation rec_tx := (@rec_tx V Ch Req D stamp).
  Notation rec_prop := (@rec_prop V Ch Req D candidate candidate_rb rollback_of overlay commit_merge payload record_applied
                                  touched restore doc_ok v_empty d_empty ch_empty).
  Notation step := (@step V Ch Req D candidate candidate_rb rollback_of overlay commit_merge payload record_applied
                          touched restore resync_payload doc_ok dev_apply stamp v_empty d_empty ch_empty).
  Notation reach := (@reach V Ch Req D candidate candidate_rb rollback_of overlay commit_merge payload record_applied
                            touched restore resync_payload doc_ok dev_apply stamp v_empty d_empty ch_empty).
  Notation view := (@view V overlay).
  Notation aview := (@aview V overlay).
  Notation dev_answer := (@dev_answer V Ch Req D d_empty).
  Notation dev_of := (@dev_of V Ch Req D d_empty).
  Notation rb_change := (@rb_change Ch ch_empty).
  Notation upd_status := (@upd_status V Ch Req overlay restore v_empty).

  Lemma devs_apply_eff (w : world) (e : eff) :
    devs (apply_eff w e) =
    match e with
    | EDev (DevSet t c term o r COk) =>
      <[t := mkDev (dev_apply (d_state (dev_of w t)) r) (N.max (d_max (dev_of w t)) term)]> (devs w)
    | _ => devs w
    end.
  Proof.
    destruct e as [| | | | | | | | | [t c term o r a]]; cbn; try reflexivity;
      repeat match goal with |- context [match ?x with _ => _ end] => destruct x end; reflexivity.
  Qed.

  Definition dev_quiet (e : eff) : Prop := match e with EDev (DevSet _ _ _ _ _ COk) => False | _ => True end.

  Lemma refused_quiet t c term o r a : a <> COk -> dev_quiet (EDev (DevSet t c term o r a)).
  Proof. intros Ha. destruct a; try exact I. contradiction. Qed.

  Lemma dev_quiet_fold (es : list eff) : forall w : world, Forall dev_quiet es -> devs (fold_left apply_eff es w) = devs w.
  Proof.
    induction es as [|e r IH]; intros w Hf; [reflexivity|]. inversion Hf as [|? ? He Hr]; subst. cbn [fold_left].
    rewrite (IH _ Hr), devs_apply_eff. destruct e as [| | | | | | | | |[? ? ? ? ? []]]; try reflexivity. destruct He.
  Qed.

  Lemma refused_leaves_devices (w : world) t c term o r a :
    a <> COk -> devs (apply_eff w (EDev (DevSet t c term o r a))) = devs w.
  Proof. intros Ha. rewrite devs_apply_eff. destruct a; try reflexivity. exfalso; apply Ha; reflexivity. Qed.

  (* every guard of reconcileApply before the SetRequest is sent is passed: the proposal (t,i) is APPLYING,
     not yet covered by the applied index, its predecessor is applied, the configuration is not synchronizing
     and in the current term, this node is the master and holds the connection, and the request can be built *)
  Record sendable (w : world) (t i : N) (P : prop) (C : config) (m : N) (req : Req) : Prop := {
    sd_prop : props w !! (t, i) = Some P;
    sd_applying : p_apply P = Some Doing;
    sd_cfg : cfgs w !! t = Some C;
    sd_not_applied : c_applied C < i;
    sd_prev_applied : p_prev P = 0 \/ c_applied C = p_prev P;
    sd_not_syncing : c_state C <> CSynchronizing;
    sd_target : is_Some (targets w !! t);
    sd_term : c_term C <= c_aterm C;
    sd_master : c_master C = Some m;
    sd_rel : exists tt, rels w !! m = Some (tt, true);
    sd_conn : is_Some (conns w !! m);
    sd_payload : payload i (view C) (rb_change P) = Some req }.

  Definition after_answer (ord : N) (t i : N) (P : prop) (C : config) (m : N) (req : Req) (a : code) : list eff * result :=
    let ch := rb_change P in
    let ev := EDev (DevSet t m (c_term C) (Some i) req a) in
    match a with
    | COk =>
      ([ev; EPutAValues t (record_applied ord i (c_avalues C) (aview C) (view C) ch);
        EPutCfg t (C <| c_applied := i |> <| c_inline := touched i (view C) ch |> <| c_ainline := v_empty |>);
        EPutProp (t, i) (P <| p_apply := Some Done |> <| p_term := c_term C |>)], requeue_next t P)
    | _ =>
      match classify (observed a) with
      | ClsRetry => ([ev], RRetry)
      | ClsWait => ([ev], RDone)
      | ClsFail f =>
        ([ev; EPutProp (t, i) (P <| p_apply := Some Failed |> <| p_afail := Some f |> <| p_term := c_term C |>);
          EPutAValues t (restore (c_avalues C) (aview C));
          EPutCfg t (C <| c_applied := i |> <| c_inline := touched i (view C) ch |> <| c_ainline := v_empty |>)],
         requeue_next t P)
      end
    end.

  Lemma rec_prop_send (o : oracle) (w : world) t i P C m req :
    sendable w t i P C m req ->
    rec_prop o w (t, i) = after_answer (o_order o) t i P C m req (dev_answer w t (c_term C) o).
  Proof.
    intros [HP Ha HC Hna Hprev Hsync Htg Hterm Hm [tt Hrel] Hconn Hpay].
    unfold Proto2.rec_prop. rewrite HP, Ha. cbv beta iota. rewrite HC, (proj2 (N.leb_gt _ _) Hna).
    replace (negb (p_prev P =? 0) && negb (c_applied C =? p_prev P)) with false.
    2:{ symmetry. destruct Hprev as [H0|H0]; [rewrite H0; reflexivity|].
        rewrite H0, N.eqb_refl. cbn. apply andb_false_r. }
    rewrite bool_decide_eq_false_2 by exact Hsync.
    destruct Htg as [pers Htg]. rewrite Htg. cbn [is_none].
    rewrite (proj2 (N.ltb_ge _ _) Hterm), Hm, Hrel. destruct Hconn as [cc Hconn]. rewrite Hconn, Hpay.
    reflexivity.
  Qed.

  Inductive prop_shape (o : oracle) (w : world) (t i : N) : list eff -> Prop :=
  | ps_nil : prop_shape o w t i []
  | ps_prop j P' : prop_shape o w t i [EPutProp (t, j) P']
  | ps_create c : prop_shape o w t i [ECreateCfg t c]
  | ps_status C C' tl : cfgs w !! t = Some C -> tl = [] \/ (exists P', tl = [EPutProp (t, i) P']) ->
      prop_shape o w t i (upd_status t C C' ++ tl)
  | ps_commit P C c : props w !! (t, i) = Some P -> p_apply P = None -> p_abort P = None -> p_commit P = Some Doing ->
      cfgs w !! t = Some C -> c_committed C = p_prev P -> c_ainline c = aview C ->
      prop_shape o w t i [EPutValues t (commit_merge (o_order o) i (c_values C) (view C) (rb_change P)); EPutCfg t c;
                          EPutProp (t, i) (P <| p_commit := Some Done |>)]
  | ps_dev m term req a : a <> COk -> prop_shape o w t i [EDev (DevSet t m term (Some i) req a)]
  | ps_applied P C m req c P' : props w !! (t, i) = Some P -> cfgs w !! t = Some C -> dev_answer w t (c_term C) o = COk ->
      c_ainline c = v_empty ->
      prop_shape o w t i [EDev (DevSet t m (c_term C) (Some i) req COk);
                          EPutAValues t (record_applied (o_order o) i (c_avalues C) (aview C) (view C) (rb_change P));
                          EPutCfg t c; EPutProp (t, i) P']
  | ps_refused C m req a c P' : cfgs w !! t = Some C -> a <> COk -> c_ainline c = v_empty ->
      prop_shape o w t i [EDev (DevSet t m (c_term C) (Some i) req a); EPutProp (t, i) P';
                          EPutAValues t (restore (c_avalues C) (aview C)); EPutCfg t c].

  Lemma after_answer_shape (o : oracle) (w : world) t i P C m req :
    props w !! (t, i) = Some P -> cfgs w !! t = Some C ->
    prop_shape o w t i (fst (after_answer (o_order o) t i P C m req (dev_answer w t (c_term C) o))).
  Proof.
    intros HP HC. unfold after_answer.
    destruct (dev_answer w t (c_term C) o) eqn:E; cbn [fst classify observed];
      first [ eapply ps_applied; [exact HP|exact HC|exact E|reflexivity]
            | apply ps_dev; discriminate
            | eapply ps_refused; [exact HC|discriminate|reflexivity] ].
  Qed.

  (* one step of the enumeration of the branches: the innermost scrutinee first *)
  Ltac step_match :=
    match goal with |- context [match ?x with _ => _ end] =>
      lazymatch x with context [match _ with _ => _ end] => fail | _ => destruct x eqn:? end end.

  Lemma rec_prop_shape (o : oracle) (w : world) t i : prop_shape o w t i (fst (rec_prop o w (t, i))).
  Proof.
    unfold Proto2.rec_prop, Proto2.vfail. cbv zeta.
    repeat first
      [ solve [ apply ps_nil | apply ps_prop | apply ps_create
              | eapply (ps_status _ _ _ _ _ _ []); [eassumption|left; reflexivity]
              | eapply (ps_status _ _ _ _ _ _ [_]); [eassumption|right; eexists; reflexivity]
              | eapply ps_commit; [eassumption..|apply N.eqb_eq; eassumption|reflexivity]
              | apply after_answer_shape; assumption ]
      | step_match ].
  Qed.

  (* sendability depends on the stores only, and a device event touches none *)
  Lemma sendable_after_dev (w : world) ev t i P C m req :
    sendable w t i P C m req -> sendable (apply_eff w (EDev ev)) t i P C m req.
  Proof.
    intros [H1 H2 H3 H4 H5 H6 H7 H8 H9 H10 H11 H12].
    split; rewrite ?props_apply_eff, ?cfgs_apply_eff, ?targets_apply_eff, ?rels_apply_eff, ?conns_apply_eff; assumption.
  Qed.

  (** * Transient answers: nothing is stored, the change stays pending, a later OK applies it *)
  Lemma transient_effects (o : oracle) (w : world) t i P C m req :
    sendable w t i P C m req ->
    transient (dev_answer w t (c_term C) o) ->
    rec_prop o w (t, i) =
      ([EDev (DevSet t m (c_term C) (Some i) req (dev_answer w t (c_term C) o))],
       if bool_decide (dev_answer w t (c_term C) o = CPermissionDenied) then RDone else RRetry).
  Proof.
    intros Hs Ht. rewrite (rec_prop_send o w t i P C m req Hs). unfold after_answer.
    destruct Ht as [->|[->|[->| ->]]]; reflexivity.
  Qed.

  (* the world after any prefix of a transient invocation: only the device log may have grown *)
  Lemma transient_world (o : oracle) (w : world) t i P C m req (k : nat) :
    sendable w t i P C m req ->
    transient (dev_answer w t (c_term C) o) ->
    let w' := step w (LRec (CtlProp (t, i)) k o) in
    txs w' = txs w /\ props w' = props w /\ cfgs w' = cfgs w /\ devs w' = devs w /\
    targets w' = targets w /\ rels w' = rels w /\ conns w' = conns w /\
    sendable w' t i P C m req.
  Proof.
    intros Hs Ht. cbn [Proto2.step Proto2.reconcile]. rewrite (transient_effects o w t i P C m req Hs Ht). cbn [fst].
    destruct k as [|k]; [cbn; repeat (split; [reflexivity|]); exact Hs|]. cbn [firstn]. rewrite firstn_nil. cbn [fold_left].
    rewrite txs_apply_eff, props_apply_eff, cfgs_apply_eff, targets_apply_eff, rels_apply_eff, conns_apply_eff,
      refused_leaves_devices by apply transient_not_ok, Ht.
    repeat (split; [reflexivity|]).
    apply sendable_after_dev, Hs.
  Qed.

  Lemma ok_effects (o : oracle) (w : world) t i P C m req :
    sendable w t i P C m req ->
    dev_answer w t (c_term C) o = COk ->
    rec_prop o w (t, i) =
      ([EDev (DevSet t m (c_term C) (Some i) req COk);
        EPutAValues t (record_applied (o_order o) i (c_avalues C) (aview C) (view C) (rb_change P));
        EPutCfg t (C <| c_applied := i |> <| c_inline := touched i (view C) (rb_change P) |> <| c_ainline := v_empty |>);
        EPutProp (t, i) (P <| p_apply := Some Done |> <| p_term := c_term C |>)], requeue_next t P).
  Proof.
    intros Hs Ha. rewrite (rec_prop_send o w t i P C m req Hs), Ha. reflexivity.
  Qed.

  Lemma ok_world (o : oracle) (w : world) t i P C m req (k : nat) :
    sendable w t i P C m req ->
    dev_answer w t (c_term C) o = COk ->
    (4 <= k)%nat ->
    let w' := step w (LRec (CtlProp (t, i)) k o) in
    (exists P', props w' !! (t, i) = Some P' /\ p_apply P' = Some Done /\ p_afail P' = p_afail P) /\
    (exists C', cfgs w' !! t = Some C' /\ c_applied C' = i) /\
    devs w' !! t = Some (mkDev (dev_apply (d_state (dev_of w t)) req) (N.max (d_max (dev_of w t)) (c_term C))).
  Proof.
    intros Hs Ha Hk. cbn [Proto2.step Proto2.reconcile]. rewrite (ok_effects o w t i P C m req Hs Ha). cbn [fst].
    rewrite firstn_all2 by (cbn; lia). cbn [fold_left].
    rewrite !props_apply_eff, !cfgs_apply_eff, !devs_apply_eff, (sd_cfg _ _ _ _ _ _ _ Hs), !lookup_insert. cbn. rewrite ?lookup_insert.
    split; [eexists; repeat split|]. split; [eexists; split; reflexivity|reflexivity].
  Qed.

  Lemma refusal_effects (o : oracle) (w : world) t i P C m req f :
    sendable w t i P C m req ->
    dev_answer w t (c_term C) o <> COk ->
    classify (observed (dev_answer w t (c_term C) o)) = ClsFail f ->
    rec_prop o w (t, i) =
      ([EDev (DevSet t m (c_term C) (Some i) req (dev_answer w t (c_term C) o));
        EPutProp (t, i) (P <| p_apply := Some Failed |> <| p_afail := Some f |> <| p_term := c_term C |>);
        EPutAValues t (restore (c_avalues C) (aview C));
        EPutCfg t (C <| c_applied := i |> <| c_inline := touched i (view C) (rb_change P) |> <| c_ainline := v_empty |>)],
       requeue_next t P).
  Proof.
    intros Hs Hne Hc. rewrite (rec_prop_send o w t i P C m req Hs). unfold after_answer. rewrite Hc.
    destruct (dev_answer w t (c_term C) o); try reflexivity. exfalso; apply Hne; reflexivity.
  Qed.

  Lemma refusal_world (o : oracle) (w : world) t i P C m req f (k : nat) :
    sendable w t i P C m req ->
    dev_answer w t (c_term C) o <> COk ->
    classify (observed (dev_answer w t (c_term C) o)) = ClsFail f ->
    (4 <= k)%nat ->
    let w' := step w (LRec (CtlProp (t, i)) k o) in
    (exists P', props w' !! (t, i) = Some P' /\ p_apply P' = Some Failed /\ p_afail P' = Some f /\ p_term P' = c_term C) /\
    (exists C', cfgs w' !! t = Some C' /\ c_applied C' = i /\ c_committed C' = c_committed C /\ c_index C' = c_index C /\
                c_values C' = c_values C) /\
    devs w' = devs w /\ txs w' = txs w.
  Proof.
    intros Hs Hne Hc Hk. cbn [Proto2.step Proto2.reconcile]. rewrite (refusal_effects o w t i P C m req f Hs Hne Hc). cbn [fst].
    rewrite firstn_all2 by (cbn; lia). split; [|split; [|split]].
    - cbn [fold_left]. rewrite !props_apply_eff, lookup_insert. eexists. repeat split.
    - cbn [fold_left]. rewrite !cfgs_apply_eff, (sd_cfg _ _ _ _ _ _ _ Hs), lookup_insert. cbn. rewrite lookup_insert. eexists. repeat split.
    - apply dev_quiet_fold. repeat constructor. apply refused_quiet, Hne.
    - cbn [fold_left]. rewrite !txs_apply_eff. reflexivity.
  Qed.

  Lemma scan_props_found (w : world) i tg (f : prop -> bool) :
    (forall t, In t tg -> is_Some (props w !! (t, i))) ->
    (exists t p, In t tg /\ props w !! (t, i) = Some p /\ f p = true) ->
    exists t p, In t tg /\ props w !! (t, i) = Some p /\ f p = true /\ scan_props w i tg f = Some (inr (t, p)).
  Proof.
    induction tg as [|t0 ts IH]; intros Hall (t & p & Hin & Hp & Hf); [destruct Hin|].
    cbn [scan_props]. destruct (Hall t0 (or_introl eq_refl)) as [p0 Hp0]. rewrite Hp0.
    destruct (f p0) eqn:Hf0.
    - exists t0, p0. repeat split; auto. left; reflexivity.
    - destruct Hin as [<-|Hin]; [rewrite Hp0 in Hp; injection Hp as <-; rewrite Hf in Hf0; discriminate|].
      destruct IH as (t1 & p1 & Hin1 & Hp1 & Hf1 & Hs1).
      + intros t' Ht'. apply Hall. right; exact Ht'.
      + exists t, p. auto.
      + exists t1, p1. repeat split; auto. right; exact Hin1.
  Qed.

  Lemma scan_props_none (w : world) i tg (f : prop -> bool) :
    (forall t, In t tg -> exists p, props w !! (t, i) = Some p /\ f p = false) -> scan_props w i tg f = None.
  Proof.
    induction tg as [|t0 ts IH]; intros Hall; [reflexivity|]. cbn [scan_props].
    destruct (Hall t0 (or_introl eq_refl)) as (p0 & Hp0 & Hf0). rewrite Hp0, Hf0. apply IH.
    intros t' Ht'. apply Hall. right; exact Ht'.
  Qed.

  (* every proposal has entered the phase and one of them FAILED: the scan of a phase that stops on failures reports
     a failed proposal *)
  Lemma phase_scan_failed (w : world) i (T : txn) tg (get : prop -> option ph) start on_failed on_all_done :
    (forall t, In t tg -> exists p, props w !! (t, i) = Some p /\ is_Some (get p)) ->
    (exists t p, In t tg /\ props w !! (t, i) = Some p /\ get p = Some Failed) ->
    exists t p, In t tg /\ props w !! (t, i) = Some p /\ get p = Some Failed /\
      phase_scan w i T tg get start true on_failed on_all_done = ([EPutTx i (on_failed p)], RDone).
  Proof.
    intros Hall (t & p & Hin & Hpp & Hf). unfold phase_scan.
    match goal with |- context [scan_props w i tg ?f] =>
      destruct (scan_props_found w i tg f) as (t1 & p1 & Hin1 & Hp1 & Hf1 & Hs1) end.
    - intros t' Ht'. destruct (Hall t' Ht') as (p' & Hp' & _). eexists; exact Hp'.
    - exists t, p. repeat split; auto. rewrite Hf. cbn. rewrite bool_decide_eq_true_2 by reflexivity. reflexivity.
    - rewrite Hs1. destruct (Hall t1 Hin1) as (p1' & Hp1' & [a Hs]). rewrite Hp1 in Hp1'. injection Hp1' as <-.
      rewrite Hs in Hf1 |- *. cbn in Hf1 |- *. apply bool_decide_eq_true_1 in Hf1.
      exists t1, p1. repeat split; auto. rewrite Hs. exact Hf1.
  Qed.

  (* the transaction is APPLYING, every proposal has entered its Apply phase and one of them FAILED:
     the transaction is written FAILED with the failure of one of the failed proposals *)
  Lemma tx_reports_failure (w : world) i (T : txn) tg :
    txs w !! i = Some T -> t_apply T = Some Doing -> t_props T = Some tg ->
    (forall t, In t tg -> exists p, props w !! (t, i) = Some p /\ is_Some (p_apply p)) ->
    (exists t p, In t tg /\ props w !! (t, i) = Some p /\ p_apply p = Some Failed) ->
    exists t p, In t tg /\ props w !! (t, i) = Some p /\ p_apply p = Some Failed /\
      rec_tx w i = ([EPutTx i (T <| t_state := TFailed |> <| t_failure := p_afail p |> <| t_apply := Some Failed |>)], RDone).
  Proof.
    intros HT Ha Hp Hall Hex.
    unfold Proto2.rec_tx. rewrite HT. cbv zeta. rewrite Ha, Hp. cbn [default]. unfold id.
    rewrite (scan_props_none w i tg (fun p => is_none (p_apply p))).
    2:{ intros t' Ht'. destruct (Hall t' Ht') as (p' & Hp' & [a' Hs']). exists p'. split; [exact Hp'|]. rewrite Hs'. reflexivity. }
    apply phase_scan_failed; assumption.
  Qed.

  (* single target: the class recorded by the proposal is the class reported by the transaction *)
  Lemma tx_reports_failure_single (w : world) i (T : txn) t (P : prop) f :
    txs w !! i = Some T -> t_apply T = Some Doing -> t_props T = Some [t] ->
    props w !! (t, i) = Some P -> p_apply P = Some Failed -> p_afail P = Some f ->
    rec_tx w i = ([EPutTx i (T <| t_state := TFailed |> <| t_failure := Some f |> <| t_apply := Some Failed |>)], RDone).
  Proof.
    intros HT Ha Hp HP Hf Haf.
    destruct (tx_reports_failure w i T [t] HT Ha Hp) as (t1 & p1 & Hin & Hp1 & _ & Hr).
    - intros t' [<-|[]]. exists P. split; [exact HP|]. rewrite Hf. eexists; reflexivity.
    - exists t, P. repeat split; auto. left; reflexivity.
    - destruct Hin as [<-|[]]. rewrite HP in Hp1. injection Hp1 as <-. rewrite Hr, Haf. reflexivity.
  Qed.

  (* the applied index equals the successor's PrevIndex: whatever else holds, the successor's invocation does not
     take the "wait for the predecessor" exit (no effect, requeue of the predecessor) *)
  Lemma successor_gate_open (o : oracle) (w : world) t j (Q : prop) (C : config) :
    props w !! (t, j) = Some Q -> p_apply Q = Some Doing -> cfgs w !! t = Some C ->
    c_applied C = p_prev Q ->
    rec_prop o w (t, j) <> ([], RRequeueProp (t, p_prev Q)).
  Proof.
    intros HQ Ha HC Hc. unfold Proto2.rec_prop. rewrite HQ, Ha, HC, Hc, N.eqb_refl.
    replace (negb (p_prev Q =? 0) && negb true) with false by (symmetry; apply andb_false_r).
    cbv zeta. repeat first [discriminate | step_match].
  Qed.

  (* after a refused apply of (t,i) the successor (PrevIndex = i) that is APPLYING is sendable as soon as its own
     request can be built: the refused change does not hold it back *)
  Lemma successor_sendable (o : oracle) (w : world) t i P C m req f (k : nat) j (Q : prop) req' :
    sendable w t i P C m req ->
    dev_answer w t (c_term C) o <> COk ->
    classify (observed (dev_answer w t (c_term C) o)) = ClsFail f ->
    (4 <= k)%nat ->
    let w' := step w (LRec (CtlProp (t, i)) k o) in
    let C' := C <| c_applied := i |> <| c_inline := touched i (view C) (rb_change P) |> <| c_ainline := v_empty |>
                <| c_avalues := restore (c_avalues C) (aview C) |> in
    props w' !! (t, j) = Some Q -> p_apply Q = Some Doing -> p_prev Q = i -> i < j ->
    payload j (view C') (rb_change Q) = Some req' ->
    sendable w' t j Q C' m req'.
  Proof.
    intros Hs Hne Hc Hk w' C' HQ Ha Hprev Hij Hpay.
    subst w'. cbn [Proto2.step Proto2.reconcile] in *. rewrite (refusal_effects o w t i P C m req f Hs Hne Hc) in *. cbn [fst] in *.
    rewrite firstn_all2 in * by (cbn; lia). cbn [fold_left] in *.
    destruct Hs as [H1 H2 H3 H4 H5 H6 H7 H8 H9 H10 H11 H12].
    split; rewrite ?targets_apply_eff, ?rels_apply_eff, ?conns_apply_eff; try assumption.
    - rewrite !cfgs_apply_eff, H3, lookup_insert. cbn. apply lookup_insert.
    - right. symmetry. exact Hprev.
  Qed.

  Definition on_target (t : N) (e : eff) : Prop :=
    match e with
    | EPutProp k _ => k.1 = t
    | ECreateCfg t' _ | EPutCfg t' _ | EPutValues t' _ | EPutAValues t' _ => t' = t
    | EDev (DevSet t' _ _ _ _ _) => t' = t
    | EPutTx _ _ | ECreateProp _ _ | ERelCreate _ _ | ERelDelete _ => False
    end.

  Lemma rec_prop_on_target (o : oracle) (w : world) t i : Forall (on_target t) (fst (rec_prop o w (t, i))).
  Proof.
    destruct (rec_prop_shape o w t i) as [| | |? ? ? ? [->|[? ->]]| | | |]; repeat constructor.
  Qed.

  Definition same_elsewhere (t : N) (w w' : world) : Prop :=
    txs w' = txs w /\ targets w' = targets w /\ rels w' = rels w /\ conns w' = conns w /\
    next_index w' = next_index w /\
    (forall t' j, t' <> t -> props w' !! (t', j) = props w !! (t', j)) /\
    (forall t', t' <> t -> cfgs w' !! t' = cfgs w !! t') /\
    (forall t', t' <> t -> devs w' !! t' = devs w !! t').

  Lemma same_elsewhere_refl t (w : world) : same_elsewhere t w w.
  Proof. repeat split. Qed.

  Lemma same_elsewhere_trans t (w1 w2 w3 : world) :
    same_elsewhere t w1 w2 -> same_elsewhere t w2 w3 -> same_elsewhere t w1 w3.
  Proof.
    intros (A1 & A2 & A3 & A4 & A5 & A6 & A7 & A8) (B1 & B2 & B3 & B4 & B5 & B6 & B7 & B8).
    repeat split; try congruence.
    - intros t' j Hn. rewrite B6, A6 by exact Hn. reflexivity.
    - intros t' Hn. rewrite B7, A7 by exact Hn. reflexivity.
    - intros t' Hn. rewrite B8, A8 by exact Hn. reflexivity.
  Qed.

  Lemma on_target_eff t (w : world) e : on_target t e -> same_elsewhere t w (apply_eff w e).
  Proof.
    intros He. unfold same_elsewhere.
    rewrite txs_apply_eff, targets_apply_eff, rels_apply_eff, conns_apply_eff, next_index_apply_eff,
      props_apply_eff, cfgs_apply_eff, devs_apply_eff.
    destruct e as [| |[t1 j1] p| t1 c| t1 c| t1 v| t1 v| | | [t1 c term o r a]]; cbn in He; try (exfalso; exact He); subst t;
      repeat split; try reflexivity.
    2-5: intros t' Hn; destruct (cfgs w !! t1); try reflexivity; (rewrite lookup_insert_ne; [reflexivity|]); intros ->; apply Hn; reflexivity.
    - intros t' j Hn. rewrite lookup_insert_ne; [reflexivity|]. intros [= -> _]. apply Hn; reflexivity.
    - intros t' Hn. destruct a; try reflexivity. rewrite lookup_insert_ne; [reflexivity|]. intros ->; apply Hn; reflexivity.
  Qed.

  (* every prefix of an invocation of the proposal reconciler for (t,i) leaves all other targets' proposals,
     configurations and devices, and every transaction, exactly as they were *)
  Lemma rec_prop_frame (o : oracle) (w : world) t i (k : nat) :
    same_elsewhere t w (step w (LRec (CtlProp (t, i)) k o)).
  Proof.
    cbn [Proto2.step Proto2.reconcile]. apply (prefix_rel dev_apply d_empty _ (same_elsewhere t)); [apply same_elsewhere_refl|].
    intros w0 e w' Hin H. eapply same_elsewhere_trans; [apply on_target_eff|exact H].
    exact (proj1 (List.Forall_forall _ _) (rec_prop_on_target o w t i) e Hin).
  Qed.
End Failure.

(** * The hypotheses of the lemmas above are satisfiable: a reachable world of the executable instance Model/P2Inst.v *)
Definition x_oracle (a : code) : oracle := mkOracle true true a 0 0.
(* one round: connection, mastership, configuration controllers of target t, then the proposal and the transaction
   controllers of the listed indexes, every invocation run to its end *)
Definition x_round (o : oracle) (t : N) (is : list N) : list Label :=
  [LRec (CtlConn 10) 9 o; LRec (CtlMaster t) 9 o; LRec (CtlCfg t) 9 o]
  ++ map (fun i => LRec (CtlProp (t, i)) 9 o) is ++ map (fun i => LRec (CtlTx i) 9 o) is.
Fixpoint x_rounds (n : nat) (o : oracle) (t : N) (is : list N) : list Label :=
  match n with O => [] | S n => x_round o t is ++ x_rounds n o t is end.
Definition x_ch (p v : string) : cmap := [(B p, mkPV (B p) (B v) false 0)].
Definition x_run (ls : list Label) : Wd := fold_left p2_step ls p2_init.
Definition x_sendable := @sendable cmap cmap req dstate overlay payload nil.

Lemma x_run_reach ls :
  reach candidate candidate_rb rollback_of overlay commit_merge payload record_applied touched restore resync_payload doc_ok
        dev_apply stamp nil nil nil (x_run ls).
Proof. exists ls. reflexivity. Qed.

(* two changes on target 1 while the device is unreachable: change 1 stays APPLYING and sendable (17 requests were
   answered Unavailable), change 2 is APPLYING behind it *)
Definition x_labels : list Label :=
  [LTarget 1 false; LConnUp 10 1; LChange [(1, x_ch "/a" "1")] true false; LChange [(1, x_ch "/b" "2")] true false]
  ++ x_rounds 30 (x_oracle CUnavailable) 1 [1; 2].
Definition x_w : Wd := x_run x_labels.
(* the refusing invocation, run to its end *)
Definition x_w_refused : Wd := p2_step x_w (LRec (CtlProp (1, 1)) 4 (x_oracle CInvalidArgument)).

Ltac x_sendable_tac :=
  split; vm_compute; first [reflexivity | discriminate | eexists; reflexivity | left; reflexivity | right; reflexivity].

Example x_sendable_world : exists P C r, x_sendable x_w 1 1 P C 10 r /\ List.length (devlog x_w) = 17%nat.
Proof. eexists _, _, _. split; [x_sendable_tac|vm_compute; reflexivity]. Qed.

Example x_transient_hyps : exists P C r,
  x_sendable x_w 1 1 P C 10 r /\ transient (dev_answer (nil : dstate) x_w 1 (c_term C) (x_oracle CDeadlineExceeded)).
Proof. eexists _, _, _. split; [x_sendable_tac|]. right; right; left. vm_compute. reflexivity. Qed.

Example x_ok_hyps : exists P C r,
  x_sendable x_w 1 1 P C 10 r /\ dev_answer (nil : dstate) x_w 1 (c_term C) (x_oracle COk) = COk.
Proof. eexists _, _, _. split; [x_sendable_tac|]. vm_compute. reflexivity. Qed.

Example x_refusal_hyps : exists P C r,
  x_sendable x_w 1 1 P C 10 r /\
  dev_answer (nil : dstate) x_w 1 (c_term C) (x_oracle CInvalidArgument) <> COk /\
  classify (observed (dev_answer (nil : dstate) x_w 1 (c_term C) (x_oracle CInvalidArgument))) = ClsFail FInvalid.
Proof. eexists _, _, _. split; [x_sendable_tac|]. split; vm_compute; [discriminate|reflexivity]. Qed.

Example x_tx_reports_hyps : exists T P',
  txs x_w_refused !! 1 = Some T /\ t_apply T = Some Doing /\ t_props T = Some [1] /\
  props x_w_refused !! (1, 1) = Some P' /\ p_apply P' = Some Failed /\ p_afail P' = Some FInvalid.
Proof. eexists _, _. repeat (split; [vm_compute; reflexivity|]). vm_compute; reflexivity. Qed.

Example x_successor_hyps : exists Q C',
  props x_w_refused !! (1, 2) = Some Q /\ p_apply Q = Some Doing /\ cfgs x_w_refused !! 1 = Some C' /\
  c_applied C' = p_prev Q /\ p_prev Q = 1 /\ 1 < 2 /\
  is_Some (payload 2 (view overlay C') (rb_change nil Q)).
Proof. eexists _, _. repeat (split; [vm_compute; reflexivity|]). vm_compute. eexists; reflexivity. Qed.

Example x_successor_sendable : exists Q C' r', x_sendable x_w_refused 1 2 Q C' 10 r'.
Proof. eexists _, _, _. x_sendable_tac. Qed.
