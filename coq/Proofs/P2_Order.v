(* Order and agreement invariants of the v2 protocol model (all schedules, all crash prefixes):
     - the phases of a proposal are ordered (Commit needs Validate done, Apply needs Commit done, Abort excludes
       Commit and Apply), a phase that is done on a transaction is done on every proposal it lists, every listed
       proposal exists, every existing proposal is listed, a failed validation is recorded on the transaction
       together with the Abort phase;
     - monotonicity of every step: the proposal list of a transaction, once set, never changes, the details of a
       proposal never change, the targets of a transaction never change, phases only move forward;
     - what one invocation of the proposal reconciler can write ([pcase] / [pwrite], by one pass over its branches
       in [rec_prop_pcase]);
   and the theorems of C01 / C05 that follow.  Pattern of Proofs/P2Phases.v: invariant record, per-effect lemmas,
   [chain] over every prefix of an invocation's effects. *)
From stdpp Require Import gmap.
From RecordUpdate Require Import RecordUpdate.
From Coq Require Import NArith Lia.
From OC Require Import Model.Proto2 Proofs.P2Base Proofs.P2_Cursor Proofs.P2Phases.
Open Scope N_scope.

Section Order.
  Context {V Ch Req D : Type}.
  Context (candidate : V -> Ch -> V) (candidate_rb : V -> Ch -> V) (rollback_of : V -> Ch -> Ch)
          (overlay : V -> V -> V) (commit_merge : N -> N -> V -> V -> Ch -> V)
          (payload : N -> V -> Ch -> option Req) (record_applied : N -> N -> V -> V -> V -> Ch -> V)
          (touched : N -> V -> Ch -> V) (restore : V -> V -> V)
          (resync_payload : V -> list (option Req)) (doc_ok : V -> bool)
          (dev_apply : D -> Req -> D) (stamp : N -> Ch -> Ch) (v_empty : V) (d_empty : D) (ch_empty : Ch).

  Notation world := (@world V Ch Req D).
  Notation eff := (@eff V Ch Req).
  Notation txn := (@txn Ch).
  Notation prop := (@prop Ch).
  Notation config := (@config V).
  Notation apply_eff := (@apply_eff V Ch Req D dev_apply d_empty).
  Notation rec_tx := (@rec_tx V Ch Req D stamp).
  Notation rec_prop := (@rec_prop V Ch Req D candidate candidate_rb rollback_of overlay commit_merge payload record_applied
                                  touched restore doc_ok v_empty d_empty ch_empty).
  Notation rec_cfg := (@rec_cfg V Ch Req D overlay restore resync_payload v_empty d_empty).
  Notation rec_master := (@rec_master V Ch Req D overlay restore v_empty).
  Notation rec_conn := (@rec_conn V Ch Req D).
  Notation reconcile := (@reconcile V Ch Req D candidate candidate_rb rollback_of overlay commit_merge payload record_applied
                                    touched restore resync_payload doc_ok stamp v_empty d_empty ch_empty).
  Notation step := (@step V Ch Req D candidate candidate_rb rollback_of overlay commit_merge payload record_applied
                          touched restore resync_payload doc_ok dev_apply stamp v_empty d_empty ch_empty).
  Notation reach := (@reach V Ch Req D candidate candidate_rb rollback_of overlay commit_merge payload record_applied
                            touched restore resync_payload doc_ok dev_apply stamp v_empty d_empty ch_empty).
  Notation chain := (@chain V Ch Req D dev_apply d_empty).
  Notation view := (@view V overlay).
  Notation aview := (@aview V overlay).

  Definition ph_le (a b : option ph) : bool :=
    match a, b with
    | None, _ => true
    | Some Doing, Some _ => true
    | Some Done, Some Done => true
    | Some Failed, Some Failed => true
    | _, _ => false
    end.

  Lemma ph_le_refl a : ph_le a a = true.
  Proof. destruct a as [[]|]; reflexivity. Qed.
  Lemma ph_le_trans a b c : ph_le a b = true -> ph_le b c = true -> ph_le a c = true.
  Proof. destruct a as [[]|], b as [[]|], c as [[]|]; cbn; intros; congruence. Qed.
  Lemma ph_le_done b : ph_le (Some Done) b = true -> b = Some Done.
  Proof. destruct b as [[]|]; cbn; intros; congruence. Qed.
  Lemma ph_le_failed b : ph_le (Some Failed) b = true -> b = Some Failed.
  Proof. destruct b as [[]|]; cbn; intros; congruence. Qed.
  Lemma ph_le_none a : ph_le a None = true -> a = None.
  Proof. destruct a as [[]|]; cbn; intros; congruence. Qed.

  Definition p_le (P P' : prop) : Prop :=
    p_details P' = p_details P /\
    ph_le (p_init P) (p_init P') = true /\ ph_le (p_validate P) (p_validate P') = true /\
    ph_le (p_commit P) (p_commit P') = true /\ ph_le (p_apply P) (p_apply P') = true /\
    ph_le (p_abort P) (p_abort P') = true /\
    (p_validate P = Some Failed -> p_vfail P' = p_vfail P).

  Lemma p_le_refl P : p_le P P.
  Proof. unfold p_le. rewrite !ph_le_refl. auto 10. Qed.
  Lemma p_le_trans P Q R : p_le P Q -> p_le Q R -> p_le P R.
  Proof.
    intros (A0 & A1 & A2 & A3 & A4 & A5 & A6) (B0 & B1 & B2 & B3 & B4 & B5 & B6).
    repeat split; try (eapply ph_le_trans; eassumption); [congruence|].
    intros Hf. rewrite B6, A6; auto. rewrite Hf in A2. apply ph_le_failed in A2. exact A2.
  Qed.

  Definition tdet_same (a b : @tdetails Ch) : Prop :=
    match a, b with
    | TChange x, TChange y => map fst x = map fst y
    | TRollback x, TRollback y => x = y
    | _, _ => False
    end.
  Lemma tdet_same_refl a : tdet_same a a.
  Proof. destruct a; reflexivity. Qed.
  Lemma tdet_same_trans a b c : tdet_same a b -> tdet_same b c -> tdet_same a c.
  Proof. destruct a, b, c; cbn; intros; try contradiction; congruence. Qed.

  Definition t_le (T T' : txn) : Prop :=
    tdet_same (t_details T) (t_details T') /\
    (forall tg, t_props T = Some tg -> t_props T' = Some tg) /\
    ph_le (t_init T) (t_init T') = true /\ ph_le (t_validate T) (t_validate T') = true /\
    ph_le (t_commit T) (t_commit T') = true /\ ph_le (t_apply T) (t_apply T') = true /\
    ph_le (t_abort T) (t_abort T') = true.
  Lemma t_le_refl T : t_le T T.
  Proof. unfold t_le. rewrite !ph_le_refl. split; [apply tdet_same_refl|]. auto 10. Qed.
  Lemma t_le_trans P Q R : t_le P Q -> t_le Q R -> t_le P R.
  Proof.
    intros (A0 & A1 & A2 & A3 & A4 & A5 & A6) (B0 & B1 & B2 & B3 & B4 & B5 & B6).
    repeat split; try (eapply ph_le_trans; eassumption); [eapply tdet_same_trans; eassumption|auto].
  Qed.

  Definition mono (w w' : world) : Prop :=
    (forall i T, txs w !! i = Some T -> exists T', txs w' !! i = Some T' /\ t_le T T') /\
    (forall k P, props w !! k = Some P -> exists P', props w' !! k = Some P' /\ p_le P P') /\
    (forall t, is_Some (cfgs w !! t) -> is_Some (cfgs w' !! t)).
  Lemma mono_refl w : mono w w.
  Proof. repeat split; eauto using t_le_refl, p_le_refl. Qed.
  Lemma mono_trans a b c : mono a b -> mono b c -> mono a c.
  Proof.
    intros (A1 & A2 & A3) (B1 & B2 & B3). repeat split.
    - intros i T HT. destruct (A1 _ _ HT) as (T' & HT' & L1). destruct (B1 _ _ HT') as (T'' & HT'' & L2).
      eauto using t_le_trans.
    - intros k P HP. destruct (A2 _ _ HP) as (P' & HP' & L1). destruct (B2 _ _ HP') as (P'' & HP'' & L2).
      eauto using p_le_trans.
    - auto.
  Qed.

  Lemma cfgs_keep (w : world) (e : eff) t : is_Some (cfgs w !! t) -> is_Some (cfgs (apply_eff w e) !! t).
  Proof. intros Hs. apply not_eq_None_Some. intros Hn%cfg_apply_eff_none. apply eq_None_not_Some in Hn. exact (Hn Hs). Qed.

  Definition eff_fwd (w : world) (e : eff) : Prop :=
    match e with
    | EPutTx i T' => exists T, txs w !! i = Some T /\ t_le T T'
    | EPutProp k P' => exists P, props w !! k = Some P /\ p_le P P'
    | _ => True
    end.
  Lemma mono_eff (w : world) e : eff_fwd w e -> mono w (apply_eff w e).
  Proof.
    intros Hf. repeat split.
    - intros i T HT. rewrite txs_apply_eff. destruct e; eauto using t_le_refl.
      destruct Hf as (T0 & HT0 & Hle). destruct (decide (i0 = i)) as [->|Hne].
      + rewrite lookup_insert. rewrite HT in HT0. injection HT0 as <-. eauto.
      + rewrite lookup_insert_ne by exact Hne. eauto using t_le_refl.
    - intros k P HP. rewrite props_apply_eff. destruct e; eauto using p_le_refl.
      + destruct (props w !! k0) eqn:Ek; [eauto using p_le_refl|].
        destruct (decide (k0 = k)) as [->|Hne]; [congruence|]. rewrite lookup_insert_ne by exact Hne. eauto using p_le_refl.
      + destruct Hf as (P0 & HP0 & Hle). destruct (decide (k0 = k)) as [->|Hne].
        * rewrite lookup_insert. rewrite HP in HP0. injection HP0 as <-. eauto.
        * rewrite lookup_insert_ne by exact Hne. eauto using p_le_refl.
    - intros t. apply cfgs_keep.
  Qed.

  Definition pordb (i v c a ab : option ph) (vf : bool) : bool :=
    imp (some v) (is_ph i Done) && imp (some c) (is_ph v Done) && imp (some a) (is_ph c Done) &&
    imp (some ab) (is_none c && is_none a) &&
    negb (is_ph i Failed) && negb (is_ph c Failed) && negb (is_ph ab Failed) && imp (is_ph v Failed) vf.
  Definition p_ord (P : prop) : Prop :=
    pordb (p_init P) (p_validate P) (p_commit P) (p_apply P) (p_abort P) (some (p_vfail P)) = true.

  (* Commit and Abort never fail; a failed Validate means state FAILED and Abort begun *)
  Definition twf2b (v c ab : option ph) (failed : bool) : bool :=
    negb (is_ph c Failed) && negb (is_ph ab Failed) && imp (is_ph v Failed) (failed && some ab).
  Definition tx_wf2 (T : txn) : Prop :=
    twf2b (t_validate T) (t_commit T) (t_abort T) (bool_decide (t_state T = TFailed)) = true.

  Definition agree (T : txn) (P : prop) : Prop :=
    (t_init T = Some Done -> p_init P = Some Done) /\
    (t_validate T = Some Done -> p_validate P = Some Done) /\
    (t_commit T = Some Done -> p_commit P = Some Done) /\
    (t_apply T = Some Done -> p_apply P = Some Done) /\
    (t_abort T = Some Done -> p_abort P = Some Done).

  Definition tgts_of (tm : gmap N txn) (T : txn) : list N :=
    match t_details T with
    | TChange chs => map fst chs
    | TRollback ri => match tm !! ri with
                      | Some R => match t_details R with TChange chs => map fst chs | TRollback _ => [] end
                      | None => []
                      end
    end.

  Record K (w : world) : Prop := {
    k_J : J w;
    k_tx2 : forall i T, txs w !! i = Some T -> tx_wf2 T;
    k_pord : forall k P, props w !! k = Some P -> p_ord P;
    k_agree : forall i T tg t, txs w !! i = Some T -> t_props T = Some tg -> In t tg ->
              exists P, props w !! (t, i) = Some P /\ agree T P;
    k_exist : forall t i P, props w !! (t, i) = Some P ->
              exists T, txs w !! i = Some T /\ In t (tgts_of (txs w) T);
    k_tp : forall i T tg, txs w !! i = Some T -> t_props T = Some tg ->
           tg = tgts_of (txs w) T /\ (forall ri, t_details T = TRollback ri -> is_Some (txs w !! ri));
    k_vfail : forall i T, txs w !! i = Some T -> t_validate T = Some Failed ->
              exists t P, props w !! (t, i) = Some P /\ p_validate P = Some Failed /\ t_failure T = p_vfail P;
    k_cfg : forall t i P, props w !! (t, i) = Some P -> p_init P = Some Done -> is_Some (cfgs w !! t) }.

  Lemma tgts_same_det tm (T T' : txn) : tdet_same (t_details T) (t_details T') -> tgts_of tm T' = tgts_of tm T.
  Proof.
    unfold tgts_of, tdet_same. destruct (t_details T), (t_details T'); intros H; try contradiction.
    - symmetry. exact H.
    - subst. reflexivity.
  Qed.

  Lemma tgts_insert (tm : gmap N txn) i (T T' X : txn) :
    tm !! i = Some T -> tdet_same (t_details T) (t_details T') -> tgts_of (<[i := T']> tm) X = tgts_of tm X.
  Proof.
    intros HT Hd. unfold tgts_of. destruct (t_details X) as [chs|ri]; [reflexivity|].
    destruct (decide (i = ri)) as [->|Hne].
    - rewrite lookup_insert, HT. unfold tdet_same in Hd.
      destruct (t_details T), (t_details T'); try contradiction; [symmetry; exact Hd|reflexivity].
    - rewrite lookup_insert_ne by exact Hne. reflexivity.
  Qed.

  Definition tx_safe (w : world) i (T T' : txn) : Prop :=
    tx_wf T' /\ tx_grows T T' /\ tx_wf2 T' /\ t_le T T' /\
    (forall tg, t_props T' = Some tg ->
       (tg = tgts_of (txs w) T /\ (forall ri, t_details T = TRollback ri -> is_Some (txs w !! ri))) /\
       forall t, In t tg -> exists P, props w !! (t, i) = Some P /\ agree T' P) /\
    (t_validate T' = Some Failed ->
       exists t P, props w !! (t, i) = Some P /\ p_validate P = Some Failed /\ t_failure T' = p_vfail P).

  Lemma K_put_tx (w : world) i (T T' : txn) :
    K w -> txs w !! i = Some T -> tx_safe w i T T' -> K (apply_eff w (EPutTx i T')).
  Proof.
    intros HK HT (Hwf & Hg & Hwf2 & [Hd _] & Hp & Hv). destruct HK as [HJ H2 Ho Ha He Htp Hvf Hc]. split; cbn.
    - apply (J_put_tx dev_apply d_empty w i T T'); assumption.
    - intros j T0 [[<- <-]|[_ H]]%lookup_insert_Some; [exact Hwf2|exact (H2 _ _ H)].
    - exact Ho.
    - intros j T0 tg t [[<- <-]|[_ H]]%lookup_insert_Some; [|exact (Ha _ _ _ _ H)].
      intros Htg Hin. destruct (Hp _ Htg) as [_ Hx]. apply Hx. exact Hin.
    - intros t j P HP. destruct (He _ _ _ HP) as (T0 & HT0 & Hin). destruct (decide (i = j)) as [->|Hne].
      + exists T'. rewrite lookup_insert. split; [reflexivity|]. rewrite HT in HT0. injection HT0 as <-.
        rewrite (tgts_insert _ _ T T') by assumption. rewrite (tgts_same_det _ T T') by assumption. exact Hin.
      + exists T0. rewrite lookup_insert_ne by exact Hne. split; [exact HT0|].
        rewrite (tgts_insert _ _ T T') by assumption. exact Hin.
    - intros j T0 tg. destruct (decide (i = j)) as [->|Hne].
      + rewrite lookup_insert. intros [= <-] Htg. destruct (Hp _ Htg) as [[Heq Hrb] _]. split.
        * rewrite (tgts_insert _ _ T T') by assumption. rewrite (tgts_same_det _ T T') by assumption. exact Heq.
        * intros ri Hri. apply lookup_insert_is_Some'. right. apply Hrb. unfold tdet_same in Hd. rewrite Hri in Hd.
          destruct (t_details T); [contradiction|]. subst. reflexivity.
      + rewrite lookup_insert_ne by exact Hne. intros HT0 Htg. destruct (Htp _ _ _ HT0 Htg) as [Heq Hrb]. split.
        * rewrite (tgts_insert _ _ T T') by assumption. exact Heq.
        * intros ri Hri. apply lookup_insert_is_Some'. right. apply Hrb. exact Hri.
    - intros j T0 [[<- <-]|[_ H]]%lookup_insert_Some; [exact Hv|exact (Hvf _ _ H)].
    - exact Hc.
  Qed.

  Lemma agree_le (T : txn) (P P' : prop) : agree T P -> p_le P P' -> agree T P'.
  Proof.
    intros (A1 & A2 & A3 & A4 & A5) (B0 & B1 & B2 & B3 & B4 & B5 & B6).
    repeat split; intros Hd; [apply A1 in Hd|apply A2 in Hd|apply A3 in Hd|apply A4 in Hd|apply A5 in Hd];
      rewrite Hd in *; apply ph_le_done; assumption.
  Qed.

  Lemma K_ins_prop (w : world) k (P' : prop) :
    K w -> p_ord P' -> backed (txs w) k P' -> (p_init P' = Some Done -> is_Some (cfgs w !! k.1)) ->
    match props w !! k with
    | Some P => p_le P P'
    | None => exists T, txs w !! k.2 = Some T /\ In k.1 (tgts_of (txs w) T)
    end ->
    K (apply_eff w (EPutProp k P')).
  Proof.
    intros HK Hord Hb Hcf Hold. destruct HK as [HJ H2 Ho Ha He Htp Hvf Hc]. split; cbn.
    - apply (J_put_prop dev_apply d_empty w k P'); assumption.
    - exact H2.
    - intros k0 P0 [[<- <-]|[_ H]]%lookup_insert_Some; [exact Hord|exact (Ho _ _ H)].
    - intros j T0 tg t HT0 Htg Hin. destruct (Ha _ _ _ _ HT0 Htg Hin) as (P0 & HP0 & Hag).
      destruct (decide (k = (t, j))) as [->|Hne].
      + exists P'. rewrite lookup_insert. split; [reflexivity|]. rewrite HP0 in Hold. eapply agree_le; eassumption.
      + exists P0. rewrite lookup_insert_ne by exact Hne. auto.
    - intros t j P0 [[-> _]|[_ H]]%lookup_insert_Some; [|exact (He _ _ _ H)].
      destruct (props w !! (t, j)) eqn:E; [exact (He _ _ _ E)|exact Hold].
    - exact Htp.
    - intros j T0 HT0 Hf. destruct (Hvf _ _ HT0 Hf) as (t & P0 & HP0 & Hpf & Hfl).
      destruct (decide (k = (t, j))) as [->|Hne].
      + exists t, P'. rewrite lookup_insert. rewrite HP0 in Hold.
        destruct Hold as (B0 & B1 & B2 & B3 & B4 & B5 & B6). rewrite Hpf in B2. apply ph_le_failed in B2.
        repeat split; [exact B2|]. rewrite (B6 Hpf). exact Hfl.
      + exists t, P0. rewrite lookup_insert_ne by exact Hne. auto.
    - intros t j P0 [[-> <-]|[_ H]]%lookup_insert_Some; [exact Hcf|exact (Hc _ _ _ H)].
  Qed.

  Lemma K_create_prop (w : world) t i (T : txn) (P' : prop) :
    K w -> txs w !! i = Some T -> In t (tgts_of (txs w) T) ->
    p_init P' = None -> p_validate P' = None -> p_commit P' = None -> p_abort P' = None -> p_apply P' = None ->
    K (apply_eff w (ECreateProp (t, i) P')).
  Proof.
    intros HK HT Hin H0 H1 H2 H3 H4. cbn. destruct (props w !! (t, i)) eqn:Hk; [exact HK|].
    apply (K_ins_prop w (t, i) P'); [exact HK| | | |rewrite Hk; eauto].
    - unfold p_ord. rewrite H0, H1, H2, H3, H4. reflexivity.
    - apply backed_none; assumption.
    - rewrite H0. discriminate.
  Qed.

  Lemma K_neutral (w : world) e : tp_neutral e -> K w -> K (apply_eff w e).
  Proof.
    intros Hn HK. destruct (neutral_stores dev_apply d_empty w e Hn) as [Ht Hp].
    assert (HJ' := J_neutral dev_apply d_empty w e Hn (k_J _ HK)).
    destruct HK as [HJ Hx Ho Ha He Htp Hvf Hc]. split; rewrite ?Ht, ?Hp; try assumption.
    intros t i P HP Hd. apply cfgs_keep. eapply Hc; eassumption.
  Qed.

  (* the candidate whose document the plugin judges, and the rollback data recorded with the verdict *)
  Definition vdoc (w : world) (t : N) (C : config) (P : prop) (cand : V) (rbi : N) (rbv : option Ch) : Prop :=
    match p_details P with
    | PChange ch => cand = candidate (view C) ch /\ rbi = c_index C /\ rbv = Some (rollback_of (view C) ch)
    | PRollback ri =>
      negb (c_index C =? ri) = false /\
      exists (Q : prop) ch0, props w !! (t, ri) = Some Q /\ p_details Q = PChange ch0 /\
        cand = candidate_rb (view C) (default ch_empty (p_rbvalues Q)) /\ rbi = p_rbindex Q /\ rbv = p_rbvalues Q
    end.

  Inductive pwrite (o : oracle) (w : world) : N * N -> prop -> prop -> Prop :=
  | pw_init0 k (P : prop) :
      p_init P = None -> p_validate P = None -> p_commit P = None -> p_apply P = None -> p_abort P = None ->
      pwrite o w k P (P <| p_init := Some Doing |>)
  | pw_initD k (P : prop) (C : config) :
      p_init P = Some Doing -> p_validate P = None -> p_commit P = None -> p_apply P = None -> p_abort P = None ->
      cfgs w !! k.1 = Some C -> pwrite o w k P (P <| p_init := Some Done |>)
  | pw_prev k (P : prop) n : pwrite o w k P (P <| p_prev := n |>)
  | pw_next k (P : prop) n : pwrite o w k P (P <| p_next := n |>)
  | pw_valD k (P : prop) (C : config) cand rbi rbv :
      p_validate P = Some Doing -> p_commit P = None -> p_apply P = None -> p_abort P = None ->
      cfgs w !! k.1 = Some C -> negb (p_prev P =? 0) && negb (c_committed C =? p_prev P) = false ->
      negb (o_plugin o) = false -> o_verdict o = true -> negb (doc_ok cand) = false -> vdoc w k.1 C P cand rbi rbv ->
      pwrite o w k P (P <| p_rbindex := rbi |> <| p_rbvalues := rbv |> <| p_validate := Some Done |>)
  | pw_valF k (P : prop) f :
      p_validate P = Some Doing -> p_commit P = None -> p_apply P = None -> p_abort P = None ->
      pwrite o w k P (P <| p_validate := Some Failed |> <| p_vfail := Some f |>)
  | pw_comD k (P : prop) :
      p_commit P = Some Doing -> p_apply P = None -> p_abort P = None ->
      pwrite o w k P (P <| p_commit := Some Done |>)
  | pw_abD k (P : prop) :
      p_abort P = Some Doing -> p_apply P = None -> pwrite o w k P (P <| p_abort := Some Done |>)
  | pw_apD k (P : prop) n :
      p_apply P = Some Doing -> pwrite o w k P (P <| p_apply := Some Done |> <| p_term := n |>)
  | pw_apF k (P : prop) f n :
      p_apply P = Some Doing -> pwrite o w k P (P <| p_apply := Some Failed |> <| p_afail := Some f |> <| p_term := n |>).

  Definition calm (e : eff) : Prop :=
    match e with EPutTx _ _ | ECreateProp _ _ | EPutProp _ _ | EPutValues _ _ => False | _ => True end.
  Lemma calm_neutral e : calm e -> tp_neutral e.
  Proof. destruct e; cbn; auto. Qed.

  Inductive pcase (o : oracle) (w : world) (k : N * N) : list eff -> Prop :=
  | pc_calm effs : Forall calm effs -> pcase o w k effs
  | pc_put pre post k' (P P' : prop) :
      Forall calm pre -> Forall calm post -> props w !! k' = Some P -> pwrite o w k' P P' ->
      (k' = k \/ exists n, P' = P <| p_next := n |>) ->     (* only the link to the successor is written elsewhere *)
      pcase o w k (pre ++ EPutProp k' P' :: post)
  | pc_commit (P : prop) (C : config) ci :
      props w !! k = Some P -> cfgs w !! k.1 = Some C ->
      p_commit P = Some Doing -> p_apply P = None -> p_abort P = None -> (c_committed C =? p_prev P) = true ->
      ci = match p_details P with PChange _ => k.2 | PRollback _ => p_rbindex P end ->
      pcase o w k [EPutValues k.1 (commit_merge (o_order o) k.2 (c_values C) (view C) (rb_change ch_empty P));
                   EPutCfg k.1 (C <| c_index := ci |>
                                  <| c_committed := k.2 |> <| c_inline := v_empty |> <| c_ainline := aview C |>);
                   EPutProp k (P <| p_commit := Some Done |>)].

  Ltac pwrite_tac :=
    first [ eapply pw_init0; eassumption
          | eapply pw_initD; eassumption
          | eapply pw_prev
          | eapply pw_next
          | eapply pw_valF; eassumption
          | eapply pw_comD; eassumption
          | eapply pw_abD; eassumption
          | eapply pw_apD; eassumption
          | eapply pw_apF; eassumption
          | eapply pw_valD; [eassumption..|];
            unfold vdoc;
            match goal with H : p_details _ = _ |- _ => rewrite H end;
            first [ repeat split; reflexivity
                  | split; [eassumption|]; eexists _, _; repeat split; eassumption ] ].

  Ltac key_tac := first [left; reflexivity | right; eexists; reflexivity].
  Ltac put_tac pre post := solve [eapply (pc_put _ _ _ pre post); [repeat constructor|repeat constructor|eassumption|pwrite_tac|key_tac]].
  Ltac pcase_tac :=
    first [ solve [apply pc_calm; repeat constructor]
          | put_tac uconstr:([]) uconstr:([])
          | put_tac uconstr:([_; _]) uconstr:([])
          | put_tac uconstr:([_; _; _]) uconstr:([])
          | put_tac uconstr:([_]) uconstr:([_; _])
          | solve [eapply (pc_commit _ _ (_, _)); [eassumption..|]; match goal with H : p_details _ = _ |- _ => rewrite H end; reflexivity] ].

  Lemma rec_prop_pcase (o : oracle) (w : world) k : pcase o w k (fst (rec_prop o w k)).
  Proof.
    unfold Proto2.rec_prop, Proto2.vfail, Proto2.upd_status. destruct k as [t i]. cbv zeta.
    destruct (props w !! (t, i)) as [P|] eqn:HP; [|apply pc_calm; apply List.Forall_nil].
    destruct_matches; cbn [fst app]; try pcase_tac.
    (* the linking step: the effect is chosen by a nested match *)
    all: match goal with H : _ = Some ?e |- pcase _ _ _ [?e] =>
      repeat match type of H with context [match ?x with _ => _ end] => destruct x eqn:? end;
      try discriminate H; injection H as <-; pcase_tac
    end.
  Qed.

  (* case on a phase of [P] unless it is known, dropping the cases that the order [Ho] of [P] excludes *)
  Ltac pfield f P Ho :=
    first [ match goal with H : f P = _ |- _ => rewrite H in * end
          | destruct (f P) as [[]|]; cbn in Ho; try discriminate Ho ].

  Lemma pwrite_le o (w : world) k (P P' : prop) : pwrite o w k P P' -> p_le P P'.
  Proof.
    intros Hpw. destruct Hpw; unfold p_le; cbn;
      repeat match goal with H : _ = _ |- _ => rewrite H end; cbn; rewrite ?ph_le_refl;
      repeat split; try reflexivity; try (intros; congruence).
  Qed.

  Lemma pwrite_ord o (w : world) k (P P' : prop) : pwrite o w k P P' -> p_ord P -> p_ord P'.
  Proof.
    intros Hpw. destruct Hpw; unfold p_ord; cbn; intros Ho; try exact Ho;
      pfield (@p_init Ch) P Ho; pfield (@p_validate Ch) P Ho; pfield (@p_commit Ch) P Ho; pfield (@p_apply Ch) P Ho;
      pfield (@p_abort Ch) P Ho; destruct (p_vfail P); cbn in *; try reflexivity; try discriminate.
  Qed.

  Lemma pwrite_backed o (w : world) k (P P' : prop) tm : pwrite o w k P P' -> backed tm k P -> backed tm k P'.
  Proof.
    intros Hpw Hb. destruct Hpw; apply (backed_same tm k P _ Hb); cbn; intros Hs; try exact Hs;
      repeat match goal with H : _ = Some _ |- _ => rewrite H end; eauto.
  Qed.

  Lemma pwrite_cfg o (w : world) k (P P' : prop) :
    pwrite o w k P P' -> p_init P' = Some Done -> p_init P = Some Done \/ is_Some (cfgs w !! k.1).
  Proof. intros Hpw. destruct Hpw; cbn; intros Hd; try (left; exact Hd); try congruence. right. eauto. Qed.

  Definition KM (w0 w : world) : Prop := K w /\ mono w0 w.

  Lemma KM_eff (w0 w : world) e : KM w0 w -> K (apply_eff w e) -> eff_fwd w e -> KM w0 (apply_eff w e).
  Proof. intros [HK Hm] HK' Hf. split; [exact HK'|]. eapply mono_trans; [exact Hm|]. apply mono_eff. exact Hf. Qed.

  Lemma KM_neutral (w0 w : world) e : tp_neutral e -> KM w0 w -> KM w0 (apply_eff w e).
  Proof.
    intros Hn HKM. apply KM_eff; [exact HKM|apply K_neutral; [exact Hn|apply HKM]|].
    destruct e; try exact I; destruct Hn.
  Qed.

  Lemma KM_pwrite o (w0 ws w : world) k (P P' : prop) :
    KM w0 w -> props w !! k = Some P -> pwrite o ws k P P' ->
    (forall t, is_Some (cfgs ws !! t) -> is_Some (cfgs w !! t)) ->
    KM w0 (apply_eff w (EPutProp k P')).
  Proof.
    intros HKM HP Hpw Hc. pose proof (proj1 HKM) as HK. pose proof (pwrite_le _ _ _ _ _ Hpw) as Hle.
    apply KM_eff; [exact HKM| |cbn; eauto]. apply K_ins_prop; [exact HK| | | |rewrite HP; exact Hle].
    - eapply pwrite_ord; eauto. eapply k_pord; eauto.
    - eapply pwrite_backed; eauto. eapply (j_back _ (k_J _ HK)); eauto.
    - intros Hd. destruct (pwrite_cfg _ _ _ _ _ Hpw Hd) as [Hd0|Hs]; [|apply Hc; exact Hs].
      destruct k as [t i]. eapply k_cfg; eauto.
  Qed.

  Lemma chain_neutral (w0 : world) pre : forall (w : world) tail, KM w0 w -> Forall tp_neutral pre ->
    (forall w' : world, KM w0 w' -> txs w' = txs w -> props w' = props w ->
                (forall t, is_Some (cfgs w !! t) -> is_Some (cfgs w' !! t)) -> chain (KM w0) w' tail) ->
    chain (KM w0) w (pre ++ tail).
  Proof.
    induction pre as [|e r IH]; intros w tail HKM Hf Ht.
    - cbn. apply Ht; auto.
    - inversion Hf as [|? ? He Hr]; subst. cbn.
      assert (HKM' : KM w0 (apply_eff w e)) by (apply KM_neutral; assumption).
      split; [exact HKM'|]. apply IH; [exact HKM'|exact Hr|].
      destruct (neutral_stores dev_apply d_empty w e He) as [Ht' Hp'].
      intros w' HK' Htx Hpr Hcf. apply Ht; [exact HK'|congruence|congruence|].
      intros t Hs. apply Hcf. apply cfgs_keep. exact Hs.
  Qed.

  Lemma calm_chain (w0 w : world) effs : KM w0 w -> Forall calm effs -> chain (KM w0) w effs.
  Proof.
    intros HKM Hf. rewrite <- (app_nil_r effs). apply chain_neutral; [exact HKM| |intros; exact I].
    eapply Forall_impl; [exact Hf|]. intros e. apply calm_neutral.
  Qed.

  Lemma pcase_KM o (w0 w : world) k effs : KM w0 w -> pcase o w k effs -> chain (KM w0) w effs.
  Proof.
    intros HKM Hpc. destruct Hpc as [effs Hf | pre post k' P P' Hf Hf2 HP Hpw Hk | P C ci HP HC Hc Ha Hab Hcm Hci].
    - apply calm_chain; assumption.
    - apply chain_neutral; [exact HKM|eapply Forall_impl; [exact Hf|intros e; apply calm_neutral]|].
      intros w' HK' Htx Hpr Hcf. rewrite <- Hpr in HP. pose proof (KM_pwrite _ _ _ _ _ _ _ HK' HP Hpw Hcf) as HKM'.
      split; [exact HKM'|]. apply calm_chain; assumption.
    - apply (chain_neutral w0 [_; _] w [_]); [exact HKM|repeat constructor|].
      intros w' HK' Htx Hpr Hcf. rewrite <- Hpr in HP. apply chain_one.
      apply (KM_pwrite o w0 w w' k P); [exact HK'|exact HP|apply pw_comD; assumption|exact Hcf].
  Qed.

  Lemma rec_prop_KM o (w0 w : world) k : KM w0 w -> chain (KM w0) w (fst (rec_prop o w k)).
  Proof. intros HKM. eapply pcase_KM; [exact HKM|apply rec_prop_pcase]. Qed.

  Lemma side_calm e : cfg_side e -> calm e.
  Proof. destruct e; cbn; auto. Qed.

  Lemma rec_cfg_calm (o : oracle) (w : world) t : Forall calm (fst (rec_cfg o w t)).
  Proof. eapply Forall_impl; [apply rec_cfg_side|apply side_calm]. Qed.

  Lemma rec_master_calm (o : oracle) (w : world) t : Forall calm (fst (rec_master o w t)).
  Proof. eapply Forall_impl; [apply rec_master_side|apply side_calm]. Qed.

  Lemma rec_conn_calm (w : world) c : Forall calm (fst (rec_conn w c)).
  Proof. eapply Forall_impl; [apply rec_conn_side|apply side_calm]. Qed.

  Lemma pordb_spec i v c a ab vf : pordb i v c a ab vf = true ->
    (is_Some v -> i = Some Done) /\ (is_Some c -> v = Some Done) /\ (is_Some a -> c = Some Done) /\
    (is_Some ab -> c = None /\ a = None) /\ i <> Some Failed /\ c <> Some Failed /\ ab <> Some Failed /\
    (v = Some Failed -> vf = true).
  Proof.
    unfold pordb. intros H. repeat (apply andb_prop in H; destruct H as [H ?]).
    assert (Hw : wfb i v c a ab false = true) by (unfold wfb; repeat (apply andb_true_intro; split); auto).
    destruct (wfb_spec _ _ _ _ _ _ Hw) as (S1 & S2 & S3 & S4 & _). unfold is_ph in *.
    repeat match goal with H : negb _ = true |- _ => apply negb_true_iff, bool_decide_eq_false in H end.
    split; [exact S1|]. split; [exact S2|]. split; [exact S3|]. split; [exact S4|]. repeat (split; [assumption|]).
    intros ->. eapply imp_true; [eassumption|reflexivity].
  Qed.

  Lemma KM_put_tx (w0 w : world) i (T T' : txn) :
    KM w0 w -> txs w !! i = Some T -> tx_safe w i T T' -> KM w0 (apply_eff w (EPutTx i T')).
  Proof.
    intros HKM HT Hs. apply KM_eff; [exact HKM|exact (K_put_tx w i T T' (proj1 HKM) HT Hs)|].
    cbn. exists T. split; [exact HT|apply Hs].
  Qed.

  Lemma listed_facts (w : world) i (T : txn) t (p : prop) :
    K w -> txs w !! i = Some T -> In t (default [] (t_props T)) -> props w !! (t, i) = Some p ->
    p_ord p /\ agree T p /\
    (is_Some (p_validate p) -> is_Some (t_validate T)) /\ (is_Some (p_commit p) -> is_Some (t_commit T)) /\
    (is_Some (p_abort p) -> is_Some (t_abort T)) /\ (is_Some (p_apply p) -> is_Some (t_apply T)).
  Proof.
    intros HK HT Hin Hp. split; [eapply k_pord; eauto|]. split.
    - destruct (t_props T) as [tg|] eqn:Etg; [|destruct Hin]. cbn in Hin.
      destruct (k_agree _ HK _ _ _ _ HT Etg Hin) as (P & HP & Ha). rewrite Hp in HP. injection HP as <-. exact Ha.
    - apply (backed_imp (txs w) t i T p); [|exact HT]. eapply (j_back _ (k_J _ HK)); eauto.
  Qed.

  (* every overwrite of the record by the transaction reconciler is safe: the phases are known, so order and
     well-formedness are computed; a phase becomes done only when [all_done] says so of every listed proposal *)
  Lemma twrite_safe (w : world) i (T T' : txn) : K w -> txs w !! i = Some T -> twrite w i T T' -> tx_safe w i T T'.
  Proof.
    intros HK HT Htw. destruct (twrite_wf _ _ _ _ Htw (j_tx _ (k_J _ HK) _ _ HT)) as [W1 W2].
    split; [exact W1|]. split; [exact W2|]. clear W1 W2. split.
    { pose proof (k_tx2 _ HK _ _ HT) as Hwf2. unfold tx_wf2 in *. destruct Htw; cbn;
        repeat match goal with
               | H : phases _ _ _ _ _ _ |- _ => destruct H as (E1 & E2 & E3 & E4 & E5); rewrite ?E2, ?E3, ?E5 in *
               | H : _ T = _ |- _ => rewrite H in *
               end; first [reflexivity|exact Hwf2]. }
    assert (Hd : t_details T' = t_details T) by (destruct Htw; reflexivity).
    assert (Hp : t_props T' = t_props T) by (destruct Htw; reflexivity).
    split; [|split].
    - unfold t_le. rewrite Hd, Hp. split; [apply tdet_same_refl|]. split; [auto|].
      destruct Htw; cbn;
        repeat match goal with
               | H : phases _ _ _ _ _ _ |- _ => destruct H as (-> & -> & -> & -> & ->)
               | H : _ T = _ |- _ => rewrite H
               end; rewrite ?ph_le_refl; auto.
    - intros tg Htg. rewrite Hp in Htg. split; [eapply (k_tp _ HK); eauto|].
      intros t Hin. destruct (k_agree _ HK _ _ _ _ HT Htg Hin) as (P & HP & A1 & A2 & A3 & A4 & A5).
      exists P. split; [exact HP|]. replace tg with (default [] (t_props T)) in Hin by (rewrite Htg; reflexivity).
      destruct (listed_facts w i T t P HK HT Hin HP) as (Po & _). apply pordb_spec in Po.
      destruct Po as (_ & _ & _ & _ & O5 & O6 & O7 & _).
      destruct Htw;
        try match goal with Hall : all_done _ _ _ _ _ |- _ =>
              destruct (Hall t Hin) as (p & Hp' & [Hdn|[Hs Hdn]]); rewrite HP in Hp'; injection Hp' as <-;
                [|first [discriminate Hs|congruence]] end;
        repeat split; cbn; intros Hx; auto; discriminate Hx.
    - destruct Htw; cbn; intros Hf;
        repeat match goal with H : phases _ _ _ _ _ _ |- _ => destruct H as (? & ? & ? & ? & ?) end;
        first [discriminate Hf|congruence|exact (k_vfail _ HK _ _ HT Hf)|eauto].
  Qed.

  Lemma pstart_K (w : world) i (T : txn) t (p P' : prop) :
    K w -> txs w !! i = Some T -> In t (default [] (t_props T)) -> props w !! (t, i) = Some p -> pstart T p P' ->
    p_le p P' /\ p_ord P' /\ backed (txs w) (t, i) P' /\ p_init P' = p_init p.
  Proof.
    intros HK HT Hin Hp Hs. destruct (listed_facts w i T t p HK HT Hin Hp) as (Po & (A1 & A2 & A3 & A4 & A5) & B1 & B2 & B3 & B4).
    assert (Hb : backed (txs w) (t, i) P').
    { eapply pstart_backed; eauto. eapply (j_back _ (k_J _ HK)); eauto. }
    assert (Hno : forall (o : option ph) (o' : option ph), (is_Some o -> is_Some o') -> o' = None -> o = None).
    { intros o o' Hi ->. apply eq_None_not_Some. intros [? [=]]%Hi. }
    unfold p_le, p_ord in *.
    destruct Hs as [(Ei & Ev & Ec & Ea & Eb) Hg|(Ei & Ev & Ec & Ea & Eb) Hg|(Ei & Ev & Ec & Ea & Eb) Hg|Eb Ec Ea Hg];
      cbn; rewrite Hg, ?ph_le_refl; (split; [auto 10|]); (split; [|auto]).
    - rewrite Hg, (A1 Ei) in *. pfield (@p_commit Ch) p Po; pfield (@p_apply Ch) p Po; pfield (@p_abort Ch) p Po;
        destruct (p_vfail p); cbn in *; try reflexivity; try discriminate.
    - rewrite Hg, (A2 Ev), (Hno _ _ B3 Eb) in *. pfield (@p_init Ch) p Po; pfield (@p_apply Ch) p Po;
        destruct (p_vfail p); cbn in *; try reflexivity; try discriminate.
    - rewrite Hg, (A3 Ec) in *. pfield (@p_init Ch) p Po; pfield (@p_validate Ch) p Po; pfield (@p_abort Ch) p Po;
        destruct (p_vfail p); cbn in *; try reflexivity; try discriminate.
    - rewrite Hg, (Hno _ _ B2 Ec), (Hno _ _ B4 Ea) in *. pfield (@p_init Ch) p Po; pfield (@p_validate Ch) p Po;
        destruct (p_vfail p); cbn in *; try reflexivity; try discriminate.
  Qed.

  Lemma create_props_KM (w0 ws : world) i (T T' : txn) tgs (l : list (N * prop)) :
    Forall (fun tp => p_init tp.2 = None /\ p_validate tp.2 = None /\ p_commit tp.2 = None /\ p_abort tp.2 = None /\ p_apply tp.2 = None) l ->
    phases T (Some Doing) None None None None -> phases T' (Some Doing) None None None None ->
    tdet_same (t_details T) (t_details T') -> t_props T = None -> t_props T' = Some tgs ->
    forall (w : world) seen, KM w0 w -> txs w !! i = Some T -> tgts_of (txs w) T = tgs ->
      (forall ri, t_details T = TRollback ri -> is_Some (txs w !! ri)) ->
      (forall k, is_Some (props ws !! k) -> is_Some (props w !! k)) ->
      (forall t, In t seen -> is_Some (props w !! (t, i))) ->
      (forall t, In t tgs <-> In t (seen ++ map fst l)) ->
      chain (KM w0) w (create_props ws i l ++ [EPutTx i T']).
  Proof.
    intros Hl (E1 & E2 & E3 & E4 & E5) (F1 & F2 & F3 & F4 & F5) Hd Hnp Hp'.
    induction Hl as [|[t p] l (G0 & G1 & G2 & G3 & G4) _ IH]; intros w seen HKM HT Htg Hrb Hsub Hseen Hcov.
    - cbn [create_props flat_map app]. apply chain_one. eapply KM_put_tx; eauto.
      unfold tx_safe, tx_wf, tx_grows, tx_wf2, t_le, agree. rewrite E1, E2, E3, E4, E5, F1, F2, F3, F4, F5, Hnp, Hp'.
      split; [reflexivity|]. split; [reflexivity|]. split; [reflexivity|].
      split; [split; [exact Hd|split; [discriminate|auto 10]]|]. split; [|discriminate].
      intros tg [= <-]. split; [split; [symmetry; exact Htg|exact Hrb]|].
      intros t0 Hin%Hcov. cbn in Hin. rewrite app_nil_r in Hin. destruct (Hseen _ Hin) as [P HP].
      exists P. split; [exact HP|]. repeat split; discriminate.
    - cbn [create_props flat_map]. fold (create_props ws i l). cbn [fst].
      assert (Hcov' : forall t0, In t0 tgs <-> In t0 ((seen ++ [t]) ++ map fst l)).
      { intros t0. rewrite Hcov. cbn. rewrite <- app_assoc. reflexivity. }
      destruct (props ws !! (t, i)) eqn:Hex.
      + cbn [app]. apply (IH w (seen ++ [t])); auto.
        intros t0 Hin. apply in_app_or in Hin. destruct Hin as [Hin|[<-|[]]]; [auto|]. apply Hsub. rewrite Hex. eauto.
      + cbn [app]. cbn in G0, G1, G2, G3, G4.
        assert (Hin : In t (tgts_of (txs w) T)).
        { rewrite Htg. apply Hcov. apply in_or_app. right. left. reflexivity. }
        assert (HKM' : KM w0 (apply_eff w (ECreateProp (t, i) p))).
        { apply KM_eff; [exact HKM| |exact I]. eapply K_create_prop; eauto. apply HKM. }
        assert (Hpr : forall k, is_Some (props w !! k) -> is_Some (props (apply_eff w (ECreateProp (t, i) p)) !! k)).
        { intros k Hs. rewrite props_apply_eff. destruct (props w !! (t, i)); [exact Hs|].
          apply lookup_insert_is_Some'. right. exact Hs. }
        split; [exact HKM'|]. apply (IH _ (seen ++ [t])); auto.
        * rewrite txs_apply_eff. exact HT.
        * rewrite txs_apply_eff. exact Htg.
        * intros ri Hri. rewrite txs_apply_eff. auto.
        * intros t0 Hin0. apply in_app_or in Hin0. destruct Hin0 as [Hin0|[<-|[]]]; [auto|].
          rewrite props_apply_eff. destruct (props w !! (t, i)) eqn:Hw; [rewrite Hw; eauto|rewrite lookup_insert; eauto].
  Qed.

  Lemma rec_tx_KM (w0 w : world) i : KM w0 w -> chain (KM w0) w (fst (rec_tx w i)).
  Proof.
    intros HKM. pose proof (proj1 HKM) as HK.
    apply rec_tx_cases; [apply (j_tx _ (k_J _ HK))|exact I|..].
    - intros T t p P' HT Hin Hp Hs. destruct (pstart_K w i T t p P' HK HT Hin Hp Hs) as (L & O & B & E).
      apply chain_one. apply KM_eff; [exact HKM| |cbn; eauto].
      apply K_ins_prop; auto; [|rewrite Hp; exact L]. rewrite E. intros Hd. eapply (k_cfg _ HK); eauto.
    - intros T T' HT Htw. apply chain_one. eapply KM_put_tx; eauto using twrite_safe.
    - intros T chs HT Hph Ep Ed chs'.
      assert (Hfst : map fst chs' = map fst chs).
      { unfold chs'. rewrite map_map. apply map_ext. intros [t0 c0]. cbn. destruct (props w !! (t0, i)); reflexivity. }
      apply (create_props_KM w0 w i T _ (map fst chs) _) with (seen := []); auto.
      + apply Forall_map, Forall_true. intros tc. cbn. auto 10.
      + cbn. rewrite Ed. cbn. symmetry. exact Hfst.
      + unfold tgts_of. rewrite Ed. reflexivity.
      + intros ri Hri. rewrite Ed in Hri. discriminate Hri.
      + intros t [].
      + intros t. cbn [app]. rewrite map_map, <- Hfst. reflexivity.
    - intros T ri R chs HT Hph Ep Ed HR EdR.
      apply (create_props_KM w0 w i T _ (map fst chs) _) with (seen := []); auto.
      + apply Forall_map, Forall_true. intros tc. cbn. auto 10.
      + apply tdet_same_refl.
      + unfold tgts_of. rewrite Ed, HR, EdR. reflexivity.
      + intros ri' Hri. rewrite Ed in Hri. injection Hri as <-. rewrite HR. eauto.
      + intros t [].
      + intros t. cbn [app]. rewrite map_map. reflexivity.
  Qed.

  Lemma tgts_fresh (tm : gmap N txn) n (T X : txn) t :
    tm !! n = None -> In t (tgts_of tm X) -> In t (tgts_of (<[n := T]> tm) X).
  Proof.
    unfold tgts_of. intros Hn. destruct (t_details X) as [chs|ri]; [auto|].
    destruct (decide (n = ri)) as [->|Hne]; [rewrite Hn; intros []|rewrite lookup_insert_ne by exact Hne; auto].
  Qed.

  Lemma tgts_fresh_eq (tm : gmap N txn) n (T X : txn) :
    tm !! n = None -> (forall ri, t_details X = TRollback ri -> is_Some (tm !! ri)) ->
    tgts_of (<[n := T]> tm) X = tgts_of tm X.
  Proof.
    unfold tgts_of. intros Hn Hrb. destruct (t_details X) as [chs|ri]; [reflexivity|].
    destruct (decide (n = ri)) as [->|Hne]; [|rewrite lookup_insert_ne by exact Hne; reflexivity].
    destruct (Hrb ri eq_refl) as [x Hx]. congruence.
  Qed.

  Lemma K_new_tx (w : world) (T : txn) :
    K w -> t_init T = None -> t_validate T = None -> t_commit T = None -> t_apply T = None -> t_abort T = None ->
    t_props T = None ->
    K (w <| txs := <[next_index w := T]> (txs w) |> <| next_index := next_index w + 1 |>).
  Proof.
    intros HK E1 E2 E3 E4 E5 E6. pose proof (j_fresh _ (k_J _ HK) (next_index w) (N.le_refl _)) as Hn.
    assert (Hwf : tx_wf T) by (unfold tx_wf; rewrite E1, E2, E3, E4, E5, E6; reflexivity).
    assert (HJ' := J_new_tx w T (k_J _ HK) Hwf).
    destruct HK as [HJ H2 Ho Ha He Htp Hvf Hc]. split; cbn.
    - exact HJ'.
    - intros j T0 [[<- <-]|[_ H]]%lookup_insert_Some; [|exact (H2 _ _ H)].
      unfold tx_wf2. rewrite E2, E3, E5. reflexivity.
    - exact Ho.
    - intros j T0 tg t [[<- <-]|[_ H]]%lookup_insert_Some; [congruence|exact (Ha _ _ _ _ H)].
    - intros t j P HP. destruct (He _ _ _ HP) as (T0 & HT0 & Hin).
      assert (Hne : next_index w <> j) by congruence.
      exists T0. rewrite lookup_insert_ne by exact Hne. split; [exact HT0|]. apply tgts_fresh; assumption.
    - intros j T0 tg. destruct (decide (next_index w = j)) as [<-|Hne].
      + rewrite lookup_insert. intros [= <-]. congruence.
      + rewrite lookup_insert_ne by exact Hne. intros HT0 Htg. destruct (Htp _ _ _ HT0 Htg) as [Heq Hrb]. split.
        * rewrite tgts_fresh_eq; assumption.
        * intros ri Hri. apply lookup_insert_is_Some'. right. apply Hrb. exact Hri.
    - intros j T0 [[<- <-]|[_ H]]%lookup_insert_Some; [congruence|exact (Hvf _ _ H)].
    - exact Hc.
  Qed.

  Lemma mono_new_tx (w : world) (T : txn) :
    txs w !! next_index w = None ->
    mono w (w <| txs := <[next_index w := T]> (txs w) |> <| next_index := next_index w + 1 |>).
  Proof.
    intros Hn. repeat split; cbn.
    - intros i T0 HT0. exists T0. rewrite lookup_insert_ne by congruence. split; [exact HT0|apply t_le_refl].
    - intros k P HP. eauto using p_le_refl.
    - auto.
  Qed.

  Lemma KM_env (w w' : world) :
    txs w' = txs w -> props w' = props w -> next_index w' = next_index w -> cfgs w' = cfgs w -> K w -> KM w w'.
  Proof.
    intros Ht Hp Hn Hc HK. split; [|unfold mono; rewrite Ht, Hp, Hc; apply mono_refl].
    assert (HJ' : J w') by (eapply J_env; [exact Ht|exact Hp|exact Hn|apply HK]).
    destruct HK as [HJ H2 Ho Ha He Htp Hvf Hcf]. split; rewrite ?Ht, ?Hp, ?Hc; assumption.
  Qed.

  Lemma step_KM (w : world) l : K w -> KM w (step w l).
  Proof.
    intros HK. assert (HKM : KM w w) by (split; [exact HK|apply mono_refl]).
    destruct l as [chs sy se|ri|c k o|c t|c|c t|t p|t|t]; cbn [Proto2.step].
    1,2: split; [apply K_new_tx; auto|apply mono_new_tx; apply (j_fresh _ (k_J _ HK)); lia].
    1: { apply (chain_prefix dev_apply d_empty (KM w)); [exact HKM|].
         destruct c as [i|kk|t|t|cc]; cbn [Proto2.reconcile].
         - apply rec_tx_KM. exact HKM.
         - apply rec_prop_KM. exact HKM.
         - apply calm_chain; [exact HKM|apply rec_cfg_calm].
         - apply calm_chain; [exact HKM|apply rec_master_calm].
         - apply calm_chain; [exact HKM|apply rec_conn_calm]. }
    (* the labels of the environment leave the four stores alone *)
    all: try (destruct (conns w !! c); [exact HKM|]); try (destruct (rels w !! c); [exact HKM|]).
    all: apply KM_env; [reflexivity..|exact HK].
  Qed.

  Lemma K_init : K (@init V Ch Req D).
  Proof.
    split; cbn; try (intros; match goal with H : ∅ !! _ = Some _ |- _ => rewrite lookup_empty in H; discriminate H end).
    apply (J_init (V := V) (Ch := Ch) (Req := Req) (D := D)).
  Qed.

  Theorem K_reach (w : world) : reach w -> K w.
  Proof.
    apply (reach_ind candidate candidate_rb rollback_of overlay commit_merge payload record_applied touched restore
                     resync_payload doc_ok dev_apply stamp v_empty d_empty ch_empty K).
    - exact K_init.
    - intros w0 l _ HK. apply step_KM. exact HK.
  Qed.

  Theorem step_mono (w : world) l : reach w -> mono w (step w l).
  Proof. intros Hr. apply step_KM. apply K_reach. exact Hr. Qed.

  Theorem run_mono (ls : list (@label Ch)) : forall w : world, reach w ->
    reach (fold_left step ls w) /\ mono w (fold_left step ls w).
  Proof.
    induction ls as [|l ls IH]; intros w Hr; cbn.
    - split; [exact Hr|apply mono_refl].
    - assert (Hr' : reach (step w l)).
      { apply (reach_step candidate candidate_rb rollback_of overlay commit_merge payload record_applied touched restore
                          resync_payload doc_ok dev_apply stamp v_empty d_empty ch_empty). exact Hr. }
      destruct (IH _ Hr') as [Hr'' Hm]. split; [exact Hr''|]. eapply mono_trans; [apply step_mono; exact Hr|exact Hm].
  Qed.

  Theorem proposal_phase_order (w : world) k (P : prop) :
    reach w -> props w !! k = Some P ->
    (is_Some (p_validate P) -> p_init P = Some Done) /\
    (is_Some (p_commit P) -> p_validate P = Some Done) /\
    (is_Some (p_apply P) -> p_commit P = Some Done) /\
    (is_Some (p_abort P) -> p_commit P = None /\ p_apply P = None) /\
    p_commit P <> Some Failed /\ p_abort P <> Some Failed /\
    (p_validate P = Some Failed -> is_Some (p_vfail P)).
  Proof.
    intros Hr HP. pose proof (k_pord _ (K_reach _ Hr) _ _ HP) as Po. apply pordb_spec in Po.
    destruct Po as (O1 & O2 & O3 & O4 & O5 & O6 & O7 & O8).
    split; [exact O1|]. split; [exact O2|]. split; [exact O3|]. split; [exact O4|]. split; [exact O6|]. split; [exact O7|].
    intros Hf. apply some_is_Some. exact (O8 Hf).
  Qed.

  Theorem tx_prop_agreement (w : world) i (T : txn) tg t :
    reach w -> txs w !! i = Some T -> t_props T = Some tg -> In t tg ->
    exists P, props w !! (t, i) = Some P /\
      (t_init T = Some Done -> p_init P = Some Done) /\
      (t_validate T = Some Done -> p_validate P = Some Done) /\
      (t_commit T = Some Done -> p_commit P = Some Done) /\
      (t_apply T = Some Done -> p_apply P = Some Done) /\
      (t_abort T = Some Done -> p_abort P = Some Done).
  Proof. intros Hr HT Htg Hin. exact (k_agree _ (K_reach _ Hr) _ _ _ _ HT Htg Hin). Qed.

  Lemma listed (w : world) t i (P : prop) (T : txn) tg :
    K w -> props w !! (t, i) = Some P -> txs w !! i = Some T -> t_props T = Some tg -> In t tg.
  Proof.
    intros HK HP HT Htg. destruct (k_exist _ HK _ _ _ HP) as (T0 & HT0 & Hin). rewrite HT in HT0. injection HT0 as <-.
    destruct (k_tp _ HK _ _ _ HT Htg) as [-> _]. exact Hin.
  Qed.

  Lemma reject_static (w : world) t i (P : prop) :
    K w -> props w !! (t, i) = Some P -> p_validate P = Some Failed ->
    (forall T, txs w !! i = Some T -> t_commit T = None) /\
    (forall t' Q, props w !! (t', i) = Some Q -> p_commit Q = None).
  Proof.
    intros HK HP Hf.
    assert (HT : forall T, txs w !! i = Some T -> t_commit T = None).
    { intros T HT. apply eq_None_not_Some. intros Hs.
      pose proof (j_tx _ (k_J _ HK) _ _ HT) as Hwf. destruct (wfb_spec _ _ _ _ _ _ Hwf) as (S1 & S2 & S3 & S4 & S5).
      pose proof (S2 Hs) as Ev. assert (Ei : t_init T = Some Done) by (apply S1; rewrite Ev; eauto).
      destruct (t_props T) as [tg|] eqn:Etg; [|exfalso; apply S5; [reflexivity|exact Ei]].
      pose proof (listed w t i P T tg HK HP HT Etg) as Hin.
      destruct (k_agree _ HK _ _ _ _ HT Etg Hin) as (P0 & HP0 & A1 & A2 & _). rewrite HP in HP0. injection HP0 as <-.
      rewrite (A2 Ev) in Hf. discriminate Hf. }
    split; [exact HT|]. intros t' Q HQ. apply eq_None_not_Some. intros Hs.
    destruct (k_exist _ HK _ _ _ HQ) as (T & HT0 & _).
    destruct (backed_imp (txs w) t' i T Q (j_back _ (k_J _ HK) _ _ HQ) HT0) as (_ & B2 & _).
    apply B2 in Hs. rewrite (HT _ HT0) in Hs. destruct Hs; discriminate.
  Qed.

  Theorem reject_never_commits (w : world) t i (P : prop) (ls : list (@label Ch)) :
    reach w -> props w !! (t, i) = Some P -> p_validate P = Some Failed ->
    let w' := fold_left step ls w in
    (forall t' Q, props w' !! (t', i) = Some Q -> p_commit Q = None) /\
    (forall T, txs w' !! i = Some T ->
       t_commit T = None /\
       (t_validate T = Some Failed ->
          t_state T = TFailed /\ is_Some (t_abort T) /\
          exists t0 P0, props w' !! (t0, i) = Some P0 /\ p_validate P0 = Some Failed /\
                        t_failure T = p_vfail P0 /\ is_Some (p_vfail P0))).
  Proof.
    intros Hr HP Hf w'. destruct (run_mono ls w Hr) as [Hr' (_ & Hm & _)]. fold w' in Hr', Hm.
    destruct (Hm _ _ HP) as (P' & HP' & Hle). destruct Hle as (_ & _ & Hv & _). rewrite Hf in Hv. apply ph_le_failed in Hv.
    pose proof (K_reach _ Hr') as HK. destruct (reject_static w' t i P' HK HP' Hv) as [HT HQ].
    split; [exact HQ|]. intros T HT0. split; [apply HT; exact HT0|]. intros Hvf.
    pose proof (k_tx2 _ HK _ _ HT0) as H2. unfold tx_wf2, twf2b in H2. rewrite Hvf in H2.
    apply andb_prop in H2 as [_ H2]. cbn in H2. apply andb_prop in H2 as [Hst Hab].
    split; [apply bool_decide_eq_true in Hst; exact Hst|]. split; [apply some_is_Some; exact Hab|].
    destruct (k_vfail _ HK _ _ HT0 Hvf) as (t0 & P0 & HP0 & Hpf & Hfl). exists t0, P0. repeat split; auto.
    pose proof (k_pord _ HK _ _ HP0) as Po. apply pordb_spec in Po. destruct Po as (_ & _ & _ & _ & _ & _ & _ & O8).
    apply some_is_Some. exact (O8 Hpf).
  Qed.
End Order.
