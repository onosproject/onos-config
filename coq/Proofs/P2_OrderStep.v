(* Single-step theorems over the v2 protocol model (all worlds, all labels, all oracles, every crash prefix):
     - the committed values of a configuration change only by the Commit of a proposal that is in its Commit phase,
       on top of its predecessor, and become exactly commit_merge of the snapshot (C01);
     - a proposal's validation becomes done only in a step of its own reconciler whose snapshot has the predecessor
       committed, a plugin, an accepting verdict on exactly the candidate built from that snapshot (C05);
     - without plugin / with a rejecting verdict the invocation of a validating proposal has no effect (retry) or the
       single effect that marks the proposal validate-FAILED (C05);
     - at a fixpoint of all reconcilers every transaction has all of its proposals committed or none in Commit (C01). *)
From stdpp Require Import gmap.
From RecordUpdate Require Import RecordUpdate.
From Coq Require Import NArith Lia.
From OC Require Import Model.Proto2 Proofs.P2Base Proofs.P2_Cursor Proofs.P2Phases Proofs.P2_Order.
Open Scope N_scope.

Section Step.
  Context {V Ch Req D : Type}.
  Context (candidate : V -> Ch -> V) (candidate_rb : V -> Ch -> V) (rollback_of : V -> Ch -> Ch)
          (overlay : V -> V -> V) (commit_merge : N -> N -> V -> V -> Ch -> V)
          (payload : N -> V -> Ch -> option Req) (record_applied : N -> N -> V -> V -> V -> Ch -> V)
          (touched : N -> V -> Ch -> V) (restore : V -> V -> V)
          (resync_payload : V -> list (option Req)) (doc_ok : V -> bool)
          (dev_apply : D -> Req -> D) (stamp : N -> Ch -> Ch) (v_empty : V) (d_empty : D) (ch_empty : Ch).

  Notation world := (@world V Ch Req D).
  Notation eff := (@eff V Ch Req).
  Notation txn := (@txn Ch).
  Notation prop := (@prop Ch).
  Notation config := (@config V).
  Notation apply_eff := (@apply_eff V Ch Req D dev_apply d_empty).
  Notation rec_tx := (@rec_tx V Ch Req D stamp).
  Notation rec_prop := (@rec_prop V Ch Req D candidate candidate_rb rollback_of overlay commit_merge payload record_applied
                                  touched restore doc_ok v_empty d_empty ch_empty).
  Notation reconcile := (@reconcile V Ch Req D candidate candidate_rb rollback_of overlay commit_merge payload record_applied
                                    touched restore resync_payload doc_ok stamp v_empty d_empty ch_empty).
  Notation step := (@step V Ch Req D candidate candidate_rb rollback_of overlay commit_merge payload record_applied
                          touched restore resync_payload doc_ok dev_apply stamp v_empty d_empty ch_empty).
  Notation reach := (@reach V Ch Req D candidate candidate_rb rollback_of overlay commit_merge payload record_applied
                            touched restore resync_payload doc_ok dev_apply stamp v_empty d_empty ch_empty).
  Notation inst f := (f candidate candidate_rb rollback_of overlay commit_merge payload record_applied touched restore
                        resync_payload doc_ok dev_apply stamp v_empty d_empty ch_empty).
  Notation view := (@view V overlay).
  Notation vdoc := (@vdoc V Ch Req D candidate candidate_rb rollback_of overlay ch_empty).
  Notation rec_prop_pcase := (@rec_prop_pcase V Ch Req D candidate candidate_rb rollback_of overlay commit_merge payload
                                              record_applied touched restore doc_ok v_empty d_empty ch_empty).
  Notation K_reach := (@K_reach V Ch Req D candidate candidate_rb rollback_of overlay commit_merge payload record_applied
                                touched restore resync_payload doc_ok dev_apply stamp v_empty d_empty ch_empty).

  Definition vcalm (e : eff) : Prop := match e with EPutValues _ _ => False | _ => True end.
  Lemma calm_vcalm e : calm e -> vcalm e.
  Proof. destruct e; cbn; auto. Qed.

  Lemma cv_eff (w : world) e t :
    vcalm e -> is_Some (cfgs w !! t) -> c_values <$> (cfgs (apply_eff w e) !! t) = c_values <$> (cfgs w !! t).
  Proof.
    intros Hv [C HC]. rewrite cfgs_apply_eff.
    destruct e as [| | |t0 c0|t0 c0|t0 v0|t0 v0| | |]; try reflexivity; try destruct Hv.
    - destruct (cfgs w !! t0) eqn:E0; [reflexivity|]. destruct (decide (t0 = t)) as [->|Hne]; [congruence|].
      rewrite lookup_insert_ne by exact Hne. reflexivity.
    - destruct (cfgs w !! t0) eqn:E0; [|reflexivity]. destruct (decide (t0 = t)) as [->|Hne].
      + rewrite lookup_insert, HC. rewrite HC in E0. injection E0 as <-. reflexivity.
      + rewrite lookup_insert_ne by exact Hne. reflexivity.
    - destruct (cfgs w !! t0) eqn:E0; [|reflexivity]. destruct (decide (t0 = t)) as [->|Hne].
      + rewrite lookup_insert, HC. rewrite HC in E0. injection E0 as <-. reflexivity.
      + rewrite lookup_insert_ne by exact Hne. reflexivity.
  Qed.

  Lemma cv_fold t (effs : list eff) : forall w : world, Forall vcalm effs -> is_Some (cfgs w !! t) ->
    c_values <$> (cfgs (fold_left apply_eff effs w) !! t) = c_values <$> (cfgs w !! t).
  Proof.
    induction effs as [|e r IH]; intros w Hf Hs; [reflexivity|]. inversion Hf as [|? ? He Hr]; subst. cbn.
    rewrite IH; [apply cv_eff; assumption|exact Hr|apply cfgs_keep; exact Hs].
  Qed.

  Lemma rec_tx_vcalm (w : world) i : Forall vcalm (fst (rec_tx w i)).
  Proof. apply List.Forall_forall. intros e H. apply rec_tx_eff in H. destruct H; exact I. Qed.

  (* C01 *)
  Theorem values_only_by_commit (w : world) l t (C C' : config) :
    cfgs w !! t = Some C -> cfgs (step w l) !! t = Some C' -> c_values C' <> c_values C ->
    exists i n o (P : prop), l = LRec (CtlProp (t, i)) n o /\ props w !! (t, i) = Some P /\
      p_commit P = Some Doing /\ p_apply P = None /\ p_abort P = None /\ c_committed C = p_prev P /\ (0 < n)%nat /\
      c_values C' = commit_merge (o_order o) i (c_values C) (view C) (rb_change ch_empty P).
  Proof.
    intros HC HC' Hne.
    assert (Hcalm : forall (w1 : world) effs, cfgs w1 !! t = Some C -> Forall vcalm effs ->
                      cfgs (fold_left apply_eff effs w1) !! t = Some C' -> False).
    { intros w1 effs H1 Hf Hx. pose proof (cv_fold t effs w1 Hf (ex_intro _ C H1)) as Hcv.
      rewrite Hx, H1 in Hcv. cbn in Hcv. congruence. }
    destruct (inst step_cases w l) as [(c & n & o & ->)|(Hc & _)]; [|rewrite Hc in HC'; congruence].
    assert (Hv : Forall vcalm (fst (reconcile o w c)) -> False).
    { intros Hf. apply (Hcalm w _ HC (Forall_take _ n _ Hf)). exact HC'. }
    destruct c as [i|k|t0|t0|cc]; cbn [Proto2.step Proto2.reconcile] in HC', Hv.
    - destruct Hv. apply rec_tx_vcalm.
    - pose proof (rec_prop_pcase o w k) as Hpc. remember (fst (rec_prop o w k)) as effs eqn:Heff. clear Heff.
      destruct Hpc as [effs Hf | pre post k' P P' Hf Hf2 HP Hpw Hk | P C0 ci HP HC0 Hc Ha Hab Hcm Hci].
      + destruct Hv. eapply Forall_impl; [exact Hf|]. apply calm_vcalm.
      + destruct Hv. apply Forall_app_2.
        * eapply Forall_impl; [exact Hf|]. apply calm_vcalm.
        * constructor; [exact I|]. eapply Forall_impl; [exact Hf2|]. apply calm_vcalm.
      + destruct n as [|n]; [cbn in HC'; congruence|]. cbn [take fold_left] in HC'.
        destruct k as [t1 i]. cbn [fst snd] in *.
        set (v := commit_merge (o_order o) i (c_values C0) (view C0) (rb_change ch_empty P)) in *.
        destruct (decide (t1 = t)) as [->|Hnt].
        * rewrite HC in HC0. injection HC0 as <-.
          match type of HC' with context [fold_left _ (take n ?l) ?w1] =>
            assert (Hf : Forall vcalm (take n l)) by (apply Forall_take; repeat constructor);
            assert (H1 : cfgs w1 !! t = Some (C <| c_values := v |>)) by (cbn; rewrite HC; cbn; rewrite lookup_insert; reflexivity);
            pose proof (cv_fold t _ _ Hf (ex_intro _ _ H1)) as Hcv
          end.
          rewrite HC', H1 in Hcv. cbn in Hcv. injection Hcv as Hcv.
          exists i, (S n), o, P. apply N.eqb_eq in Hcm. repeat split; auto. lia.
        * exfalso.
          match type of HC' with context [fold_left _ (take n ?l) ?w1] =>
            assert (H1 : cfgs w1 !! t = Some C) by (cbn; rewrite HC0; cbn; rewrite lookup_insert_ne by exact Hnt; exact HC)
          end.
          eapply (Hcalm _ _ H1); [|exact HC']. apply Forall_take. repeat constructor.
    - destruct Hv. eapply Forall_impl; [apply rec_cfg_calm|]. apply calm_vcalm.
    - destruct Hv. eapply Forall_impl; [apply rec_master_calm|]. apply calm_vcalm.
    - destruct Hv. eapply Forall_impl; [apply rec_conn_calm|]. apply calm_vcalm.
  Qed.

  (* C05 *)
  Theorem validated_on_predecessor (w : world) l k (P P' : prop) :
    props w !! k = Some P -> props (step w l) !! k = Some P' -> p_validate P' = Some Done -> p_validate P <> Some Done ->
    exists n o (C : config) cand rbi rbv, l = LRec (CtlProp k) n o /\ cfgs w !! k.1 = Some C /\
      p_validate P = Some Doing /\ p_commit P = None /\ p_apply P = None /\ p_abort P = None /\
      (p_prev P = 0 \/ c_committed C = p_prev P) /\ o_plugin o = true /\ o_verdict o = true /\
      doc_ok cand = true /\ vdoc w k.1 C P cand rbi rbv /\
      P' = P <| p_rbindex := rbi |> <| p_rbvalues := rbv |> <| p_validate := Some Done |>.
  Proof.
    intros HP HP' Hd Hnd.
    apply (inst prop_step) in HP'. destruct HP' as [H|(c & n & o & -> & [Hin|[_ Hn]])]; [congruence| |congruence].
    pose proof Hin as Hw. apply reconcile_prop_write in Hw. destruct Hw as (P0 & HP0 & [(T & -> & _ & _ & Hst)|(t & i & -> & _)]).
    { (* the transaction reconciler only starts phases *)
      exfalso. rewrite HP in HP0. injection HP0 as <-.
      destruct Hst as [(_ & _ & ->)|[(_ & _ & _ & ->)|[(_ & _ & _ & _ & ->)|(_ & _ & _ & _ & _ & ->)]]]; cbn in Hd; congruence. }
    clear P0 HP0. cbn [Proto2.reconcile] in Hin.
    assert (Hnc : forall effs : list eff, Forall calm effs -> In (EPutProp k P') effs -> False).
    { intros effs Hf Hi. rewrite List.Forall_forall in Hf. exact (Hf _ Hi). }
    pose proof (rec_prop_pcase o w (t, i)) as Hpc. remember (fst (rec_prop o w (t, i))) as effs eqn:Heff. clear Heff.
    destruct Hpc as [effs Hf | pre post k' P0 P0' Hf Hf2 HP0 Hpw Hk | P0 C0 ci HP0 HC0 Hc Ha Hab Hcm Hci].
    - exfalso. eauto.
    - apply in_app_or in Hin. destruct Hin as [Hin|[Heq|Hin]]; [exfalso; eauto| |exfalso; eauto]. injection Heq as -> ->.
      rewrite HP in HP0. injection HP0 as <-.
      destruct Hk as [-> | [m ->]]; [|cbn in Hd; congruence].
      destruct Hpw; cbn in Hd; try congruence.
      exists n, o, C, cand, rbi, rbv.
      match goal with H : negb (p_prev _ =? 0) && _ = false |- _ => rename H into Hpre end.
      match goal with H : negb (o_plugin o) = false |- _ => apply negb_false_iff in H end.
      match goal with H : negb (doc_ok cand) = false |- _ => apply negb_false_iff in H end.
      repeat split; auto.
      apply andb_false_iff in Hpre. destruct Hpre as [Hpre|Hpre]; apply negb_false_iff, N.eqb_eq in Hpre; auto.
    - exfalso. destruct Hin as [Heq|[Heq|[Heq|[]]]]; try discriminate Heq. injection Heq as <- <-.
      rewrite HP in HP0. injection HP0 as <-. cbn in Hd. congruence.
  Qed.

  (* C05 *)
  Theorem reject_or_no_plugin_fails (o : oracle) (w : world) t i (P : prop) (C : config) :
    props w !! (t, i) = Some P -> p_apply P = None -> p_abort P = None -> p_commit P = None -> p_validate P = Some Doing ->
    cfgs w !! t = Some C -> negb (p_prev P =? 0) && negb (c_committed C =? p_prev P) = false ->
    o_plugin o = false \/ o_verdict o = false ->
    rec_prop o w (t, i) = ([], RRetry) \/
    exists f, rec_prop o w (t, i) = ([EPutProp (t, i) (P <| p_validate := Some Failed |> <| p_vfail := Some f |>)], RDone) /\
              (o_plugin o = false -> f = FInvalid) /\ (forall ch, p_details P = PChange ch -> f = FInvalid).
  Proof.
    intros HP Ea Eb Ec Ev HC Hpre Hor. unfold Proto2.rec_prop, Proto2.vfail. rewrite HP, Ea, Eb, Ec, Ev, HC, Hpre. cbv zeta.
    destruct (o_plugin o) eqn:Epl; cbn [negb].
    2:{ right. exists FInvalid. auto. }
    destruct Hor as [Hx|Hvd]; [discriminate|]. rewrite Hvd.
    destruct_matches;
      first [ left; reflexivity
            | right; eexists; split; [reflexivity|split; [discriminate|intros; congruence]] ].
  Qed.

  Corollary reject_keeps_cfgs (o : oracle) (w : world) t i (P : prop) (C : config) n :
    props w !! (t, i) = Some P -> p_apply P = None -> p_abort P = None -> p_commit P = None -> p_validate P = Some Doing ->
    cfgs w !! t = Some C -> negb (p_prev P =? 0) && negb (c_committed C =? p_prev P) = false ->
    o_plugin o = false \/ o_verdict o = false ->
    cfgs (step w (LRec (CtlProp (t, i)) n o)) = cfgs w.
  Proof.
    intros HP Ea Eb Ec Ev HC Hpre Hor. cbn [Proto2.step Proto2.reconcile].
    destruct (reject_or_no_plugin_fails o w t i P C HP Ea Eb Ec Ev HC Hpre Hor) as [->|(f & -> & _)]; cbn [fst].
    - destruct n; reflexivity.
    - destruct n as [|[|n]]; reflexivity.
  Qed.

  Lemma all_props_false (w : world) i tg f :
    (forall t, In t tg -> is_Some (props w !! (t, i))) -> all_props w i tg f <> Some true ->
    exists t (p : prop), In t tg /\ props w !! (t, i) = Some p /\ f p = false.
  Proof.
    unfold all_props. induction tg as [|t0 ts IH]; cbn [foldr]; intros Hex Hne; [congruence|].
    destruct (Hex t0 (or_introl eq_refl)) as [p Hp]. destruct (f p) eqn:Ef.
    - destruct IH as (t & p' & Hin & Hp' & Hf').
      + intros t Hin. apply Hex. right. exact Hin.
      + intros Heq. apply Hne. rewrite Heq, Hp, Ef. reflexivity.
      + exists t, p'. repeat split; auto. right. exact Hin.
    - exists t0, p. repeat split; auto. left. reflexivity.
  Qed.

  (* C01 *)
  Theorem all_or_none_at_fixpoint (w : world) :
    reach w -> (forall c o, fst (reconcile o w c) = []) ->
    forall i (T : txn), txs w !! i = Some T ->
      (forall t, In t (default [] (t_props T)) -> exists P, props w !! (t, i) = Some P /\ p_commit P = Some Done) \/
      (forall t P, props w !! (t, i) = Some P -> p_commit P = None).
  Proof.
    intros Hr Hfix i T HT. pose proof (K_reach w Hr) as HK. pose proof (k_J _ HK) as HJ.
    pose proof (j_tx _ HJ _ _ HT) as Hwf. destruct (wfb_spec _ _ _ _ _ _ Hwf) as (S1 & S2 & S3 & S4 & S5).
    assert (Hex : forall t, In t (default [] (t_props T)) -> exists P, props w !! (t, i) = Some P /\ agree T P).
    { intros t Hin. destruct (t_props T) as [tg|] eqn:Etg; [|destruct Hin]. eapply (k_agree _ HK); eauto. }
    destruct (t_commit T) as [[]|] eqn:Ec.
    - (* Doing: impossible at a fixpoint *)
      exfalso.
      assert (Ea : t_apply T = None) by (apply eq_None_not_Some; intros Hs; apply S3 in Hs; discriminate Hs).
      assert (Eb : t_abort T = None) by (apply eq_None_not_Some; intros Hs; apply S4 in Hs; destruct Hs; discriminate).
      pose proof (Hfix (CtlTx i) (mkOracle true true COk 0 0)) as Hf. cbn [Proto2.reconcile] in Hf.
      unfold Proto2.rec_tx in Hf. rewrite HT, Ea, Eb, Ec in Hf. unfold phase_scan in Hf.
      destruct (scan_props w i _ _) as [[u|[t p]]|] eqn:Hscan.
      + destruct (scan_inl _ _ _ _ _ Hscan) as (t & Hin & Hn). destruct (Hex t Hin) as (P & HP & _). congruence.
      + destruct (is_none (p_commit p)); discriminate Hf.
      + destruct (all_props w i _ _) as [[|]|] eqn:Hall; try discriminate Hf.
        all: destruct (all_props_false w i (default [] (t_props T)) (fun p => negb (bool_decide (p_commit p = Some Doing))))
               as (t & p & Hin & Hp & Hnd); [intros t Hin; destruct (Hex t Hin) as (P & HP & _); eauto|congruence|].
        all: apply negb_false_iff, bool_decide_eq_true in Hnd.
        all: pose proof (k_pord _ HK _ _ Hp) as Po; apply pordb_spec in Po; destruct Po as (O1 & O2 & O3 & O4 & _).
        all: assert (Epa : p_apply p = None) by (apply eq_None_not_Some; intros Hs; apply O3 in Hs; congruence).
        all: assert (Epb : p_abort p = None) by (apply eq_None_not_Some; intros Hs; apply O4 in Hs; destruct Hs; congruence).
        all: assert (Epi : p_init p = Some Done) by (apply O1; rewrite (O2 (ex_intro _ _ Hnd)); eauto).
        all: destruct (k_cfg _ HK _ _ _ Hp Epi) as [C HC].
        all: pose proof (Hfix (CtlProp (t, i)) (mkOracle true true COk 0 0)) as Hg; cbn [Proto2.reconcile] in Hg.
        all: unfold Proto2.rec_prop in Hg; rewrite Hp, Epa, Epb, Hnd, HC in Hg; cbv zeta in Hg.
        all: destruct (c_committed C =? p_prev p); discriminate Hg.
    - left. intros t Hin. destruct (Hex t Hin) as (P & HP & _ & _ & A3 & _). eauto.
    - exfalso. pose proof (k_tx2 _ HK _ _ HT) as H2. unfold tx_wf2, twf2b in H2. rewrite Ec in H2. discriminate H2.
    - right. intros t P HP. apply eq_None_not_Some. intros Hs.
      destruct (backed_imp (txs w) t i T P (j_back _ HJ _ _ HP) HT) as (_ & B2 & _).
      apply B2 in Hs. rewrite Ec in Hs. destruct Hs; discriminate.
  Qed.

  (* a transaction with a rejected proposal never alters any committed configuration, now or later *)
  Theorem rejected_never_alters (w : world) t i (P : prop) (ls : list (@label Ch)) l t' (C C' : config) :
    reach w -> props w !! (t, i) = Some P -> p_validate P = Some Failed ->
    cfgs (fold_left step ls w) !! t' = Some C -> cfgs (step (fold_left step ls w) l) !! t' = Some C' ->
    c_values C' <> c_values C ->
    exists j n o, l = LRec (CtlProp (t', j)) n o /\ j <> i.
  Proof.
    intros Hr HP Hf HC HC' Hne.
    destruct (values_only_by_commit _ _ _ _ _ HC HC' Hne) as (j & n & o & Q & -> & HQ & Hc & _).
    exists j, n, o. split; [reflexivity|]. intros ->.
    destruct (reject_never_commits candidate candidate_rb rollback_of overlay commit_merge payload record_applied touched restore
                resync_payload doc_ok dev_apply stamp v_empty d_empty ch_empty w t i P ls Hr HP Hf) as [Hno _].
    rewrite (Hno _ _ HQ) in Hc. discriminate Hc.
  Qed.
End Step.
