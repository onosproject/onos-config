(* C09 - proofs over the queued protocol model Model/Proto2Queue.v (all pure layers):
     - what a delivery does to the queued world, and the induction over queued runs,
     - every queued run is a run of the protocol model: the invariants of Proofs/P2Phases.v hold in every queued world,
     - only controller ids that name a stored record can be enabled,
     - wake-up tokens: a pending id from which an id is reached through re-queue results; the fixed-point theorem
       under the token invariant,
     - the records of transactions and proposals only move forward: every write of the transaction and the proposal
       controller strictly lowers the phase rank of the record it writes. *)
From stdpp Require Import gmap.
From RecordUpdate Require Import RecordUpdate.
From Coq Require Import NArith Lia.
From OC Require Import Model.Proto2 Model.Proto2Queue Proofs.P2Base Proofs.P2_Cursor Proofs.P2Phases.
Open Scope N_scope.

Section Queue.
  Context {V Ch Req D : Type}.
  Context (candidate : V -> Ch -> V) (candidate_rb : V -> Ch -> V) (rollback_of : V -> Ch -> Ch)
          (overlay : V -> V -> V) (commit_merge : N -> N -> V -> V -> Ch -> V)
          (payload : N -> V -> Ch -> option Req) (record_applied : N -> N -> V -> V -> V -> Ch -> V)
          (touched : N -> V -> Ch -> V) (restore : V -> V -> V)
          (resync_payload : V -> list (option Req)) (doc_ok : V -> bool)
          (dev_apply : D -> Req -> D) (stamp : N -> Ch -> Ch) (v_empty : V) (d_empty : D) (ch_empty : Ch).

  Notation world := (@world V Ch Req D).
  Notation eff := (@eff V Ch Req).
  Notation txn := (@txn Ch).
  Notation prop := (@prop Ch).
  Notation qworld := (@qworld V Ch Req D).
  Notation apply_eff := (@apply_eff V Ch Req D dev_apply d_empty).
  Notation rec_tx := (@rec_tx V Ch Req D stamp).
  Notation rec_prop := (@rec_prop V Ch Req D candidate candidate_rb rollback_of overlay commit_merge payload record_applied
                                  touched restore doc_ok v_empty d_empty ch_empty).
  Notation reconcile := (@reconcile V Ch Req D candidate candidate_rb rollback_of overlay commit_merge payload record_applied
                                    touched restore resync_payload doc_ok stamp v_empty d_empty ch_empty).
  Notation step := (@step V Ch Req D candidate candidate_rb rollback_of overlay commit_merge payload record_applied
                          touched restore resync_payload doc_ok dev_apply stamp v_empty d_empty ch_empty).
  Notation reach := (@reach V Ch Req D candidate candidate_rb rollback_of overlay commit_merge payload record_applied
                            touched restore resync_payload doc_ok dev_apply stamp v_empty d_empty ch_empty).
  Notation qstep := (@qstep V Ch Req D candidate candidate_rb rollback_of overlay commit_merge payload record_applied
                            touched restore resync_payload doc_ok dev_apply stamp v_empty d_empty ch_empty).
  Notation qreach := (@qreach V Ch Req D candidate candidate_rb rollback_of overlay commit_merge payload record_applied
                              touched restore resync_payload doc_ok dev_apply stamp v_empty d_empty ch_empty).
  Notation apply_effs := (@apply_effs V Ch Req D dev_apply d_empty).
  Notation wakes := (@wakes V Ch Req D).
  Notation J := (@J V Ch Req D).

  Lemma apply_effs_world (es : list eff) : forall w : world, fst (apply_effs w es) = fold_left apply_eff es w.
  Proof.
    induction es as [|e r IH]; intros w; cbn; [reflexivity|].
    specialize (IH (apply_eff w e)). destruct (apply_effs (apply_eff w e) r) as [w' q]. cbn in *. exact IH.
  Qed.

  Lemma remove_nth_keeps {A} (l : list A) : forall n c x, nth_error l n = Some c -> In x l -> x <> c -> In x (remove_nth n l).
  Proof.
    induction l as [|a l IH]; intros n c x Hn Hin Hne; [destruct Hin|].
    destruct n as [|n]; cbn in *.
    - injection Hn as ->. destruct Hin as [->|Hin]; [destruct (Hne eq_refl)|exact Hin].
    - destruct Hin as [->|Hin]; [left; reflexivity|right; eapply IH; eassumption].
  Qed.

  (* the delivery of the n-th pending id [c] applies the whole reconcile of [c]; every other pending id stays pending,
     the ids the watchers map the writes to and the ids of the re-queue result become pending *)
  Lemma deliver_shape (s : qworld) n o c :
    nth_error (queue s) n = Some c ->
    qw (qstep s (QDeliver n o)) = fold_left apply_eff (fst (reconcile o (qw s) c)) (qw s) /\
    (forall x, In x (queue s) -> c <> x -> In x (queue (qstep s (QDeliver n o)))) /\
    (forall x, In x (snd (apply_effs (qw s) (fst (reconcile o (qw s) c)))) -> In x (queue (qstep s (QDeliver n o)))) /\
    (forall x, In x (requeue c (snd (reconcile o (qw s) c))) -> In x (queue (qstep s (QDeliver n o)))).
  Proof.
    intros Hn. cbn [Proto2Queue.qstep]. rewrite Hn.
    destruct (reconcile o (qw s) c) as [es r]. cbn [fst snd]. pose proof (apply_effs_world es (qw s)) as Hw.
    destruct (apply_effs (qw s) es) as [w' q]. cbn in *. split; [exact Hw|].
    split; [|split]; intros x Hx; rewrite !in_app_iff; [intros Hne; left; eapply remove_nth_keeps; eauto|auto..].
  Qed.

  Lemma ctrl_dec (x y : ctrl) : {x = y} + {x <> y}.
  Proof. repeat decide equality. Qed.

  Lemma deliver_is_step (s : qworld) n o c :
    nth_error (queue s) n = Some c ->
    qw (qstep s (QDeliver n o)) = step (qw s) (LRec c (length (fst (reconcile o (qw s) c))) o).
  Proof. intros Hn. rewrite (proj1 (deliver_shape s n o c Hn)). cbn [Proto2.step]. rewrite firstn_all. reflexivity. Qed.

  Lemma qreach_step (s : qworld) l : qreach s -> qreach (qstep s l).
  Proof. intros [ls ->]. exists (ls ++ [l]). unfold Proto2Queue.qrun. rewrite fold_left_app. reflexivity. Qed.

  Definition env_label (l : @label Ch) : Prop := match l with LRec _ _ _ => False | _ => True end.

  (* a property of all reachable queued worlds: deliveries of a pending id, and the environment labels that do not stutter *)
  Lemma qreach_ind (Inv : qworld -> Prop) :
    Inv qinit ->
    (forall s n o c, qreach s -> Inv s -> nth_error (queue s) n = Some c -> Inv (qstep s (QDeliver n o))) ->
    (forall s l, qreach s -> Inv s -> env_label l -> Inv (mkQW (step (qw s) l) (queue s ++ env_wakes (qw s) l))) ->
    forall s, qreach s -> Inv s.
  Proof.
    intros H0 Hd He s [ls ->]. induction ls as [|l ls IH] using rev_ind; [exact H0|].
    unfold Proto2Queue.qrun in *. rewrite fold_left_app. cbn [fold_left].
    assert (Hq : qreach (fold_left qstep ls qinit)) by (exists ls; reflexivity).
    destruct l as [n o|l].
    - destruct (nth_error (queue (fold_left qstep ls qinit)) n) as [c|] eqn:Hn.
      + apply Hd with (c := c); assumption.
      + cbn [Proto2Queue.qstep]. rewrite Hn. exact IH.
    - destruct l; first [exact IH | refine (He _ _ Hq IH _); exact I].
  Qed.

  Lemma qreach_reach (s : qworld) : qreach s -> reach (qw s).
  Proof.
    revert s. apply qreach_ind.
    - apply reach_init.
    - intros s n o c _ IH Hn. rewrite (deliver_is_step s n o c Hn). apply reach_step. exact IH.
    - intros s l _ IH _. apply reach_step. exact IH.
  Qed.

  Lemma qreach_J (s : qworld) : qreach s -> J (qw s).
  Proof.
    intros H. eapply J_reach. apply qreach_reach. exact H.
  Qed.

  Lemma in_keys {K A} `{Countable K} (m : gmap K A) (f : K -> ctrl) k a :
    m !! k = Some a -> In (f k) (map (fun kv => f (fst kv)) (map_to_list m)).
  Proof.
    intros Hk. apply in_map_iff. exists (k, a). split; [reflexivity|].
    apply elem_of_list_In. apply elem_of_map_to_list. exact Hk.
  Qed.

  Lemma enabled_stored (o : oracle) (w : world) (c : ctrl) :
    fst (reconcile o w c) <> [] -> In c (all_ctrls w).
  Proof.
    unfold all_ctrls. rewrite !in_app_iff. intros He. destruct c as [i|k|t|t|c]; cbn [Proto2.reconcile] in He.
    - unfold Proto2.rec_tx in He. destruct (txs w !! i) as [T|] eqn:E; [|contradiction].
      pose proof (in_keys (txs w) CtlTx _ _ E). auto 7.
    - unfold Proto2.rec_prop in He. destruct k as [t i]. destruct (props w !! (t, i)) as [P|] eqn:E; [|contradiction].
      pose proof (in_keys (props w) CtlProp _ _ E). auto 7.
    - unfold Proto2.rec_cfg in He. destruct (cfgs w !! t) as [C|] eqn:E; [|contradiction].
      pose proof (in_keys (cfgs w) CtlCfg _ _ E). auto 7.
    - unfold Proto2.rec_master in He. destruct (cfgs w !! t) as [C|] eqn:E; [|contradiction].
      pose proof (in_keys (cfgs w) CtlMaster _ _ E). auto 7.
    - unfold Proto2.rec_conn in He. destruct (conns w !! c) as [t|] eqn:E.
      + pose proof (in_keys (conns w) CtlConn _ _ E). auto 7.
      + destruct (rels w !! c) as [r|] eqn:E2; [|contradiction]. pose proof (in_keys (rels w) CtlConn _ _ E2). auto 7.
  Qed.

  Definition hands_over (w : world) (c c' : ctrl) : Prop :=
    exists o, fst (reconcile o w c) = [] /\
              In c' (requeue c (snd (reconcile o w c))).
  Inductive leads_to (w : world) : ctrl -> ctrl -> Prop :=
  | lt_refl c : leads_to w c c
  | lt_step c c' c'' : hands_over w c c' -> leads_to w c' c'' -> leads_to w c c''.
  Definition covered (s : qworld) (c : ctrl) : Prop := exists c0, In c0 (queue s) /\ leads_to (qw s) c0 c.
  (* the token invariant: every enabled controller id is covered *)
  Definition tokens (s : qworld) : Prop := forall c o, fst (reconcile o (qw s) c) <> [] -> covered s c.

  Theorem fixpoint_of_tokens (s : qworld) :
    tokens s -> idle s = true -> forall c o, fst (reconcile o (qw s) c) = [].
  Proof.
    intros Ht Hi c o. destruct (fst (reconcile o (qw s) c)) as [|e r] eqn:E; [reflexivity|exfalso].
    destruct (Ht c o) as (c0 & Hin & _); [rewrite E; discriminate|].
    unfold idle in Hi. destruct (queue s); [destruct Hin|discriminate].
  Qed.

  (* the ids a write is guaranteed to put into the work set: the controller of the written record, the transaction of a
     written proposal, and for a configuration the proposal, configuration and mastership controllers *)
  Definition owners (e : eff) : list ctrl :=
    match e with
    | EPutTx i _ => [CtlTx i]
    | EPutProp k _ => [CtlTx (snd k); CtlProp k]
    | EPutCfg t c => [CtlProp (t, c_index c); CtlProp (t, c_applied c); CtlProp (t, c_proposed c); CtlCfg t; CtlMaster t]
    | _ => []
    end.
  (* the entry write of a configuration happens only when the configuration exists *)
  Definition lands (w : world) (e : eff) : Prop :=
    match e with EPutCfg t _ => is_Some (cfgs w !! t) | _ => True end.

  Lemma wakes_owners (w : world) (e : eff) c : lands w e -> In c (owners e) -> In c (wakes w e).
  Proof.
    destruct e as [i T|k P|k P|t c0|t c0|t v|t v|c0 t|c0|ev]; cbn [owners lands Proto2Queue.wakes]; intros Hl Hin;
      try (destruct Hin; fail).
    - unfold tx_wakes. destruct Hin as [<-|[]]. left. reflexivity.
    - exact Hin.
    - destruct Hl as [c1 Hc]. rewrite Hc. unfold cfg_wakes. rewrite !in_app_iff. cbn [In] in *.
      repeat destruct Hin as [Hin|Hin]; auto 8.
  Qed.

  Lemma cfg_stays (w : world) (e : eff) t : is_Some (cfgs w !! t) -> is_Some (cfgs (apply_eff w e) !! t).
  Proof.
    intros Hs. rewrite cfgs_apply_eff.
    destruct e as [i T|k P|k P|t0 c0|t0 c0|t0 v|t0 v|c0 t0|c0|ev]; try exact Hs;
      destruct (cfgs w !! t0) eqn:E; try exact Hs;
      (destruct (decide (t0 = t)) as [->|Hne]; [rewrite lookup_insert; eexists; reflexivity|rewrite lookup_insert_ne by exact Hne; exact Hs]).
  Qed.

  Lemma lands_stays (w : world) (e0 e : eff) : lands w e -> lands (apply_eff w e0) e.
  Proof. destruct e; cbn [lands]; try (intros; exact I). apply cfg_stays. Qed.

  Lemma apply_effs_owners (es : list eff) : forall (w : world) e c,
    In e es -> lands w e -> In c (owners e) -> In c (snd (apply_effs w es)).
  Proof.
    induction es as [|e0 r IH]; intros w e c Hin Hl Hc; [destruct Hin|].
    cbn. destruct (apply_effs (apply_eff w e0) r) as [w' q] eqn:E. cbn.
    apply in_or_app. destruct Hin as [->|Hin].
    - left. apply wakes_owners; assumption.
    - right. specialize (IH (apply_eff w e0) e c Hin (lands_stays w e0 e Hl) Hc). rewrite E in IH. exact IH.
  Qed.

  Theorem delivery_wakes_owners (s : qworld) n o c0 e c :
    nth_error (queue s) n = Some c0 -> In e (fst (reconcile o (qw s) c0)) -> lands (qw s) e -> In c (owners e) ->
    In c (queue (qstep s (QDeliver n o))).
  Proof.
    intros Hn Hin Hl Hc. destruct (deliver_shape s n o c0 Hn) as (_ & _ & Hwk & _). apply Hwk.
    eapply apply_effs_owners; eassumption.
  Qed.

  Definition rk (o : option ph) : nat := match o with None => 2 | Some Doing => 1 | Some _ => 0 end%nat.
  Definition mt (T : txn) : nat :=
    (rk (t_init T) + rk (t_validate T) + rk (t_commit T) + rk (t_apply T) + rk (t_abort T) + (if is_none (t_props T) then 1 else 0))%nat.
  Definition mp (P : prop) : nat :=
    (rk (p_init P) + rk (p_validate P) + rk (p_commit P) + rk (p_apply P) + rk (p_abort P)
     + (if N.eqb (p_prev P) 0 then 1 else 0) + (if N.eqb (p_next P) 0 then 1 else 0))%nat.

  Definition forward (w : world) (e : eff) : Prop :=
    match e with
    | EPutTx i T' => exists T, txs w !! i = Some T /\ (mt T' < mt T)%nat
    | EPutProp k P' => exists P, props w !! k = Some P /\ (mp P' < mp P)%nat
    | _ => True
    end.

  (* what a write of the transaction reconciler to its own record keeps: the isolation flag, the list of targets once it
     is set, and the state unless a phase after Initialize has started or Initialize fails *)
  Definition keeps (T T' : txn) : Prop :=
    t_serializable T' = t_serializable T /\ (t_props T = None \/ t_props T' = t_props T) /\
    (t_state T' = t_state T \/ t_init T' = Some Failed \/
     is_Some (t_validate T) \/ is_Some (t_commit T) \/ is_Some (t_apply T)).
  Definition tx_next (T T' : txn) : Prop := (mt T' < mt T)%nat /\ keeps T T'.

  Inductive tx_out (w : world) (i : N) (T : txn) : list eff -> Prop :=
  | to_nil : tx_out w i T []
  | to_prop t (p p' : prop) : props w !! (t, i) = Some p -> (mp p' < mp p)%nat -> tx_out w i T [EPutProp (t, i) p']
  | to_tx l T' : (forall e, In e l -> exists k p, e = ECreateProp k p) -> tx_next T T' -> tx_out w i T (l ++ [EPutTx i T']).

  Lemma to_tx1 (w : world) i (T T' : txn) : tx_next T T' -> tx_out w i T [EPutTx i T'].
  Proof. apply (to_tx w i T []). intros e []. Qed.

  Lemma phase_scan_out (w : world) i (T : txn) tg get start stop on_failed on_all_done :
    (forall p, get p = None -> (mp (start p) < mp p)%nat) ->
    (stop = true -> forall p, tx_next T (on_failed p)) -> tx_next T on_all_done ->
    tx_out w i T (fst (phase_scan w i T tg get start stop on_failed on_all_done)).
  Proof.
    intros Hs Hf Hd. apply phase_scan_cases; [apply to_nil| | |intros _; apply to_tx1, Hd].
    - intros t p _ Hp Hg. apply (to_prop w i T t p); auto.
    - intros t p _ _ Hst _. apply to_tx1, Hf, Hst.
  Qed.

  Lemma gate_out (w : world) i (T : txn) tg need next r : tx_next T next -> tx_out w i T (fst (gate w i T tg need next r)).
  Proof.
    intros Hm. apply gate_cases; [apply to_nil|apply to_tx1, Hm].
  Qed.

  Lemma create_out (w : world) i (T T' : txn) l : tx_next T T' -> tx_out w i T (create_props w i l ++ [EPutTx i T']).
  Proof.
    intros Hm. apply to_tx; [|exact Hm]. intros e He. apply in_flat_map in He. destruct He as (x & _ & Hx).
    destruct (props w !! (x.1, i)); [destruct Hx|destruct Hx as [<-|[]]; eauto].
  Qed.

  Ltac next_tac T :=
    split;
    [ unfold mt; cbn [t_init t_validate t_commit t_apply t_abort t_props t_state t_failure t_details set];
      repeat match goal with H : _ T = _ |- _ => rewrite H end; cbn [rk is_none]; lia
    | unfold keeps, is_Some; cbn [t_serializable t_props t_state t_init t_validate t_commit t_apply t_abort t_details t_failure set];
      repeat split; eauto 7 ].
  Ltac mp_start :=
    let p := fresh "p" in let Hg := fresh "Hg" in
    intros p Hg; unfold mp; cbn [p_init p_validate p_commit p_apply p_abort p_prev p_next set]; rewrite Hg; cbn; lia.

  Lemma rec_tx_out (w : world) i (T : txn) : txs w !! i = Some T -> tx_out w i T (fst (rec_tx w i)).
  Proof.
    intros HT. unfold Proto2.rec_tx, fail_init. rewrite HT.
    destruct (t_apply T) as [a|] eqn:Ea.
    { destruct a; try apply to_nil.
      destruct (scan_props w i _ (fun p => is_none (p_apply p))) as [[u|[t p]]|] eqn:Hscan.
      - apply to_nil.
      - apply scan_props_inr in Hscan. destruct Hscan as [Hp Hn]. apply (to_prop w i T t p); [exact Hp|].
        unfold mp. cbn [p_init p_validate p_commit p_apply p_abort p_prev p_next set].
        destruct (p_apply p); [discriminate|]. cbn. lia.
      - apply phase_scan_out; [mp_start|intros _ p; next_tac T|next_tac T]. }
    destruct (t_abort T) as [ab|] eqn:Eb.
    { destruct ab; try apply to_nil. apply phase_scan_out; [mp_start|discriminate|next_tac T]. }
    destruct (t_commit T) as [c|] eqn:Ec.
    { destruct c; try apply to_nil.
      - apply phase_scan_out; [mp_start|discriminate|next_tac T].
      - apply gate_out. next_tac T. }
    destruct (t_validate T) as [v|] eqn:Ev.
    { destruct v; try apply to_nil.
      - apply phase_scan_out; [mp_start|intros _ p; next_tac T|next_tac T].
      - apply gate_out. next_tac T. }
    destruct (t_init T) as [ini|] eqn:Ei; [|apply to_tx1; next_tac T].
    destruct ini; try apply to_nil; [|apply gate_out; next_tac T].
    destruct (match txs w !! (i - 1) with Some P => _ | None => false end); [apply to_nil|].
    destruct (t_props T) as [tg'|] eqn:Ep.
    - destruct (all_props w i tg' _) as [[|]|]; try apply to_nil. apply to_tx1. next_tac T.
    - destruct (t_details T) as [chs|ri] eqn:Ed; [apply create_out; next_tac T|].
      destruct (txs w !! ri) as [R|]; [destruct (t_details R)|]; cbn [fst];
        first [apply create_out | apply to_tx1]; next_tac T.
  Qed.

  Lemma tx_out_puttx (w : world) i (T : txn) es j T' :
    tx_out w i T es -> In (EPutTx j T') es -> j = i /\ tx_next T T' /\ forall k p, ~ In (EPutProp k p) es.
  Proof.
    intros [|t p p' _ _|l T'' Hl Hn] Hin.
    - destruct Hin.
    - destruct Hin as [H|[]]. discriminate.
    - assert (Hno : forall e, In e (l ++ [EPutTx i T'']) -> e = EPutTx i T'' \/ exists k p, e = ECreateProp k p).
      { intros e He. apply in_app_or in He. destruct He as [He|[<-|[]]]; auto. }
      destruct (Hno _ Hin) as [[= -> ->]|(k & p & H)]; [|discriminate].
      split; [reflexivity|]. split; [exact Hn|]. intros k p Hk. destruct (Hno _ Hk) as [H|(k' & p' & H)]; discriminate.
  Qed.

  (* a transaction reconcile that writes anything wakes its own id *)
  Lemma tx_out_wakes (w : world) i (T : txn) es :
    tx_out w i T es -> es <> [] -> exists e, In e es /\ lands w e /\ In (CtlTx i) (owners e).
  Proof.
    intros [|t p p' _ _|l T' _ _] Hne.
    - destruct (Hne eq_refl).
    - eexists. split; [left; reflexivity|]. split; [exact I|left; reflexivity].
    - eexists. split; [apply in_or_app; right; left; reflexivity|]. split; [exact I|left; reflexivity].
  Qed.

  Lemma rec_tx_forward (w : world) i : Forall (forward w) (fst (rec_tx w i)).
  Proof.
    destruct (txs w !! i) as [T|] eqn:HT; [|unfold Proto2.rec_tx; rewrite HT; apply Forall_nil_2].
    destruct (rec_tx_out w i T HT) as [|t p p' Hp Hm|l T' Hl [Hm _]].
    - apply Forall_nil_2.
    - apply Forall_cons_2; [|apply Forall_nil_2]. exists p. auto.
    - apply Forall_app_2; [|apply Forall_cons_2; [|apply Forall_nil_2]; exists T; auto].
      apply List.Forall_forall. intros e He. destruct (Hl e He) as (k & p & ->). exact I.
  Qed.

  Lemma prop_write_mp (w : world) t i k (P P' : prop) : prop_write w t i k P P' -> (mp P' < mp P)%nat.
  Proof.
    intros Hw. destruct Hw; unfold mp;
      cbn [p_init p_validate p_commit p_apply p_abort p_prev p_next p_details p_rbindex p_rbvalues p_vfail p_afail p_term set];
      repeat match goal with H : _ = _ |- _ => rewrite H end; cbn;
      first [ lia | repeat match goal with |- context [?a =? 0] => destruct (N.eqb_spec a 0) end; lia ].
  Qed.

  Lemma rec_prop_forward (o : oracle) (w : world) k : Forall (forward w) (fst (rec_prop o w k)).
  Proof.
    apply List.Forall_forall. intros e He. destruct k as [t i]. apply rec_prop_eff in He.
    destruct He as [| | | | |k P P' HP Hw]; try exact I. exists P. split; [exact HP|]. exact (prop_write_mp _ _ _ _ _ _ Hw).
  Qed.

  Theorem records_move_forward (o : oracle) (w : world) (c : ctrl) :
    (match c with CtlTx _ | CtlProp _ => True | _ => False end) ->
    Forall (forward w) (fst (reconcile o w c)).
  Proof.
    destruct c as [i|k|t|t|cc]; intros Hc; try destruct Hc; cbn [Proto2.reconcile].
    - apply rec_tx_forward.
    - apply rec_prop_forward.
  Qed.

  (* the rank of a record is bounded: a record is written at most 11 (transaction) / 12 (proposal) times by these controllers *)
  Lemma rk_le (o : option ph) : (rk o <= 2)%nat.
  Proof. destruct o as [[]|]; cbn; lia. Qed.
  Lemma mt_bound (T : txn) : (mt T <= 11)%nat.
  Proof.
    unfold mt. pose proof (rk_le (t_init T)). pose proof (rk_le (t_validate T)). pose proof (rk_le (t_commit T)).
    pose proof (rk_le (t_apply T)). pose proof (rk_le (t_abort T)). destruct (is_none (t_props T)); lia.
  Qed.
  Lemma mp_bound (P : prop) : (mp P <= 12)%nat.
  Proof.
    unfold mp. pose proof (rk_le (p_init P)). pose proof (rk_le (p_validate P)). pose proof (rk_le (p_commit P)).
    pose proof (rk_le (p_apply P)). pose proof (rk_le (p_abort P)). destruct (p_prev P =? 0), (p_next P =? 0); lia.
  Qed.
End Queue.
