(* C09 - the cross-record wait (a) of the token invariant, proved for every reachable queued world:
   a transaction i that is INITIALIZING and enabled is pending, or its predecessor i-1 is INITIALIZED and has not started
   its validation yet (it is parked at, or about to pass, the validate gate - and the write that passes the gate returns
   Requeue{i}); and wait (b): an enabled transaction at one of the three gates is pending; then the fixed-point theorem
   with the token hypothesis only for the other ids, which leaves one residue: at an idle world an INITIALIZING
   transaction may be enabled and not pending while its predecessor sits at a closed validate gate
   [parked_behind_gate].  Uses the invariants proved for every reachable world of
   Model/Proto2.v (J, K, T_inv, C_inv), lifted along "queued runs are runs". *)
From stdpp Require Import gmap.
From RecordUpdate Require Import RecordUpdate.
From Coq Require Import NArith Lia.
From OC Require Import Model.Proto2 Model.Proto2Queue Proofs.P2Base Proofs.P2Phases Proofs.P2_Order Proofs.P2_Cursor
     Proofs.P2_CursorInv Proofs.P2_CursorLink Proofs.P2_CursorChainInv Proofs.P2_Queue.
Open Scope N_scope.

Section WaitA.
  Context {V Ch Req D : Type}.
  Context (candidate : V -> Ch -> V) (candidate_rb : V -> Ch -> V) (rollback_of : V -> Ch -> Ch)
          (overlay : V -> V -> V) (commit_merge : N -> N -> V -> V -> Ch -> V)
          (payload : N -> V -> Ch -> option Req) (record_applied : N -> N -> V -> V -> V -> Ch -> V)
          (touched : N -> V -> Ch -> V) (restore : V -> V -> V)
          (resync_payload : V -> list (option Req)) (doc_ok : V -> bool)
          (dev_apply : D -> Req -> D) (stamp : N -> Ch -> Ch) (v_empty : V) (d_empty : D) (ch_empty : Ch).

  Notation world := (@world V Ch Req D).
  Notation eff := (@eff V Ch Req).
  Notation txn := (@txn Ch).
  Notation prop := (@prop Ch).
  Notation qworld := (@qworld V Ch Req D).
  Notation apply_eff := (@apply_eff V Ch Req D dev_apply d_empty).
  Notation rec_tx := (@rec_tx V Ch Req D stamp).
  Notation reconcile := (@reconcile V Ch Req D candidate candidate_rb rollback_of overlay commit_merge payload record_applied
                                    touched restore resync_payload doc_ok stamp v_empty d_empty ch_empty).
  Notation step := (@step V Ch Req D candidate candidate_rb rollback_of overlay commit_merge payload record_applied
                          touched restore resync_payload doc_ok dev_apply stamp v_empty d_empty ch_empty).
  Notation reach := (@reach V Ch Req D candidate candidate_rb rollback_of overlay commit_merge payload record_applied
                            touched restore resync_payload doc_ok dev_apply stamp v_empty d_empty ch_empty).
  Notation qstep := (@qstep V Ch Req D candidate candidate_rb rollback_of overlay commit_merge payload record_applied
                            touched restore resync_payload doc_ok dev_apply stamp v_empty d_empty ch_empty).
  Notation qreach := (@qreach V Ch Req D candidate candidate_rb rollback_of overlay commit_merge payload record_applied
                              touched restore resync_payload doc_ok dev_apply stamp v_empty d_empty ch_empty).
  Notation apply_effs := (@apply_effs V Ch Req D dev_apply d_empty).
  Notation inst f := (f candidate candidate_rb rollback_of overlay commit_merge payload record_applied touched restore
                        resync_payload doc_ok dev_apply stamp v_empty d_empty ch_empty).

  Lemma qreach_invs (s : qworld) : qreach s -> reach (qw s) /\ P2_Order.K (qw s) /\ T_inv (qw s) /\ C_inv (qw s).
  Proof.
    intros Hq. pose proof (inst qreach_reach _ Hq) as Hr. split; [exact Hr|]. split; [exact (inst P2_Order.K_reach _ Hr)|].
    split; [exact (inst T_inv_reach _ Hr)|exact (inst C_inv_reach _ Hr)].
  Qed.

  Definition others_none (T : txn) : Prop :=
    t_validate T = None /\ t_commit T = None /\ t_apply T = None /\ t_abort T = None.
  Definition at_init_gate (T : txn) : Prop := t_init T = Some Done /\ others_none T.
  Definition tx_enabled (w : world) (i : N) : Prop := fst (rec_tx w i) <> [].

  Definition wait_a (s : qworld) : Prop :=
    forall i T, txs (qw s) !! i = Some T -> t_init T = Some Doing -> tx_enabled (qw s) i ->
                In (CtlTx i) (queue s) \/ exists P, txs (qw s) !! (i - 1) = Some P /\ at_init_gate P.

  (** * What the INITIALIZING branch of the transaction reconciler depends on *)
  Definition blocks (w : world) (i : N) : bool :=
    match txs w !! (i - 1) with
    | Some P => is_none (t_init P) || bool_decide (t_init P = Some Doing)
    | None => false
    end.
  Definition ready (w : world) (i : N) (T : txn) : bool :=
    match t_props T with
    | None => true
    | Some tg => match all_props w i tg (fun p => negb (is_none (p_init p) || bool_decide (p_init p = Some Doing))) with
                 | Some true => true
                 | _ => false
                 end
    end.

  Lemma early_others_none (w : world) i (T : txn) :
    reach w -> txs w !! i = Some T -> t_init T = None \/ t_init T = Some Doing -> others_none T.
  Proof.
    intros Hr HT Hi. pose proof (inst P2_Order.K_reach _ Hr) as HK. pose proof (inst T_inv_reach _ Hr) as HTI.
    pose proof (j_tx _ (P2_Order.k_J _ HK) _ _ HT) as Hwf. unfold tx_wf, wfb, imp, P2Phases.some, P2Phases.is_ph in Hwf.
    assert (Hab : t_abort T = None).
    { destruct (t_abort T) as [ab|] eqn:E; [|reflexivity].
      assert (Hp : past_init T) by (apply (ti_abort _ HTI _ _ HT); rewrite E; eexists; reflexivity).
      destruct Hp as [Hp|Hp]; destruct Hi as [Hi|Hi]; congruence. }
    unfold others_none. rewrite Hab.
    destruct Hi as [Hi|Hi]; rewrite Hi in Hwf;
      destruct (t_validate T) as [[]|], (t_commit T) as [[]|], (t_apply T) as [[]|]; cbn in Hwf; try discriminate; auto.
  Qed.

  Ltac open_tx HT Hi Ho :=
    unfold Proto2.rec_tx; rewrite HT;
    let Hv := fresh "Hv" in let Hc := fresh "Hc" in let Ha := fresh "Ha" in let Hab := fresh "Hab" in
    destruct Ho as (Hv & Hc & Ha & Hab); rewrite Ha, Hab, Hc, Hv, Hi; cbv zeta.

  Lemma init_enabled (w : world) i (T : txn) :
    txs w !! i = Some T -> t_init T = Some Doing -> others_none T ->
    (tx_enabled w i <-> blocks w i = false /\ ready w i T = true).
  Proof.
    intros HT Hi Ho. unfold tx_enabled, blocks, ready. open_tx HT Hi Ho.
    destruct (match txs w !! (i - 1) with Some P => _ | None => false end) eqn:Eb.
    - cbn. split; [intros H; destruct (H eq_refl)|intros [H _]; discriminate].
    - destruct (t_props T) as [tg|] eqn:Ep.
      + destruct (all_props w i tg _) as [[|]|]; cbn; split; try (intros H; destruct (H eq_refl)); try (intros [_ H]; discriminate);
          intros _; try (split; reflexivity); discriminate.
      + split; [intros _; split; reflexivity|intros _].
        destruct (t_details T) as [chs|ri].
        * cbn [fst]. apply not_eq_sym, app_cons_not_nil.
        * destruct (txs w !! ri) as [R|]; [destruct (t_details R)|]; cbn [fst]; unfold fail_init;
            try apply not_eq_sym, app_cons_not_nil; discriminate.
  Qed.

  Lemma init_writes (w : world) j (P : txn) j' (P' : txn) :
    txs w !! j = Some P -> t_init P = None \/ t_init P = Some Doing -> others_none P ->
    In (EPutTx j' P') (fst (rec_tx w j)) ->
    t_init P' = Some Doing \/ (t_init P' = Some Failed /\ snd (rec_tx w j) = RRequeueTx (j + 1)) \/ at_init_gate P'.
  Proof.
    intros HP Hi Ho. destruct Hi as [Hi|Hi].
    - open_tx HP Hi Ho. cbn. intros [[= <- <-]|[]]. left. reflexivity.
    - pose proof Ho as Ho'. open_tx HP Hi Ho.
      destruct (match txs w !! (j - 1) with Some P0 => _ | None => false end); [cbn; intros []|].
      destruct (t_props P) as [tg|] eqn:Ep.
      + destruct (all_props w j tg _) as [[|]|]; cbn; [|intros []|intros []]. intros [[= <- <-]|[]].
        right. right. split; [reflexivity|]. exact Ho'.
      + assert (Hcp : forall l (e : eff), In (EPutTx j' P') (create_props w j l ++ [e]) -> e = EPutTx j' P').
        { intros l e Hin. apply in_app_or in Hin. destruct Hin as [Hin|[<-|[]]]; [|reflexivity].
          apply create_props_in in Hin. destruct Hin as (x & _ & [=]). }
        destruct (t_details P) as [chs|ri].
        * cbn [fst]. intros Hin. apply Hcp in Hin. injection Hin as <- <-. left. exact Hi.
        * destruct (txs w !! ri) as [R|]; [destruct (t_details R)|]; cbn [fst snd]; unfold fail_init.
          -- intros Hin. apply Hcp in Hin. injection Hin as <- <-. left. exact Hi.
          -- intros [[= <- <-]|[]]. right. left. split; reflexivity.
          -- intros [[= <- <-]|[]]. right. left. split; reflexivity.
  Qed.

  Lemma gate_requeues (w : world) j (P : txn) :
    txs w !! j = Some P -> at_init_gate P -> fst (rec_tx w j) = [] \/ snd (rec_tx w j) = RRequeueTx (j + 1).
  Proof.
    intros HP [Hi Ho]. open_tx HP Hi Ho. unfold gate.
    destruct (all_props w j _ _); [|left; reflexivity].
    destruct (blocked_by_prev w j _ 1); [left; reflexivity|right; reflexivity].
  Qed.

  Lemma all_props_ext (w w' : world) i tg f :
    (forall t, props w' !! (t, i) = props w !! (t, i)) -> all_props w' i tg f = all_props w i tg f.
  Proof. intros H. unfold all_props. induction tg as [|t tg IH]; cbn; [reflexivity|]. rewrite IH, H. reflexivity. Qed.

  Lemma ready_ext (w w' : world) i T :
    (forall t, props w' !! (t, i) = props w !! (t, i)) -> ready w' i T = ready w i T.
  Proof. intros H. unfold ready. destruct (t_props T); [|reflexivity]. rewrite (all_props_ext _ _ _ _ _ H). reflexivity. Qed.

  Lemma deliver_tx (s : qworld) n o c j T' :
    nth_error (queue s) n = Some c -> txs (qw (qstep s (QDeliver n o))) !! j = Some T' ->
    txs (qw s) !! j = Some T' \/ (c = CtlTx j /\ In (EPutTx j T') (fst (rec_tx (qw s) j))).
  Proof.
    intros Hn H. rewrite (inst deliver_is_step s n o c Hn) in H. cbn [Proto2.step] in H. apply tx_prefix in H.
    destruct H as [H|H]; [left; exact H|right]. pose proof H as Hc. apply puttx_writer in Hc. subst c. auto.
  Qed.

  Lemma deliver_tx_post (s : qworld) n o c j T :
    nth_error (queue s) n = Some c -> txs (qw s) !! j = Some T ->
    exists T', txs (qw (qstep s (QDeliver n o))) !! j = Some T' /\
               (T' = T \/ (c = CtlTx j /\ In (EPutTx j T') (fst (rec_tx (qw s) j)))).
  Proof.
    intros Hn HT. assert (Hk : is_Some (txs (qw (qstep s (QDeliver n o))) !! j)).
    { rewrite (inst deliver_is_step s n o c Hn). apply tx_step_keep. rewrite HT. eexists. reflexivity. }
    destruct Hk as [T' HT']. exists T'. split; [exact HT'|].
    destruct (deliver_tx s n o c j T' Hn HT') as [H|H]; [left; congruence|right; exact H].
  Qed.

  Lemma deliver_prop (s : qworld) n o c k P' :
    nth_error (queue s) n = Some c -> props (qw (qstep s (QDeliver n o))) !! k = Some P' ->
    props (qw s) !! k = Some P' \/
    (In (EPutProp k P') (fst (reconcile o (qw s) c)) /\
     In (CtlTx (snd k)) (queue (qstep s (QDeliver n o))) /\ In (CtlProp k) (queue (qstep s (QDeliver n o)))) \/
    (In (ECreateProp k P') (fst (reconcile o (qw s) c)) /\ props (qw s) !! k = None).
  Proof.
    intros Hn H. rewrite (inst deliver_is_step s n o c Hn) in H.
    apply prop_step in H.
    destruct H as [H|(ctl & n0 & o0 & [= <- _ <-] & [H|H])]; auto.
    right. left. split; [exact H|]. split; apply (inst delivery_wakes_owners s n o c _ _ Hn H I); [left|right; left]; reflexivity.
  Qed.

  Lemma deliver_prop_post (s : qworld) n o c k P :
    nth_error (queue s) n = Some c -> props (qw s) !! k = Some P ->
    exists P', props (qw (qstep s (QDeliver n o))) !! k = Some P' /\ (P' = P \/ In (EPutProp k P') (fst (reconcile o (qw s) c))).
  Proof.
    intros Hn HP. assert (Hk : is_Some (props (qw (qstep s (QDeliver n o))) !! k)).
    { rewrite (inst deliver_is_step s n o c Hn). apply prop_step_keep. rewrite HP. eexists. reflexivity. }
    destruct Hk as [P' HP']. exists P'. split; [exact HP'|].
    destruct (deliver_prop s n o c k P' Hn HP') as [H|[[H _]|[_ H]]]; [left|right; exact H|]; congruence.
  Qed.

  (* after a delivery the id of transaction i is pending, or the delivery was not that of i and left the record of i and
     the proposals of i alone: a write of the transaction reconciler wakes its own id, and so does a write of a proposal
     of i by whoever makes it *)
  Lemma tx_deliver (s : qworld) n o c i T' :
    nth_error (queue s) n = Some c ->
    txs (qw (qstep s (QDeliver n o))) !! i = Some T' -> tx_enabled (qw (qstep s (QDeliver n o))) i ->
    In (CtlTx i) (queue (qstep s (QDeliver n o))) \/
    (c <> CtlTx i /\ txs (qw s) !! i = Some T' /\
     forall t, props (qw (qstep s (QDeliver n o))) !! (t, i) = props (qw s) !! (t, i)).
  Proof.
    intros Hn HT' Hen.
    destruct (in_dec ctrl_dec (CtlTx i) (queue (qstep s (QDeliver n o)))) as [Hin|Hnot]; [left; exact Hin|right].
    assert (Hown : forall e, In e (fst (reconcile o (qw s) c)) -> lands (qw s) e -> ~ In (CtlTx i) (owners e)).
    { intros e He Hl Ho. apply Hnot. exact (inst delivery_wakes_owners s n o c e _ Hn He Hl Ho). }
    assert (HT : txs (qw s) !! i = Some T').
    { destruct (deliver_tx s n o c i T' Hn HT') as [H|[-> H]]; [exact H|]. destruct (Hown _ H I). left. reflexivity. }
    assert (Hc : c <> CtlTx i).
    { intros ->. destruct (tx_out_wakes _ _ _ _ (rec_tx_out stamp _ _ _ HT)) as (e & He & Hl & Ho); [|exact (Hown e He Hl Ho)].
      intros Hnil. apply Hen. rewrite (proj1 (inst deliver_shape s n o _ Hn)). cbn [Proto2.reconcile]. rewrite Hnil. exact Hnil. }
    split; [exact Hc|]. split; [exact HT|]. intros t. pose proof (inst deliver_is_step s n o c Hn) as Hst.
    destruct (props (qw (qstep s (QDeliver n o))) !! (t, i)) as [P'|] eqn:HP'; symmetry.
    - destruct (deliver_prop s n o c _ _ Hn HP') as [H|[(_ & H & _)|[H _]]]; [exact H|destruct (Hnot H)|].
      apply reconcile_createprop in H. destruct H as (T0 & H & _). destruct (Hc H).
    - rewrite Hst in HP'. eapply prop_step_none. exact HP'.
  Qed.

  Lemma wait_a_deliver (s : qworld) n o c :
    qreach s -> wait_a s -> nth_error (queue s) n = Some c -> wait_a (qstep s (QDeliver n o)).
  Proof.
    intros Hq IH Hn i T' HT' Hi Hen. pose proof (inst qreach_reach _ Hq) as Hr.
    destruct (tx_deliver s n o c i T' Hn HT' Hen) as [Hin|(Hc & HT & Hprops)]; [left; exact Hin|].
    destruct (inst deliver_shape s n o c Hn) as (_ & Hkeep & _ & Hrq).
    pose proof (early_others_none _ _ _ Hr HT (or_intror Hi)) as Ho.
    destruct (proj1 (init_enabled _ _ _ HT' Hi Ho) Hen) as [Hb' Hrd'].
    rewrite (ready_ext _ _ _ _ Hprops) in Hrd'.
    assert (Hi1 : i - 1 + 1 = i) by (pose proof (tx_index_pos _ _ _ (inst T_inv_reach _ Hr) HT); lia).
    assert (Hsucc : c = CtlTx (i - 1) -> snd (rec_tx (qw s) (i - 1)) = RRequeueTx (i - 1 + 1) ->
                    In (CtlTx i) (queue (qstep s (QDeliver n o)))).
    { intros -> Hrr. apply Hrq. cbn [Proto2.reconcile]. rewrite Hrr, Hi1. left. reflexivity. }
    destruct (blocks (qw s) i) eqn:Eb.
    - (* the predecessor was still initialising: it has just left that state *)
      unfold blocks in Eb, Hb'. destruct (txs (qw s) !! (i - 1)) as [P|] eqn:HP; [|discriminate].
      destruct (deliver_tx_post s n o c _ _ Hn HP) as (P' & HP' & [->|[Hcp Hin]]); rewrite HP' in Hb'; [congruence|].
      assert (HiP : t_init P = None \/ t_init P = Some Doing).
      { destruct (t_init P) as [[]|]; cbn in Eb; try discriminate; auto. }
      destruct (init_writes _ _ _ _ _ HP HiP (early_others_none _ _ _ Hr HP HiP) Hin) as [Hd|[[_ Hrr]|Hg]].
      + rewrite Hd in Hb'. cbn in Hb'. discriminate.
      + left. exact (Hsucc Hcp Hrr).
      + right. exists P'. split; [exact HP'|exact Hg].
    - (* the transaction was enabled before *)
      assert (Hen0 : tx_enabled (qw s) i) by (apply (init_enabled _ _ _ HT Hi Ho); split; assumption).
      destruct (IH i T' HT Hi Hen0) as [Hpend|(P & HP & Hg)].
      + left. exact (Hkeep _ Hpend Hc).
      + destruct (deliver_tx_post s n o c _ _ Hn HP) as (P' & HP' & [->|[Hcp Hin]]).
        * right. exists P. split; [exact HP'|exact Hg].
        * destruct (gate_requeues _ _ _ HP Hg) as [Hnil|Hrr]; [rewrite Hnil in Hin; destruct Hin|].
          left. exact (Hsucc Hcp Hrr).
  Qed.

  Lemma env_frame (w : world) (l : @label Ch) :
    env_label l ->
    props (step w l) = props w /\
    (forall j, j <> next_index w -> txs (step w l) !! j = txs w !! j) /\
    (forall T', txs (step w l) !! (next_index w) = Some T' ->
                (exists d sy se, T' = new_txn d sy se) \/ txs w !! (next_index w) = Some T').
  Proof.
    destruct l as [chs sy se|ri|c n o|c t0|c|c t0|t0 p|t0|t0]; intros []; cbn [Proto2.step];
      try destruct (conns w !! c); try destruct (rels w !! c); cbn;
      (split; [reflexivity|]; split; [intros j Hj; rewrite ?lookup_insert_ne by congruence; reflexivity|]);
      intros T'; rewrite ?lookup_insert; intros H; first [right; exact H | left; injection H as <-; eauto].
  Qed.

  Lemma wait_a_env (s : qworld) (l : @label Ch) :
    qreach s -> wait_a s -> env_label l -> wait_a (mkQW (step (qw s) l) (queue s ++ env_wakes (qw s) l)).
  Proof.
    intros Hq IH Hl. pose proof (inst qreach_reach _ Hq) as Hr. pose proof (inst P2_Order.K_reach _ Hr) as HK.
    pose proof (j_fresh _ (P2_Order.k_J _ HK)) as Hfresh.
    destruct (env_frame (qw s) l Hl) as (Hp & Htx & Hnew). unfold wait_a. cbn [qw queue].
    intros i T' HT' Hi Hen.
    assert (Hne : i <> next_index (qw s)).
    { intros ->. destruct (Hnew _ HT') as [(d & sy & se & ->)|Hold]; [discriminate|]. rewrite Hfresh in Hold by lia. discriminate. }
    assert (HT : txs (qw s) !! i = Some T') by (rewrite <- Htx by exact Hne; exact HT').
    assert (Hprev : txs (step (qw s) l) !! (i - 1) = txs (qw s) !! (i - 1)).
    { apply Htx. intros E. rewrite Hfresh in HT by lia. discriminate. }
    pose proof (early_others_none _ _ _ Hr HT (or_intror Hi)) as Ho.
    destruct (proj1 (init_enabled (step (qw s) l) i T' HT' Hi Ho) Hen) as [Hb Hrd].
    assert (Hbeq : blocks (step (qw s) l) i = blocks (qw s) i) by (unfold blocks; rewrite Hprev; reflexivity).
    rewrite Hbeq in Hb.
    rewrite (ready_ext (qw s) (step (qw s) l) i T') in Hrd by (intros t; rewrite Hp; reflexivity).
    assert (Hen0 : tx_enabled (qw s) i) by (apply (init_enabled _ _ _ HT Hi Ho); split; assumption).
    destruct (IH i T' HT Hi Hen0) as [Hpend|(P & HP & Hg)].
    - left. apply in_or_app. left. exact Hpend.
    - right. exists P. split; [rewrite Hprev; exact HP|exact Hg].
  Qed.

  Theorem wait_a_reach (s : qworld) : qreach s -> wait_a s.
  Proof.
    revert s. apply qreach_ind; [|exact wait_a_deliver|exact wait_a_env].
    intros i T H. cbn in H. rewrite lookup_empty in H. discriminate.
  Qed.

  (* INITIALIZED / VALIDATED / COMMITTED with the next phase not started: the three gates of the transaction reconciler *)
  Definition gate_state (T : txn) : Prop :=
    t_apply T = None /\ t_abort T = None /\
    ((exists c, t_commit T = Some c /\ c = Done) \/
     (t_commit T = None /\ t_validate T = Some Done) \/
     (t_commit T = None /\ t_validate T = None /\ t_init T = Some Done)).
  Definition gate_need (T : txn) : N :=
    match t_commit T, t_validate T with Some _, _ => 3 | None, Some _ => 2 | None, None => 1 end.
  Definition gate_open (w : world) (j : N) (T : txn) : Prop :=
    all_props w j (default [] (t_props T)) (fun _ => true) <> None /\
    blocked_by_prev w j (default [] (t_props T)) (gate_need T) = false.

  Definition wait_b (s : qworld) : Prop :=
    forall j T, txs (qw s) !! j = Some T -> gate_state T -> tx_enabled (qw s) j -> In (CtlTx j) (queue s).

  Lemma gate_enabled (w : world) j (T : txn) :
    txs w !! j = Some T -> gate_state T -> (tx_enabled w j <-> gate_open w j T).
  Proof.
    intros HT (Ha & Hab & Hg). unfold tx_enabled, gate_open, gate_need, Proto2.rec_tx. rewrite HT, Ha, Hab.
    destruct Hg as [(c & Hc & ->)|[(Hc & Hv)|(Hc & Hv & Hi)]]; rewrite Hc, ?Hv, ?Hi; unfold gate;
      destruct (all_props w j _ _) as [b|], (blocked_by_prev w j _ _); cbn;
      (split; [intros H; first [destruct (H eq_refl) | split; [discriminate|reflexivity]]
              |intros [H1 H2]; first [discriminate H2 | destruct (H1 eq_refl) | discriminate]]).
  Qed.

  Lemma blocked_ext (w w' : world) j tg need :
    (forall t, props w' !! (t, j) = props w !! (t, j)) ->
    (forall t p, props w !! (t, j) = Some p -> txs w' !! (p_prev p) = txs w !! (p_prev p)) ->
    blocked_by_prev w' j tg need = blocked_by_prev w j tg need.
  Proof.
    intros Hp Ht. unfold blocked_by_prev. induction tg as [|t tg IH]; [reflexivity|]. cbn. rewrite IH, Hp.
    destruct (props w !! (t, j)) as [p|] eqn:E; [|reflexivity]. rewrite (Ht _ _ E). reflexivity.
  Qed.

  Lemma apply_effs_tx_succ (es : list eff) : forall (w : world) m (Tm' : txn) t (Q : prop),
    In (EPutTx m Tm') es -> In t (default [] (t_props Tm')) -> props w !! (t, m) = Some Q -> p_next Q <> 0 ->
    (forall k p, ~ In (EPutProp k p) es) ->
    In (CtlTx (p_next Q)) (snd (apply_effs w es)).
  Proof.
    induction es as [|e0 r IH]; intros w m Tm' t Q Hin Ht HQ Hn Hnp; [destruct Hin|].
    cbn. destruct (apply_effs (apply_eff w e0) r) as [w' q] eqn:E. cbn. apply in_or_app.
    destruct Hin as [->|Hin].
    - left. cbn [Proto2Queue.wakes]. unfold tx_wakes. right. apply in_flat_map. exists t. split; [exact Ht|].
      rewrite HQ. destruct (p_next Q =? 0) eqn:Ez; [apply N.eqb_eq in Ez; destruct (Hn Ez)|left; reflexivity].
    - right. assert (HQ' : props (apply_eff w e0) !! (t, m) = Some Q).
      { rewrite props_apply_eff. destruct e0; try exact HQ; [|destruct (Hnp k p (or_introl eq_refl))].
        destruct (props w !! k) eqn:Ek; [exact HQ|].
        rewrite lookup_insert_ne; [exact HQ|]. intros ->. rewrite HQ in Ek. discriminate. }
      specialize (IH (apply_eff w e0) m Tm' t Q Hin Ht HQ' Hn (fun k p H => Hnp k p (or_intror H))). rewrite E in IH. exact IH.
  Qed.

  Lemma existsb_false_in {A} (f : A -> bool) l x : existsb f l = false -> In x l -> f x = false.
  Proof. intros H Hin. destruct (f x) eqn:E; [|reflexivity]. rewrite <- H. symmetry. apply existsb_exists. eauto. Qed.

  Lemma wf_started_props (T : txn) :
    tx_wf T -> is_Some (t_validate T) \/ is_Some (t_commit T) \/ is_Some (t_apply T) -> is_Some (t_props T).
  Proof.
    unfold tx_wf, wfb, imp, P2Phases.some, P2Phases.is_ph. intros Hwf Hs.
    destruct (t_validate T) as [v|].
    - destruct (t_props T); [eexists; reflexivity|]. cbn in Hwf.
      destruct (t_init T) as [[]|]; cbn in Hwf; rewrite ?andb_false_r in Hwf; discriminate.
    - destruct (t_commit T) as [[]|], (t_apply T) as [[]|]; cbn in Hwf; rewrite ?andb_false_r in Hwf; try discriminate;
        destruct Hs as [[? H]|[[? H]|[? H]]]; discriminate.
  Qed.

  Lemma wait_b_deliver (s : qworld) n o c :
    qreach s -> wait_b s -> nth_error (queue s) n = Some c -> wait_b (qstep s (QDeliver n o)).
  Proof.
    intros Hq IH Hn j T' HT' Hg Hen. pose proof (inst qreach_reach _ Hq) as Hr.
    destruct (tx_deliver s n o c j T' Hn HT' Hen) as [Hin|(Hc & HT & Hprops)]; [exact Hin|].
    destruct (inst deliver_shape s n o c Hn) as (_ & Hkeep & Hwk & _).
    assert (Hr' : reach (qw (qstep s (QDeliver n o)))) by (apply (inst qreach_reach); apply qreach_step; exact Hq).
    pose proof (inst P2_Order.K_reach _ Hr) as HK. pose proof (inst C_inv_reach _ Hr) as HC.
    pose proof (inst T_inv_reach _ Hr') as HTI'.
    destruct (proj1 (gate_enabled _ _ _ HT' Hg) Hen) as [Hall' Hb'].
    rewrite (all_props_ext _ _ _ _ _ Hprops) in Hall'.
    destruct (blocked_by_prev (qw s) j (default [] (t_props T')) (gate_need T')) eqn:Eb.
    2:{ assert (Hen0 : tx_enabled (qw s) j) by (apply (gate_enabled _ _ _ HT Hg); split; assumption).
        exact (Hkeep _ (IH j T' HT Hg Hen0) Hc). }
    (* the gate has just opened: a SERIALIZABLE predecessor moved on, and its transaction event names this transaction *)
    unfold blocked_by_prev in Eb, Hb'. apply existsb_exists in Eb. destruct Eb as (t & Ht & Hft).
    pose proof (existsb_false_in _ _ _ Hb' Ht) as Hft'. cbn beta in Hft'. rewrite Hprops in Hft'.
    destruct (props (qw s) !! (t, j)) as [p|] eqn:Hp; [|discriminate].
    apply andb_prop in Hft. destruct Hft as [Hpos Hft]. rewrite Hpos in Hft'. cbn [andb] in Hft'.
    destruct (txs (qw s) !! (p_prev p)) as [pt|] eqn:Hpt; [|discriminate].
    destruct (deliver_tx_post s n o c _ _ Hn Hpt) as (pt' & Hpt' & [->|[-> Hin]]); rewrite Hpt' in Hft'; [congruence|].
    destruct (tx_out_puttx _ _ _ _ _ _ (rec_tx_out stamp _ _ _ Hpt) Hin) as (_ & [_ (Hser & Hpr & Hst)] & Hnp).
    pose proof (j_tx _ (P2_Order.k_J _ HK) _ _ Hpt) as Hwf.
    apply N.ltb_lt in Hpos.
    destruct (ci_prev _ HC _ _ _ Hp) as (Q & HQ & HnQ); [lia|].
    apply andb_prop in Hft. destruct Hft as [Hs1 Hrk]. rewrite Hser, Hs1 in Hft'. cbn [andb] in Hft'.
    assert (Htin : In t (default [] (t_props pt'))).
    { destruct Hst as [Hst|[Hfl|Hv]].
      - rewrite Hst, Hrk in Hft'. discriminate.
      - exfalso. destruct (deliver_prop_post s n o _ _ _ Hn HQ) as (Q' & HQ'' & _).
        destruct (ti_created _ HTI' _ _ _ HQ'') as (T0 & HT0 & _ & Hnf & _).
        rewrite Hpt' in HT0. injection HT0 as <-. exact (Hnf Hfl).
      - destruct (wf_started_props _ Hwf Hv) as [tg0 Htg0].
        destruct Hpr as [Hpr|Hpr]; [congruence|]. rewrite Hpr, Htg0. cbn.
        eapply (listed _ _ _ _ _ _ HK HQ Hpt Htg0). }
    apply Hwk. cbn [Proto2.reconcile]. rewrite <- HnQ.
    eapply apply_effs_tx_succ; [exact Hin|exact Htin|exact HQ| |exact Hnp].
    pose proof (tx_index_pos _ _ _ (inst T_inv_reach _ Hr) HT). lia.
  Qed.

  Lemma wait_b_env (s : qworld) (l : @label Ch) :
    qreach s -> wait_b s -> env_label l -> wait_b (mkQW (step (qw s) l) (queue s ++ env_wakes (qw s) l)).
  Proof.
    intros Hq IH Hl. pose proof (inst qreach_reach _ Hq) as Hr. pose proof (inst P2_Order.K_reach _ Hr) as HK.
    pose proof (inst C_inv_reach _ Hr) as HC.
    pose proof (inst T_inv_reach _ Hr) as HTI. pose proof (j_fresh _ (P2_Order.k_J _ HK)) as Hfresh.
    destruct (env_frame (qw s) l Hl) as (Hp & Htx & Hnew). unfold wait_b. cbn [qw queue].
    intros j T' HT' Hg Hen.
    assert (Hne : j <> next_index (qw s)).
    { intros ->. destruct (Hnew _ HT') as [(d & sy & se & ->)|Hold]; [|rewrite Hfresh in Hold by lia; discriminate].
      destruct Hg as (_ & _ & [(c & Hc & _)|[(_ & Hv)|(_ & _ & Hi)]]); discriminate. }
    assert (HT : txs (qw s) !! j = Some T') by (rewrite <- Htx by exact Hne; exact HT').
    apply in_or_app. left. apply (IH j T' HT Hg).
    apply (gate_enabled _ _ _ HT Hg).
    destruct (proj1 (gate_enabled (step (qw s) l) j T' HT' Hg) Hen) as [Hall Hb]. split.
    - rewrite <- (all_props_ext (qw s) (step (qw s) l)); [exact Hall|]. intros t. rewrite Hp. reflexivity.
    - rewrite <- Hb. symmetry. apply blocked_ext; [intros t; rewrite Hp; reflexivity|].
      intros t p Hpp. apply Htx. intros E.
      destruct (N.eq_dec (p_prev p) 0) as [Hz|Hnz].
      + pose proof (ti_next _ HTI). lia.
      + destruct (ci_prev _ HC _ _ _ Hpp Hnz) as (Q & HQ & _).
        destruct (k_exist _ HK _ _ _ HQ) as (T0 & HT0 & _). rewrite Hfresh in HT0 by lia. discriminate.
  Qed.

  Theorem wait_b_reach (s : qworld) : qreach s -> wait_b s.
  Proof.
    revert s. apply qreach_ind; [|exact wait_b_deliver|exact wait_b_env].
    intros i T H. cbn in H. rewrite lookup_empty in H. discriminate.
  Qed.

  Notation tokens_covered := (@covered V Ch Req D candidate candidate_rb rollback_of overlay commit_merge payload record_applied
                                       touched restore resync_payload doc_ok stamp v_empty d_empty ch_empty).
  (* the token invariant is assumed for every enabled id EXCEPT the transactions that are INITIALIZING or at a gate
     (waits (a) and (b), proved above) *)
  Definition tokens_rest (s : qworld) : Prop :=
    forall c o, fst (reconcile o (qw s) c) <> [] ->
      tokens_covered s c \/ exists i T, c = CtlTx i /\ txs (qw s) !! i = Some T /\ (t_init T = Some Doing \/ gate_state T).
  (* what is left of wait (a) at an idle world: an INITIALIZING transaction whose predecessor is INITIALIZED and parked at
     the validate gate, closed (behind a SERIALIZABLE transaction that is not VALIDATED yet) *)
  Definition parked_behind_gate (w : world) (c : ctrl) : Prop :=
    exists i T P, c = CtlTx i /\ txs w !! i = Some T /\ t_init T = Some Doing /\
                  txs w !! (i - 1) = Some P /\ at_init_gate P /\ ~ tx_enabled w (i - 1).

  Theorem fixpoint_of_tokens_rest (s : qworld) :
    qreach s -> tokens_rest s -> idle s = true ->
    forall c o, fst (reconcile o (qw s) c) = [] \/ parked_behind_gate (qw s) c.
  Proof.
    intros Hq Htok Hidle c o.
    assert (Hempty : queue s = []) by (unfold idle in Hidle; destruct (queue s); [reflexivity|discriminate]).
    destruct (fst (reconcile o (qw s) c)) as [|e r] eqn:E; [left; reflexivity|right].
    destruct (Htok c o) as [(c0 & Hin & _)|(i & T & -> & HT & Hst)]; [rewrite E; discriminate|rewrite Hempty in Hin; destruct Hin|].
    assert (Hen : tx_enabled (qw s) i) by (unfold tx_enabled; cbn [Proto2.reconcile] in E; rewrite E; discriminate).
    destruct Hst as [Hi|Hg].
    - destruct (wait_a_reach s Hq i T HT Hi Hen) as [Hp|(P & HP & Hgate)]; [rewrite Hempty in Hp; destruct Hp|].
      exists i, T, P. split; [reflexivity|]. split; [exact HT|]. split; [exact Hi|]. split; [exact HP|]. split; [exact Hgate|].
      intros Hen'. assert (Hgs : gate_state P).
      { destruct Hgate as (Hd & Hv & Hc & Ha & Hab). split; [exact Ha|]. split; [exact Hab|]. right. right. auto. }
      pose proof (wait_b_reach s Hq (i - 1) P HP Hgs Hen') as Hp. rewrite Hempty in Hp. destruct Hp.
    - pose proof (wait_b_reach s Hq i T HT Hg Hen) as Hp. rewrite Hempty in Hp. destruct Hp.
  Qed.
End WaitA.
