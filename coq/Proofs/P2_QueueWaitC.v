(* C09 - the proposal-side wait (c): a proposal that waits for Committed.Index = PrevIndex (Validate / Abort).
   One delivery, from every reachable queued world:
     pred_requeues             the predecessor of a stored proposal names it as NextIndex (chain invariant ci_prev), so a
                               delivery of the predecessor that returns requeue_next leaves the proposal pending.
     mover_requeues            the proposal reconcile that can move Committed.Index (Commit IN_PROGRESS or Abort
                               IN_PROGRESS, apply phase not started) returns requeue_next, or writes nothing, or it is
                               the abort branch that moves ONLY Committed.Index (Committed = PrevIndex, Applied <>
                               PrevIndex: the model returns RDone there).
     committed_opens_wakes     if the delivery of a pending id moves Committed.Index of target t to the PrevIndex of a
                               stored proposal (t, i) (so the validate / abort guard of (t, i) opens), then after the
                               delivery CtlProp (t, i) is pending, OR the mover is the predecessor in Abort IN_PROGRESS
                               whose Applied.Index lags (it moved only Committed.Index and returned RDone).
   The exception is real in the model, which is why the invariant of Proofs/P2_QueueWaitC2.v carries a guardian disjunct. *)
From stdpp Require Import gmap.
From RecordUpdate Require Import RecordUpdate.
From Coq Require Import NArith Lia.
From OC Require Import Model.Proto2 Model.Proto2Queue Proofs.P2Base Proofs.P2Phases Proofs.P2_Order Proofs.P2_Cursor
     Proofs.P2_CursorInv Proofs.P2_CursorLink Proofs.P2_CursorChainInv Proofs.P2_Queue Proofs.P2_QueueWaitA.
Open Scope N_scope.

Section WaitC.
  Context {V Ch Req D : Type}.
  Context (candidate : V -> Ch -> V) (candidate_rb : V -> Ch -> V) (rollback_of : V -> Ch -> Ch)
          (overlay : V -> V -> V) (commit_merge : N -> N -> V -> V -> Ch -> V)
          (payload : N -> V -> Ch -> option Req) (record_applied : N -> N -> V -> V -> V -> Ch -> V)
          (touched : N -> V -> Ch -> V) (restore : V -> V -> V)
          (resync_payload : V -> list (option Req)) (doc_ok : V -> bool)
          (dev_apply : D -> Req -> D) (stamp : N -> Ch -> Ch) (v_empty : V) (d_empty : D) (ch_empty : Ch).

  Notation world := (@world V Ch Req D).
  Notation prop := (@prop Ch).
  Notation qworld := (@qworld V Ch Req D).
  Notation rec_prop := (@rec_prop V Ch Req D candidate candidate_rb rollback_of overlay commit_merge payload record_applied
                                  touched restore doc_ok v_empty d_empty ch_empty).
  Notation reconcile := (@reconcile V Ch Req D candidate candidate_rb rollback_of overlay commit_merge payload record_applied
                                    touched restore resync_payload doc_ok stamp v_empty d_empty ch_empty).
  Notation step := (@step V Ch Req D candidate candidate_rb rollback_of overlay commit_merge payload record_applied
                          touched restore resync_payload doc_ok dev_apply stamp v_empty d_empty ch_empty).
  Notation qstep := (@qstep V Ch Req D candidate candidate_rb rollback_of overlay commit_merge payload record_applied
                            touched restore resync_payload doc_ok dev_apply stamp v_empty d_empty ch_empty).
  Notation qreach := (@qreach V Ch Req D candidate candidate_rb rollback_of overlay commit_merge payload record_applied
                              touched restore resync_payload doc_ok dev_apply stamp v_empty d_empty ch_empty).
  Notation inst f := (f candidate candidate_rb rollback_of overlay commit_merge payload record_applied touched restore
                        resync_payload doc_ok dev_apply stamp v_empty d_empty ch_empty).
  Notation committed_of := (@committed_of V Ch Req D).
  Notation applied_of := (@applied_of V Ch Req D).
  Notation requeue_next := (@requeue_next Ch).

  Lemma stored_pos (w : world) t i (P : prop) : T_inv w -> props w !! (t, i) = Some P -> i <> 0.
  Proof. intros HT HP ->. destruct (ti_created _ HT _ _ _ HP) as (T & HTi & _). rewrite (ti_zero _ HT) in HTi. discriminate. Qed.

  Lemma pred_requeues (s : qworld) n o t i (P : prop) :
    qreach s -> props (qw s) !! (t, i) = Some P -> p_prev P <> 0 ->
    exists Q : prop, props (qw s) !! (t, p_prev P) = Some Q /\ p_next Q = i /\
      (nth_error (queue s) n = Some (CtlProp (t, p_prev P)) -> snd (rec_prop o (qw s) (t, p_prev P)) = requeue_next t Q ->
       In (CtlProp (t, i)) (queue (qstep s (QDeliver n o)))).
  Proof.
    intros Hq HP Hprev. destruct (inst qreach_invs _ Hq) as (_ & _ & HT & HC).
    destruct (ci_prev _ HC _ _ _ HP Hprev) as (Q & HQ & Hnext). exists Q. split; [exact HQ|]. split; [exact Hnext|].
    intros Hn Hsnd. apply (inst deliver_shape s n o _ Hn). cbn [Proto2.reconcile]. rewrite Hsnd. unfold Proto2.requeue_next. rewrite Hnext.
    destruct (N.eqb_spec i 0) as [E|_]; [destruct (stored_pos _ _ _ _ HT HP E)|left; reflexivity].
  Qed.

  Lemma mover_requeues (o : oracle) (w : world) t j (Pj : prop) :
    props w !! (t, j) = Some Pj -> p_apply Pj = None ->
    (p_abort Pj = None /\ p_commit Pj = Some Doing) \/ p_abort Pj = Some Doing ->
    snd (rec_prop o w (t, j)) = requeue_next t Pj \/
    fst (rec_prop o w (t, j)) = [] \/
    (p_abort Pj = Some Doing /\ committed_of w t = p_prev Pj /\ applied_of w t <> p_prev Pj).
  Proof.
    intros HP Hap Hph. unfold Proto2.rec_prop, P2_Cursor.committed_of, P2_Cursor.applied_of. rewrite HP, Hap.
    destruct (cfgs w !! t) as [C|]; [|destruct Hph as [[-> ->]| ->]; auto].
    destruct Hph as [[Hab Hco]|Hab].
    - rewrite Hab, Hco. left. reflexivity.
    - rewrite Hab.
      destruct (c_committed C =? p_prev Pj) eqn:E1; destruct (c_applied C =? p_prev Pj) eqn:E2; cbn [andb].
      + left. reflexivity.
      + right. right. apply N.eqb_eq in E1. apply N.eqb_neq in E2. split; [reflexivity|]. split; assumption.
      + destruct (j <=? c_committed C); cbn [andb]; [left; reflexivity|]. right. left. reflexivity.
      + destruct ((j <=? c_committed C) && (j <=? c_applied C)); [left; reflexivity|]. right. left. reflexivity.
  Qed.

  Theorem committed_opens_wakes (s : qworld) n o c t i (P : prop) :
    qreach s -> nth_error (queue s) n = Some c ->
    props (qw s) !! (t, i) = Some P -> p_prev P <> 0 ->
    committed_of (qw s) t <> p_prev P ->
    committed_of (qw (qstep s (QDeliver n o))) t = p_prev P ->
    In (CtlProp (t, i)) (queue (qstep s (QDeliver n o))) \/
    exists (Q : prop), props (qw s) !! (t, p_prev P) = Some Q /\ c = CtlProp (t, p_prev P) /\ p_next Q = i /\
      p_apply Q = None /\ p_abort Q = Some Doing /\
      committed_of (qw s) t = p_prev Q /\ applied_of (qw s) t <> p_prev Q.
  Proof.
    intros Hq Hn HP Hprev Hbefore Hafter.
    pose proof (inst deliver_is_step s n o c Hn) as Hst.
    assert (Hmv : committed_of (step (qw s) (LRec c (length (fst (reconcile o (qw s) c))) o)) t <> committed_of (qw s) t).
    { rewrite <- Hst. rewrite Hafter. intros E. apply Hbefore. symmetry. exact E. }
    apply committed_moves_by_successor in Hmv.
    destruct Hmv as (j & k & o' & Pj & Hl & HPj & Hj & Hcp & Hap & Hph).
    injection Hl as -> _ <-. rewrite <- Hst, Hafter in Hj. subst j.
    destruct (pred_requeues s n o t i P Hq HP Hprev) as (Q & HQ & Hnext & Hwake).
    assert (EQ : Some Q = Some Pj) by (rewrite <- HQ; exact HPj). injection EQ as <-.
    destruct (mover_requeues o (qw s) t (p_prev P) Q HQ Hap Hph) as [Hsnd|[Hnil|(Hab & Hc1 & Hc2)]].
    - left. exact (Hwake Hn Hsnd).
    - exfalso. apply Hbefore. rewrite <- Hafter, Hst. cbn [Proto2.step Proto2.reconcile]. rewrite Hnil. reflexivity.
    - right. exists Q. auto 8.
  Qed.
End WaitC.
