(* C09 - wait (c), Validate: the invariant over all reachable queued worlds.
   Statement [wait_c s] (no enabledness premise - a delivery of the proposal at the open guard either writes its record or
   returns an error, which re-enters the same id):
     every stored proposal (t, i) in Validate IN_PROGRESS (no later phase started) with PrevIndex <> 0 and
     Committed.Index of t = PrevIndex is pending, or it is [guarded]: its predecessor (t, PrevIndex) is stored in
     Abort IN_PROGRESS (apply phase not started) and (Applied.Index of t <> the predecessor's PrevIndex - the abort cannot
     finish yet - or the predecessor itself is pending).
   Here:
     wait_c_env          [wait_c] is preserved by every environment step;
     wait_c_deliver      [wait_c] is preserved by every delivery of a pending id c, GIVEN [guard_frame] for that delivery:
                         for every (t, j) <> c, guarded s t j -> guarded s' t j.  The cases: the proposal's own record is
                         written (delivery_wakes_owners), it is created (never in Validate), it is delivered itself
                         (validate_result: error re-queue or own write), Committed.Index reaches PrevIndex by this
                         delivery (committed_opens_wakes of P2_QueueWaitC), and the guardian itself is delivered
                         (own_delivery: requeue_next names (t, i), or nothing that the guard reads changes).
   The frame, and with it [wait_c] for every reachable queued world, is proved in Proofs/P2_QueueWaitC3.v. *)
From stdpp Require Import gmap.
From RecordUpdate Require Import RecordUpdate.
From Coq Require Import NArith Lia.
From OC Require Import Model.Proto2 Model.Proto2Queue Proofs.P2Base Proofs.P2Phases Proofs.P2_Order Proofs.P2_Cursor
     Proofs.P2_CursorInv Proofs.P2_CursorLink Proofs.P2_CursorChainInv Proofs.P2_Queue Proofs.P2_QueueWaitA
     Proofs.P2_QueueWaitC.
Open Scope N_scope.

Section WaitC2.
  Context {V Ch Req D : Type}.
  Context (candidate : V -> Ch -> V) (candidate_rb : V -> Ch -> V) (rollback_of : V -> Ch -> Ch)
          (overlay : V -> V -> V) (commit_merge : N -> N -> V -> V -> Ch -> V)
          (payload : N -> V -> Ch -> option Req) (record_applied : N -> N -> V -> V -> V -> Ch -> V)
          (touched : N -> V -> Ch -> V) (restore : V -> V -> V)
          (resync_payload : V -> list (option Req)) (doc_ok : V -> bool)
          (dev_apply : D -> Req -> D) (stamp : N -> Ch -> Ch) (v_empty : V) (d_empty : D) (ch_empty : Ch).

  Notation world := (@world V Ch Req D).
  Notation prop := (@prop Ch).
  Notation config := (@config V).
  Notation qworld := (@qworld V Ch Req D).
  Notation apply_eff := (@apply_eff V Ch Req D dev_apply d_empty).
  Notation rec_prop := (@rec_prop V Ch Req D candidate candidate_rb rollback_of overlay commit_merge payload record_applied
                                  touched restore doc_ok v_empty d_empty ch_empty).
  Notation reconcile := (@reconcile V Ch Req D candidate candidate_rb rollback_of overlay commit_merge payload record_applied
                                    touched restore resync_payload doc_ok stamp v_empty d_empty ch_empty).
  Notation step := (@step V Ch Req D candidate candidate_rb rollback_of overlay commit_merge payload record_applied
                          touched restore resync_payload doc_ok dev_apply stamp v_empty d_empty ch_empty).
  Notation qstep := (@qstep V Ch Req D candidate candidate_rb rollback_of overlay commit_merge payload record_applied
                            touched restore resync_payload doc_ok dev_apply stamp v_empty d_empty ch_empty).
  Notation qreach := (@qreach V Ch Req D candidate candidate_rb rollback_of overlay commit_merge payload record_applied
                              touched restore resync_payload doc_ok dev_apply stamp v_empty d_empty ch_empty).
  Notation inst f := (f candidate candidate_rb rollback_of overlay commit_merge payload record_applied touched restore
                        resync_payload doc_ok dev_apply stamp v_empty d_empty ch_empty).
  Notation committed_of := (@committed_of V Ch Req D).
  Notation applied_of := (@applied_of V Ch Req D).
  Notation requeue_next := (@requeue_next Ch).
  Notation upd_status := (@upd_status V Ch Req overlay restore v_empty).

  Definition validating (P : prop) : Prop :=
    p_apply P = None /\ p_abort P = None /\ p_commit P = None /\ p_validate P = Some Doing.
  Definition abort_doing (Q : prop) : Prop := p_apply Q = None /\ p_abort Q = Some Doing.
  Definition guarded (s : qworld) (t j : N) : Prop :=
    exists Q : prop, props (qw s) !! (t, j) = Some Q /\ abort_doing Q /\
      (applied_of (qw s) t <> p_prev Q \/ In (CtlProp (t, j)) (queue s)).
  Definition wait_c (s : qworld) : Prop :=
    forall t i (P : prop), props (qw s) !! (t, i) = Some P -> validating P -> p_prev P <> 0 ->
      committed_of (qw s) t = p_prev P ->
      In (CtlProp (t, i)) (queue s) \/ guarded s t (p_prev P).
  Definition guard_frame (s s' : qworld) (c : ctrl) : Prop :=
    forall t j, c <> CtlProp (t, j) -> guarded s t j -> guarded s' t j.

  Lemma validate_result (o : oracle) (w : world) t i (P : prop) :
    props w !! (t, i) = Some P -> validating P -> p_prev P <> 0 -> committed_of w t = p_prev P ->
    snd (rec_prop o w (t, i)) = RRetry \/ exists P'' : prop, In (EPutProp (t, i) P'') (fst (rec_prop o w (t, i))).
  Proof.
    intros HP (Hap & Hab & Hco & Hva) Hprev Hc. unfold Proto2.rec_prop, Proto2.vfail. rewrite HP, Hap, Hab, Hco, Hva.
    unfold P2_Cursor.committed_of in Hc. destruct (cfgs w !! t) as [C|]; [|destruct (Hprev (eq_sym Hc))].
    rewrite Hc, N.eqb_refl. cbn [negb]. rewrite andb_false_r.
    repeat match goal with |- context [match ?x with _ => _ end] => destruct x eqn:? end; cbn [fst snd];
      first [left; reflexivity | right; eexists; left; reflexivity].
  Qed.

  (* the proposal in Abort IN_PROGRESS: requeue_next, or only Committed.Index moves, or nothing is written *)
  Lemma abort_result (o : oracle) (w : world) t j (Q : prop) :
    props w !! (t, j) = Some Q -> abort_doing Q ->
    snd (rec_prop o w (t, j)) = requeue_next t Q \/
    (exists C : config, cfgs w !! t = Some C /\ fst (rec_prop o w (t, j)) = upd_status t C (C <| c_committed := j |>) /\
                       c_applied C <> p_prev Q) \/
    (fst (rec_prop o w (t, j)) = [] /\ (cfgs w !! t = None \/ applied_of w t <> p_prev Q \/ committed_of w t < j)).
  Proof.
    intros HP [Hap Hab]. unfold Proto2.rec_prop, P2_Cursor.applied_of, P2_Cursor.committed_of. rewrite HP, Hap, Hab.
    destruct (cfgs w !! t) as [C|]; [|auto].
    destruct (c_committed C =? p_prev Q) eqn:E1; destruct (c_applied C =? p_prev Q) eqn:E2; cbn [andb].
    - left. reflexivity.
    - right. left. exists C. apply N.eqb_neq in E2. cbn [fst]. auto.
    - destruct (j <=? c_committed C) eqn:E3; cbn [andb fst]; [left; reflexivity|]. apply N.leb_gt in E3. auto 8.
    - destruct ((j <=? c_committed C) && (j <=? c_applied C)); cbn [fst]; [left; reflexivity|]. apply N.eqb_neq in E2. auto 8.
  Qed.

  Lemma upd_status_frame (w : world) t (C C' : config) :
    cfgs w !! t = Some C ->
    props (fold_left apply_eff (upd_status t C C') w) = props w /\
    applied_of (fold_left apply_eff (upd_status t C C') w) t = c_applied C'.
  Proof.
    intros HC. unfold Proto2.upd_status. cbn [fold_left]. split.
    - rewrite !props_apply_eff. reflexivity.
    - unfold P2_Cursor.applied_of. rewrite cfgs_apply_eff. cbv iota. rewrite cfgs_apply_eff. cbv iota. rewrite HC.
      rewrite lookup_insert. rewrite lookup_insert. reflexivity.
  Qed.

  Lemma own_delivery (s : qworld) n o t j i (Q : prop) :
    nth_error (queue s) n = Some (CtlProp (t, j)) ->
    props (qw s) !! (t, j) = Some Q -> abort_doing Q -> j <> 0 ->
    (snd (rec_prop o (qw s) (t, j)) = requeue_next t Q -> In (CtlProp (t, i)) (queue (qstep s (QDeliver n o)))) ->
    (committed_of (qw s) t = j \/ applied_of (qw s) t <> p_prev Q) ->
    In (CtlProp (t, i)) (queue (qstep s (QDeliver n o))) \/
    (props (qw (qstep s (QDeliver n o))) !! (t, j) = Some Q /\ applied_of (qw (qstep s (QDeliver n o))) t <> p_prev Q).
  Proof.
    intros Hn HQ Hab Hj Hwake Halt. pose proof (proj1 (inst deliver_shape s n o _ Hn)) as Hw. cbn [Proto2.reconcile] in Hw.
    destruct (abort_result o (qw s) t j Q HQ Hab) as [Hsnd|[(C0 & HC0 & Hfst & Hne)|[Hfst Hor]]].
    - left. exact (Hwake Hsnd).
    - right. rewrite Hw, Hfst.
      destruct (upd_status_frame (qw s) t C0 (C0 <| c_committed := j |>) HC0) as [Hp Ha].
      rewrite Hp, Ha. split; [exact HQ|exact Hne].
    - right. rewrite Hw, Hfst. cbn [fold_left]. split; [exact HQ|]. destruct Hor as [HN|[H|H]]; [|exact H|].
      + unfold P2_Cursor.committed_of, P2_Cursor.applied_of in *. rewrite HN in *.
        destruct Halt as [E|E]; [destruct (Hj (eq_sym E))|exact E].
      + destruct Halt as [Hc|Hc]; [lia|exact Hc].
  Qed.

  Theorem wait_c_deliver (s : qworld) n o c :
    qreach s -> wait_c s -> nth_error (queue s) n = Some c ->
    guard_frame s (qstep s (QDeliver n o)) c -> wait_c (qstep s (QDeliver n o)).
  Proof.
    intros Hq IH Hn Hgf t i P' HP' Hval Hprev Hcom.
    destruct (inst deliver_shape s n o c Hn) as (_ & Hkeep & _ & Hrq).
    destruct (inst deliver_prop s n o c _ _ Hn HP') as [HP|[Hput|[Hcr _]]].
    2:{ left. apply Hput. }
    2:{ exfalso. apply reconcile_createprop in Hcr. destruct Hcr as (T0 & _ & _ & _ & _ & _ & _ & _ & _ & _ & [(ch & ->)|(ri & ->)]);
          destruct Hval as (_ & _ & _ & Hv); cbn in Hv; discriminate. }
    destruct (inst pred_requeues s n o t i P' Hq HP Hprev) as (Q & HQ & _ & Hwake).
    destruct (N.eq_dec (committed_of (qw s) t) (p_prev P')) as [Heq|Hne].
    - destruct (IH t i P' HP Hval Hprev Heq) as [Hpend|(Q0 & HQ0 & Hab & Halt)].
      + destruct (ctrl_dec c (CtlProp (t, i))) as [->|Hc].
        * destruct (validate_result o (qw s) t i P' HP Hval Hprev Heq) as [Hsnd|(P'' & Hin)].
          -- left. apply Hrq. cbn [Proto2.reconcile]. rewrite Hsnd. left. reflexivity.
          -- left. apply (inst delivery_wakes_owners s n o _ _ _ Hn Hin I). right. left. reflexivity.
        * left. exact (Hkeep _ Hpend Hc).
      + destruct (ctrl_dec c (CtlProp (t, p_prev P'))) as [->|Hc].
        * rewrite HQ in HQ0. injection HQ0 as <-.
          destruct (own_delivery s n o t (p_prev P') i Q Hn HQ Hab Hprev (Hwake Hn) (or_introl Heq)) as [Hp|[Hp Ha]].
          -- left. exact Hp.
          -- right. exists Q. split; [exact Hp|]. split; [exact Hab|]. left. exact Ha.
        * right. apply Hgf; [exact Hc|]. exists Q0. split; [exact HQ0|]. split; [exact Hab|exact Halt].
    - destruct (inst committed_opens_wakes s n o c t i P' Hq Hn HP Hprev Hne Hcom)
        as [Hp|(Q0 & HQ0 & -> & _ & Hap & Hab & Hcq & Haq)]; [left; exact Hp|].
      rewrite HQ in HQ0. injection HQ0 as <-.
      destruct (own_delivery s n o t (p_prev P') i Q Hn HQ (conj Hap Hab) Hprev (Hwake Hn) (or_intror Haq)) as [Hp|[Hp Ha]].
      + left. exact Hp.
      + right. exists Q. split; [exact Hp|]. split; [split; assumption|]. left. exact Ha.
  Qed.

  Lemma env_cursors (w : world) (l : @label Ch) t :
    env_label l -> committed_of (step w l) t = committed_of w t /\ applied_of (step w l) t = applied_of w t.
  Proof.
    intros Hl. split.
    - destruct (N.eq_dec (committed_of (step w l) t) (committed_of w t)) as [E|E]; [exact E|].
      apply committed_moves_by_successor in E.
      destruct E as (i & k & o & P & -> & _). destruct Hl.
    - destruct (N.eq_dec (applied_of (step w l) t) (applied_of w t)) as [E|E]; [exact E|].
      apply applied_moves_by_successor in E.
      destruct E as (i & k & o & P & -> & _). destruct Hl.
  Qed.

  Theorem wait_c_env (s : qworld) (l : @label Ch) :
    wait_c s -> env_label l -> wait_c (mkQW (step (qw s) l) (queue s ++ env_wakes (qw s) l)).
  Proof.
    intros IH Hl.
    destruct (inst env_frame (qw s) l Hl) as (Hp & _ & _).
    intros t i P HP Hval Hprev Hcom. cbn [qw queue] in *.
    destruct (env_cursors (qw s) l t Hl) as [Hc Ha].
    rewrite Hp in HP. rewrite Hc in Hcom.
    destruct (IH t i P HP Hval Hprev Hcom) as [Hpend|(Q & HQ & Hab & Halt)].
    - left. apply in_or_app. left. exact Hpend.
    - right. exists Q. cbn [qw queue]. rewrite Hp, Ha. split; [exact HQ|]. split; [exact Hab|].
      destruct Halt as [H|H]; [left; exact H|right; apply in_or_app; left; exact H].
  Qed.
End WaitC2.
