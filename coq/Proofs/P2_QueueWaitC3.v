(* C09 - wait (c), Validate: the frame of the guardian, and the invariant over every reachable queued world.
     other_prop_write         the proposal reconcile of (t, i) writes another proposal record only to set its NextIndex
     write_keeps_abort        a write of the record (t, j) in Abort IN_PROGRESS by anybody but CtlProp (t, j) keeps it in
                              Abort IN_PROGRESS with the apply phase not started (J: an aborting transaction never starts to apply)
     applied_mover_requeues   a proposal reconcile in Apply IN_PROGRESS / Apply FAILED returns requeue_next, or writes nothing,
                              or writes one device event only
     abort_mover              a proposal reconcile in Abort IN_PROGRESS with Applied.Index = PrevIndex returns requeue_next or
                              writes nothing
     guard_frame_deliver      [guard_frame] for every delivery from a reachable queued world
     wait_c_reach             [wait_c s] for every qreach s. *)
From stdpp Require Import gmap.
From RecordUpdate Require Import RecordUpdate.
From Coq Require Import NArith Lia.
From OC Require Import Model.Proto2 Model.Proto2Queue Proofs.P2Base Proofs.P2Phases Proofs.P2_Order Proofs.P2_Cursor
     Proofs.P2_CursorInv Proofs.P2_CursorLink Proofs.P2_CursorChainInv Proofs.P2_Queue Proofs.P2_QueueWaitA
     Proofs.P2_QueueWaitC Proofs.P2_QueueWaitC2.
Open Scope N_scope.

Section WaitC3.
  Context {V Ch Req D : Type}.
  Context (candidate : V -> Ch -> V) (candidate_rb : V -> Ch -> V) (rollback_of : V -> Ch -> Ch)
          (overlay : V -> V -> V) (commit_merge : N -> N -> V -> V -> Ch -> V)
          (payload : N -> V -> Ch -> option Req) (record_applied : N -> N -> V -> V -> V -> Ch -> V)
          (touched : N -> V -> Ch -> V) (restore : V -> V -> V)
          (resync_payload : V -> list (option Req)) (doc_ok : V -> bool)
          (dev_apply : D -> Req -> D) (stamp : N -> Ch -> Ch) (v_empty : V) (d_empty : D) (ch_empty : Ch).

  Notation world := (@world V Ch Req D).
  Notation eff := (@eff V Ch Req).
  Notation txn := (@txn Ch).
  Notation prop := (@prop Ch).
  Notation qworld := (@qworld V Ch Req D).
  Notation rec_prop := (@rec_prop V Ch Req D candidate candidate_rb rollback_of overlay commit_merge payload record_applied
                                  touched restore doc_ok v_empty d_empty ch_empty).
  Notation reconcile := (@reconcile V Ch Req D candidate candidate_rb rollback_of overlay commit_merge payload record_applied
                                    touched restore resync_payload doc_ok stamp v_empty d_empty ch_empty).
  Notation step := (@step V Ch Req D candidate candidate_rb rollback_of overlay commit_merge payload record_applied
                          touched restore resync_payload doc_ok dev_apply stamp v_empty d_empty ch_empty).
  Notation reach := (@reach V Ch Req D candidate candidate_rb rollback_of overlay commit_merge payload record_applied
                            touched restore resync_payload doc_ok dev_apply stamp v_empty d_empty ch_empty).
  Notation qstep := (@qstep V Ch Req D candidate candidate_rb rollback_of overlay commit_merge payload record_applied
                            touched restore resync_payload doc_ok dev_apply stamp v_empty d_empty ch_empty).
  Notation qreach := (@qreach V Ch Req D candidate candidate_rb rollback_of overlay commit_merge payload record_applied
                              touched restore resync_payload doc_ok dev_apply stamp v_empty d_empty ch_empty).
  Notation inst f := (f candidate candidate_rb rollback_of overlay commit_merge payload record_applied touched restore
                        resync_payload doc_ok dev_apply stamp v_empty d_empty ch_empty).
  Notation applied_of := (@applied_of V Ch Req D).
  Notation requeue_next := (@requeue_next Ch).
  Notation wait_c := (@wait_c V Ch Req D).
  Notation guard_frame := (@guard_frame V Ch Req D).
  Notation abort_doing := (@abort_doing Ch).

  Lemma other_prop_write (o : oracle) (w : world) k k' (P' : prop) :
    In (EPutProp k' P') (fst (rec_prop o w k)) ->
    k' = k \/ exists (P : prop) n, props w !! k' = Some P /\ P' = P <| p_next := n |>.
  Proof.
    generalize (rec_prop_pcase candidate candidate_rb rollback_of overlay commit_merge payload record_applied touched restore doc_ok
                  v_empty d_empty ch_empty o w k).
    generalize (fst (rec_prop o w k)). intros es Hc Hin.
    destruct Hc as [es Hcalm|pre post k0 P P0 Hpre Hpost HP _ Hk|P C ci _ _ _ _ _ _ _].
    - destruct (proj1 (List.Forall_forall _ _) Hcalm _ Hin).
    - apply in_app_or in Hin. destruct Hin as [Hin|[[= <- <-]|Hin]].
      + destruct (proj1 (List.Forall_forall _ _) Hpre _ Hin).
      + destruct Hk as [Hk|[n Hk]]; [left; exact Hk|right; eauto].
      + destruct (proj1 (List.Forall_forall _ _) Hpost _ Hin).
    - destruct Hin as [Hin|[Hin|[[= <- _]|[]]]]; try discriminate. left. reflexivity.
  Qed.

  Lemma abort_not_applying (T : txn) : tx_wf T -> is_Some (t_abort T) -> t_apply T = Some Doing -> False.
  Proof.
    unfold tx_wf, wfb. intros Hwf [x Hx] Ha. rewrite Ha, Hx in Hwf.
    destruct (t_init T) as [[]|], (t_validate T) as [[]|], (t_commit T) as [[]|]; cbn in Hwf; discriminate Hwf.
  Qed.

  Lemma write_keeps_abort (o : oracle) (w : world) c t j (Q Q' : prop) :
    reach w -> props w !! (t, j) = Some Q -> abort_doing Q -> c <> CtlProp (t, j) ->
    In (EPutProp (t, j) Q') (fst (reconcile o w c)) -> abort_doing Q'.
  Proof.
    intros Hr HQ [Hap Hab] Hc Hin. pose proof (inst J_reach _ Hr) as HJ.
    pose proof Hin as Hin2. apply reconcile_putprop in Hin2.
    destruct Hin2 as (P & HP & _ & [(i0 & -> & _)|(T & -> & HT & _ & Hs)]).
    - cbn [Proto2.reconcile fst] in Hin. apply other_prop_write in Hin. destruct Hin as [E|(P0 & n0 & HP0 & ->)].
      + exfalso. apply Hc. cbn [fst] in *. rewrite E. reflexivity.
      + assert (EQ : Some P0 = Some Q) by (rewrite <- HP0; exact HQ). injection EQ as ->. split; cbn; assumption.
    - assert (EQ : Some P = Some Q) by (rewrite <- HP; exact HQ). injection EQ as ->. cbn [snd] in HT.
      destruct Hs as [(Hta & _ & _)|[(_ & _ & Hn & _)|[(_ & _ & _ & _ & ->)|(_ & _ & _ & _ & _ & ->)]]].
      + exfalso. destruct (j_back _ HJ _ _ HQ) as (T0 & HT0 & _ & _ & Hb & _); [right; right; left; rewrite Hab; eexists; reflexivity|].
        cbn [snd] in HT0. assert (EQ : Some T0 = Some T) by (rewrite <- HT0; exact HT). injection EQ as ->.
        eapply abort_not_applying; [eapply (j_tx _ HJ); exact HT|apply Hb; rewrite Hab; eexists; reflexivity|exact Hta].
      + rewrite Hab in Hn. discriminate.
      + split; cbn; assumption.
      + split; cbn; assumption.
  Qed.

  Lemma applied_mover_requeues (o : oracle) (w : world) t a (Pa : prop) :
    props w !! (t, a) = Some Pa -> p_apply Pa = Some Doing \/ p_apply Pa = Some Failed ->
    snd (rec_prop o w (t, a)) = requeue_next t Pa \/ fst (rec_prop o w (t, a)) = [] \/
    exists ev, fst (rec_prop o w (t, a)) = [EDev ev].
  Proof.
    intros HP Hph.
    (* the statement as a predicate of the reconcile's output, so that the case analysis runs over one copy of its body *)
    set (ok := fun r : list eff * result => snd r = requeue_next t Pa \/ fst r = [] \/ exists ev, fst r = [EDev ev]).
    change (ok (rec_prop o w (t, a))). unfold Proto2.rec_prop. rewrite HP.
    destruct Hph as [-> | ->].
    - repeat (match goal with |- context [match ?x with _ => _ end] => destruct x end; cbn [classify observed]);
        unfold ok; cbn [fst snd]; eauto.
    - destruct (cfgs w !! t); unfold ok; auto.
  Qed.

  Lemma abort_mover (o : oracle) (w : world) t a (Pa : prop) :
    props w !! (t, a) = Some Pa -> abort_doing Pa -> applied_of w t = p_prev Pa ->
    snd (rec_prop o w (t, a)) = requeue_next t Pa \/ fst (rec_prop o w (t, a)) = [].
  Proof.
    intros HP [Hap Hab] Heq.
    destruct (mover_requeues candidate candidate_rb rollback_of overlay commit_merge payload record_applied touched restore doc_ok
                v_empty d_empty ch_empty o w t a Pa HP Hap (or_intror Hab)) as [H|[H|(_ & _ & Hne)]]; auto.
    destruct (Hne Heq).
  Qed.

  Theorem guard_frame_deliver (s : qworld) n o c :
    qreach s -> nth_error (queue s) n = Some c -> guard_frame s (qstep s (QDeliver n o)) c.
  Proof.
    intros Hq Hn t j Hc (Q & HQ & Hab & Halt). destruct (inst qreach_invs _ Hq) as (Hr & _ & HTI & _).
    destruct (inst deliver_shape s n o c Hn) as (Hw & Hkeep & _ & _).
    pose proof (inst deliver_is_step s n o c Hn) as Hst.
    destruct (inst deliver_prop_post s n o c _ _ Hn HQ) as (Q' & HQ' & [->|Hput]).
    2:{ exists Q'. split; [exact HQ'|]. split.
        - eapply write_keeps_abort; [exact Hr|exact HQ|exact Hab|exact Hc|exact Hput].
        - right. apply (inst delivery_wakes_owners s n o c _ _ Hn Hput I). right. left. reflexivity. }
    exists Q. split; [exact HQ'|]. split; [exact Hab|].
    destruct Halt as [Ha|Hp]; [|right; exact (Hkeep _ Hp Hc)].
    destruct (N.eq_dec (applied_of (qw (qstep s (QDeliver n o))) t) (p_prev Q)) as [E|E]; [|left; exact E].
    right.
    assert (Hmv : applied_of (step (qw s) (LRec c (length (fst (reconcile o (qw s) c))) o)) t <> applied_of (qw s) t).
    { rewrite <- Hst, E. intros X. apply Ha. symmetry. exact X. }
    apply applied_moves_by_successor in Hmv.
    destruct Hmv as (a & k & o' & Pa & Hl & HPa & Hai & Hcases).
    injection Hl as -> _ <-. rewrite <- Hst, E in Hai. subst a.
    assert (Hpq : p_prev Q <> 0) by exact (stored_pos _ _ _ _ HTI HPa).
    destruct (inst pred_requeues s n o t j Q Hq HQ Hpq) as (Pa' & HPa' & _ & Hwake).
    rewrite HPa in HPa'. injection HPa' as <-.
    assert (Hres : snd (rec_prop o (qw s) (t, p_prev Q)) = requeue_next t Pa \/ fst (rec_prop o (qw s) (t, p_prev Q)) = [] \/
                   exists ev, fst (rec_prop o (qw s) (t, p_prev Q)) = [EDev ev]).
    { destruct Hcases as [(Hd & _)|[(Hf & _)|(Hn1 & Hd & Heq)]].
      - apply applied_mover_requeues; [exact HPa|left; exact Hd].
      - apply applied_mover_requeues; [exact HPa|right; exact Hf].
      - destruct (abort_mover o (qw s) t (p_prev Q) Pa HPa (conj Hn1 Hd) Heq) as [H|H]; [left; exact H|right; left; exact H]. }
    destruct Hres as [Hs|[Hf|(ev & Hf)]].
    - exact (Hwake Hn Hs).
    - exfalso. apply Ha. rewrite <- E. rewrite Hw. cbn [Proto2.reconcile]. rewrite Hf. reflexivity.
    - exfalso. apply Ha. rewrite <- E. rewrite Hw. cbn [Proto2.reconcile]. rewrite Hf. cbn [fold_left].
      unfold P2_Cursor.applied_of. rewrite cfgs_apply_eff. reflexivity.
  Qed.

  Theorem wait_c_reach (s : qworld) : qreach s -> wait_c s.
  Proof.
    revert s. apply qreach_ind.
    - intros t i P H. cbn in H. rewrite lookup_empty in H. discriminate.
    - intros s n o c Hq IH Hn. apply wait_c_deliver with (c := c); try assumption. apply guard_frame_deliver; assumption.
    - intros s l _ IH Hl. apply wait_c_env; assumption.
  Qed.
End WaitC3.
