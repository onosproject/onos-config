(* C09 on the executable queued model (Model/Proto2Queue.v over Model/P2Inst.v), by evaluation of the concrete
   delivery orders of Proofs/P2_QueueWitnessData.v:
     - regression examples: the scenarios of the repaired lost wake-ups (F-02a dead_prev, F-02b initfail_successor,
       F-02e sync_wakeup, F-02d serializable_gate, F-C09-23 sync_serializable, commit_hidden_by_apply) and of the
       repaired wedged target (F-21 = F-C09-21) end idle, at a fixed point, every target connected, every transaction
       final,
     - the busy wait that is left (F-C09-22): while a device is away, behind a SERIALIZABLE transaction, everything that is
       pending is a pair of proposals that re-queue each other: the work set never becomes empty,
     - the hypotheses of the fixed-point theorem are satisfiable on a non-trivial reachable world. *)
From stdpp Require Import gmap.
From Coq Require Import NArith String.
From OC Require Import Base.Bytes Model.P2Pure Model.Proto2 Model.P2Inst Model.Proto2Queue Model.P2QInst Proofs.P2_QueueWitnessData.
From OC Require Import Proofs.P2Base Proofs.P2Phases Proofs.P2_Queue.
Open Scope N_scope.

Definition phis (o : option ph) (p : ph) : bool := bool_decide (o = Some p).

(* reachability in the executable queued model *)
Definition q_reach (s : QWd) : Prop := exists ls, s = q_run ls.

Definition tx_finalb (T : Txn) : bool :=
  match t_state T with
  | TApplied => true
  | TFailed => phis (t_apply T) Failed || phis (t_abort T) Done
  | _ => false
  end.
(* every configured target is connected: live connection, master relation of this node, synchronised in the current term *)
Definition connectedb (w : Wd) : bool :=
  forallb (fun tc => match c_master (snd tc) with
                     | Some m => bool_decide (conns w !! m = Some (fst tc)) && bool_decide (rels w !! m = Some (fst tc, true))
                     | None => false end
                     && negb (c_aterm (snd tc) <? c_term (snd tc)) && negb (bool_decide (c_state (snd tc) = CSynchronizing))
                     && negb (is_none (targets w !! (fst tc)))) (map_to_list (cfgs w)).
Definition some_tx_not_final (w : Wd) : bool := existsb (fun it => negb (tx_finalb (snd it))) (map_to_list (txs w)).
Definition all_tx_final (w : Wd) : bool := forallb (fun it => tx_finalb (snd it)) (map_to_list (txs w)).
(* no stored id has anything to do under oracle [o] *)
Definition quiescentb (o : oracle) (w : Wd) : bool :=
  forallb (fun c => match fst (p2_reconcile o w c) with [] => true | _ => false end) (q_all_ctrls w).

(** * The work set need not become empty: a busy wait while a device is away (F-C09-22) *)
(* a reachable world (the device of the target has never connected: the first, SERIALIZABLE transaction waits in APPLYING,
   the second at the apply gate, the third in APPLYING) in which everything that is pending is a pair of proposals whose
   reconciles - whatever the oracle - do nothing but re-queue each other: whatever is delivered from here on, the world
   stays as it is and the work set stays non-empty, until the environment moves *)
Definition is_prop_id (k : N * N) (c : ctrl) : bool :=
  match c with CtlProp (t, i) => (t =? fst k) && (i =? snd k) | _ => false end.
Definition busy_wait : Prop :=
  exists (s : QWd) (k1 k2 : N * N),
    q_reach s /\ connectedb (qw s) = false /\ some_tx_not_final (qw s) = true /\ queue s <> [] /\
    forallb (fun c => is_prop_id k1 c || is_prop_id k2 c) (queue s) = true /\ forall o,
      p2_reconcile o (qw s) (CtlProp k1) = ([], RRequeueProp k2) /\ p2_reconcile o (qw s) (CtlProp k2) = ([], RRequeueProp k1).

Lemma quiescent_all (w : Wd) : (forall o, quiescentb o w = true) -> forall o c, fst (p2_reconcile o w c) = [].
Proof.
  intros Hall o c. destruct (fst (p2_reconcile o w c)) as [|e r] eqn:E; [reflexivity|exfalso].
  assert (He : fst (p2_reconcile o w c) <> []) by (rewrite E; discriminate).
  pose proof (enabled_stored candidate candidate_rb rollback_of overlay commit_merge payload record_applied touched restore
                             resync_payload doc_ok stamp nil nil nil o w c He) as Hin.
  specialize (Hall o). unfold quiescentb in Hall. rewrite forallb_forall in Hall. specialize (Hall c Hin).
  rewrite E in Hall. discriminate.
Qed.

Theorem busy_wait_device_away : busy_wait.
Proof.
  exists (q_run wit_busy_wait), (1, 3), (1, 2). split; [exists wit_busy_wait; reflexivity|].
  split; [vm_compute; reflexivity|]. split; [vm_compute; reflexivity|]. split; [vm_compute; discriminate|].
  split; [vm_compute; reflexivity|]. intros [pl v a ch ord]. vm_compute. split; reflexivity.
Qed.

(** * Regression examples: the repaired scenarios come to rest with every transaction final *)
Definition ends_well (ls : list QLabel) : bool :=
  let s := q_run ls in idle s && quiescentb o_quiet (qw s) && all_tx_final (qw s) && connectedb (qw s).
(* Set rejected by the plugin, then a Set on the same target (F-02a) *)
Example regression_dead_prev : ends_well reg_dead_prev = true.
Proof. vm_compute. reflexivity. Qed.
(* Set refused by the device, then a Set on the same target (F-02a, apply-FAILED predecessor) *)
Example regression_apply_failed : ends_well reg_apply_failed = true.
Proof. vm_compute. reflexivity. Qed.
(* rollback of a missing index, then a Set (F-02b) *)
Example regression_initfail_successor : ends_well reg_initfail_successor = true.
Proof. vm_compute. reflexivity. Qed.
(* SERIALIZABLE Set, then a Set on the same target (F-02d) *)
Example regression_serializable_gate : ends_well reg_serializable_gate = true.
Proof. vm_compute. reflexivity. Qed.
(* SERIALIZABLE Set, then two Sets on the same target (F-02d, F-C09-22) *)
Example regression_serializable_three : ends_well reg_serializable_three = true.
Proof. vm_compute. reflexivity. Qed.
(* SERIALIZABLE Set and a Set before the device ever connects, then it connects (F-C09-23) *)
Example regression_sync_serializable : ends_well reg_sync_serializable = true.
Proof. vm_compute. reflexivity. Qed.
(* SERIALIZABLE Set on {t1, t2}, a follower on t1 only and one on t2 only, devices connect afterwards (both followers
   must be woken by the transaction event: seeded change C09-m4) *)
Example regression_serializable_two_followers : ends_well reg_serializable_two_followers = true.
Proof. vm_compute. reflexivity. Qed.
(* SERIALIZABLE Set and its rollback before the device ever connects, then it connects (the rollback waits at the apply
   gate and has lowered Configuration.Index: the walk to the first unapplied proposal starts at Proposed.Index; seeded
   change C09-m5) *)
Example regression_sync_serializable_rollback : ends_well reg_sync_serializable_rollback = true.
Proof. vm_compute. reflexivity. Qed.
(* Set and its rollback before the device ever connects, then it connects (F-02e) *)
Example regression_sync_wakeup : ends_well reg_sync_wakeup = true.
Proof. vm_compute. reflexivity. Qed.
(* Set on {t1 refuses, t2 fine}, then a Set on t2 (F-21: before the repair the target stayed wedged) *)
Example regression_partial_apply_failure : ends_well reg_partial_apply_failure = true.
Proof. vm_compute. reflexivity. Qed.
(* two Sets committed while the device is away, then it connects (commit_hidden_by_apply) *)
Example regression_two_changes_offline : ends_well reg_two_changes_offline = true.
Proof. vm_compute. reflexivity. Qed.

(** * The hypotheses of the fixed-point theorem are satisfiable on a non-trivial reachable world *)
Definition inst_tokens (s : QWd) : Prop :=
  tokens candidate candidate_rb rollback_of overlay commit_merge payload record_applied touched restore resync_payload doc_ok
         stamp nil nil nil s.
Lemma tokens_by_check (s : QWd) : (forall o, quiescentb o (qw s) = true) -> inst_tokens s.
Proof.
  intros Hall c o He. exfalso. apply He. exact (quiescent_all (qw s) Hall o c).
Qed.

Example tokens_satisfiable :
  exists s : QWd, q_reach s /\ inst_tokens s /\ idle s = true /\ all_tx_final (qw s) = true /\ connectedb (qw s) = true.
Proof.
  exists (q_run reg_sync_wakeup). split; [exists reg_sync_wakeup; reflexivity|]. split; [|repeat split; vm_compute; reflexivity].
  apply tokens_by_check. intros [pl v a ch ord]. vm_compute. reflexivity.
Qed.
