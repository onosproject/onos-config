(* C06 (protocol part) - refused rollbacks alter nothing; an accepted rollback replays exactly the values and the index
   recorded by the change it rolls back.  Single-step facts about reconcileValidate / reconcileCommit of the proposal
   reconciler and reconcileInitialize / reconcileValidate of the transaction reconciler (Model/Proto2.v), plus: in every
   reachable world a committed path-value map is written only by the commit of a proposal whose transaction has a
   Commit phase and no Abort phase. *)
From stdpp Require Import gmap.
From RecordUpdate Require Import RecordUpdate.
From Coq Require Import NArith Lia String.
From OC Require Import Proofs.P2_Cursor Proofs.P2_CursorInv.
From OC Require Import Base.Bytes Model.P2Pure Model.Proto2 Model.P2Inst Proofs.P2Base Proofs.P2Phases Proofs.P2_Failure Proofs.P2_Crash.
Open Scope N_scope.

Section Rollback.
  Context {V Ch Req D : Type}.
  Context (candidate : V -> Ch -> V) (candidate_rb : V -> Ch -> V) (rollback_of : V -> Ch -> Ch)
          (overlay : V -> V -> V) (commit_merge : N -> N -> V -> V -> Ch -> V)
          (payload : N -> V -> Ch -> option Req) (record_applied : N -> N -> V -> V -> V -> Ch -> V)
          (touched : N -> V -> Ch -> V) (restore : V -> V -> V)
          (resync_payload : V -> list (option Req)) (doc_ok : V -> bool)
          (dev_apply : D -> Req -> D) (stamp : N -> Ch -> Ch) (v_empty : V) (d_empty : D) (ch_empty : Ch).

  Notation world := (@world V Ch Req D).
  Notation eff := (@eff V Ch Req).
  Notation txn := (@txn Ch).
  Notation prop := (@prop Ch).
  Notation config := (@config V).
  Notation rec_tx := (@rec_tx V Ch Req D stamp).
  Notation rec_prop := (@rec_prop V Ch Req D candidate candidate_rb rollback_of overlay commit_merge payload record_applied
                                  touched restore doc_ok v_empty d_empty ch_empty).
  Notation reconcile := (@reconcile V Ch Req D candidate candidate_rb rollback_of overlay commit_merge payload record_applied
                                    touched restore resync_payload doc_ok stamp v_empty d_empty ch_empty).
  Notation step := (@step V Ch Req D candidate candidate_rb rollback_of overlay commit_merge payload record_applied
                          touched restore resync_payload doc_ok dev_apply stamp v_empty d_empty ch_empty).
  Notation reach := (@reach V Ch Req D candidate candidate_rb rollback_of overlay commit_merge payload record_applied
                            touched restore resync_payload doc_ok dev_apply stamp v_empty d_empty ch_empty).
  Notation view := (@view V overlay).
  Notation aview := (@aview V overlay).
  Notation committing := (@committing V Ch Req D).

  (* the proposal is VALIDATING and its predecessor is committed *)
  Record validating (w : world) (t i : N) (P : prop) (C : config) : Prop := {
    vl_prop : props w !! (t, i) = Some P;
    vl_apply : p_apply P = None; vl_abort : p_abort P = None; vl_commit : p_commit P = None;
    vl_validate : p_validate P = Some Doing;
    vl_cfg : cfgs w !! t = Some C;
    vl_prev : p_prev P = 0 \/ c_committed C = p_prev P }.

  Definition refused (t i : N) (P : prop) (f : ftype) : list eff * result :=
    ([EPutProp (t, i) (P <| p_validate := Some Failed |> <| p_vfail := Some f |>)], RDone).

  Lemma validating_enter (o : oracle) (w : world) t i P C :
    validating w t i P C -> o_plugin o = true ->
    rec_prop o w (t, i) =
      let finish (cand : V) (rbi : N) (rbv : option Ch) :=
        if negb (doc_ok cand) then ([], RRetry)
        else if o_verdict o
        then ([EPutProp (t, i) (P <| p_rbindex := rbi |> <| p_rbvalues := rbv |> <| p_validate := Some Done |>)], RDone)
        else refused t i P FInvalid in
      match p_details P with
      | PChange ch => finish (candidate (view C) ch) (c_index C) (Some (rollback_of (view C) ch))
      | PRollback ri =>
        if negb (c_index C =? ri) then refused t i P FForbidden
        else match props w !! (t, ri) with
        | None => refused t i P FNotFound
        | Some Q =>
          match p_details Q with
          | PChange _ => finish (candidate_rb (view C) (default ch_empty (p_rbvalues Q))) (p_rbindex Q) (p_rbvalues Q)
          | PRollback _ => refused t i P FForbidden
          end
        end
      end.
  Proof.
    intros [HP Ha Hb Hc Hv HC Hprev] Hpl. unfold Proto2.rec_prop, Proto2.vfail, refused. rewrite HP, Ha, Hb, Hc, Hv, HC.
    replace (negb (p_prev P =? 0) && negb (c_committed C =? p_prev P)) with false.
    2:{ symmetry. destruct Hprev as [H0|H0]; [rewrite H0; reflexivity|]. rewrite H0, N.eqb_refl. apply andb_false_r. }
    rewrite Hpl. reflexivity.
  Qed.

  (* (a) the configuration does not currently reflect the change that is to be rolled back *)
  Lemma rollback_not_latest (o : oracle) (w : world) t i P C ri :
    validating w t i P C -> o_plugin o = true -> p_details P = PRollback ri -> c_index C <> ri ->
    rec_prop o w (t, i) = refused t i P FForbidden.
  Proof.
    intros Hv Hpl Hd Hne. rewrite (validating_enter o w t i P C Hv Hpl). cbv zeta. rewrite Hd.
    replace (c_index C =? ri) with false by (symmetry; apply N.eqb_neq; exact Hne). reflexivity.
  Qed.

  (* (b) the target has no proposal at that index *)
  Lemma rollback_missing (o : oracle) (w : world) t i P C ri :
    validating w t i P C -> o_plugin o = true -> p_details P = PRollback ri -> c_index C = ri -> props w !! (t, ri) = None ->
    rec_prop o w (t, i) = refused t i P FNotFound.
  Proof.
    intros Hv Hpl Hd He Hn. rewrite (validating_enter o w t i P C Hv Hpl). cbv zeta. rewrite Hd, He, N.eqb_refl, Hn. reflexivity.
  Qed.

  (* (c) the proposal at that index is itself a rollback *)
  Lemma rollback_of_rollback (o : oracle) (w : world) t i P C ri (Q : prop) rj :
    validating w t i P C -> o_plugin o = true -> p_details P = PRollback ri -> c_index C = ri ->
    props w !! (t, ri) = Some Q -> p_details Q = PRollback rj ->
    rec_prop o w (t, i) = refused t i P FForbidden.
  Proof.
    intros Hv Hpl Hd He HQ HdQ. rewrite (validating_enter o w t i P C Hv Hpl). cbv zeta. rewrite Hd, He, N.eqb_refl, HQ, HdQ. reflexivity.
  Qed.

  (* accepted: the rollback proposal takes over exactly the index and the values recorded by the change *)
  Lemma rollback_accepted (o : oracle) (w : world) t i P C ri (Q : prop) ch :
    validating w t i P C -> o_plugin o = true -> p_details P = PRollback ri -> c_index C = ri ->
    props w !! (t, ri) = Some Q -> p_details Q = PChange ch ->
    doc_ok (candidate_rb (view C) (default ch_empty (p_rbvalues Q))) = true -> o_verdict o = true ->
    rec_prop o w (t, i) =
      ([EPutProp (t, i) (P <| p_rbindex := p_rbindex Q |> <| p_rbvalues := p_rbvalues Q |> <| p_validate := Some Done |>)], RDone).
  Proof.
    intros Hv Hpl Hd He HQ HdQ Hdoc Hver. rewrite (validating_enter o w t i P C Hv Hpl). cbv zeta.
    rewrite Hd, He, N.eqb_refl, HQ, HdQ, Hdoc, Hver. reflexivity.
  Qed.

  (* what a change records when it is validated: the rollback values computed from the configuration it was validated
     against, and that configuration's index *)
  Lemma change_records (o : oracle) (w : world) t i P C ch :
    validating w t i P C -> o_plugin o = true -> p_details P = PChange ch ->
    doc_ok (candidate (view C) ch) = true -> o_verdict o = true ->
    rec_prop o w (t, i) =
      ([EPutProp (t, i) (P <| p_rbindex := c_index C |> <| p_rbvalues := Some (rollback_of (view C) ch) |> <| p_validate := Some Done |>)], RDone).
  Proof.
    intros Hv Hpl Hd Hdoc Hver. rewrite (validating_enter o w t i P C Hv Hpl). cbv zeta. rewrite Hd, Hdoc, Hver. reflexivity.
  Qed.

  (* the commit of a rollback merges exactly the values it carries and sets the configuration index to the recorded one *)
  Lemma rollback_commit (o : oracle) (w : world) t i P C ri :
    committing w t i P C -> c_committed C = p_prev P -> p_details P = PRollback ri ->
    rec_prop o w (t, i) =
      ([EPutValues t (commit_merge (o_order o) i (c_values C) (view C) (default ch_empty (p_rbvalues P)));
        EPutCfg t (C <| c_index := p_rbindex P |> <| c_committed := i |> <| c_inline := v_empty |> <| c_ainline := aview C |>);
        EPutProp (t, i) (P <| p_commit := Some Done |>)], requeue_next t P) /\
    (forall k, (2 <= k)%nat ->
       exists C', cfgs (step w (LRec (CtlProp (t, i)) k o)) !! t = Some C' /\ c_index C' = p_rbindex P /\ c_committed C' = i /\
                  c_values C' = commit_merge (o_order o) i (c_values C) (view C) (default ch_empty (p_rbvalues P))).
  Proof.
    intros Hc He Hd.
    pose proof (commit_effects_merge candidate candidate_rb rollback_of overlay commit_merge payload record_applied touched restore
                  doc_ok v_empty d_empty ch_empty o w t i P C Hc He) as Hr.
    unfold P2_Crash.commit_entry, Proto2.rb_change in Hr. rewrite Hd in Hr. split; [exact Hr|].
    intros k Hk. cbn [Proto2.step Proto2.reconcile]. rewrite Hr. cbn [fst].
    destruct k as [|[|[|k]]]; try lia; cbn [firstn]; rewrite ?firstn_nil; cbn [fold_left];
      rewrite !cfgs_apply_eff, (cm_cfg _ _ _ _ _ Hc), lookup_insert; cbn; rewrite lookup_insert;
      eexists; (split; [reflexivity|]); repeat split.
  Qed.

  (* the transaction is INITIALIZING, has no proposal list yet and is not held back by its predecessor *)
  Record initializing (w : world) (i : N) (T : txn) : Prop := {
    in_tx : txs w !! i = Some T;
    in_apply : t_apply T = None; in_abort : t_abort T = None; in_commit : t_commit T = None; in_validate : t_validate T = None;
    in_init : t_init T = Some Doing;
    in_props : t_props T = None;
    in_prev : match txs w !! (i - 1) with
              | Some P => is_none (t_init P) || bool_decide (t_init P = Some Doing)
              | None => false end = false }.

  Definition init_failed (i : N) (T : txn) (f : ftype) : list eff * result :=
    ([EPutTx i (T <| t_state := TFailed |> <| t_failure := Some f |> <| t_abort := Some Doing |> <| t_init := Some Failed |>)], RRequeueTx (i + 1)).

  Lemma tx_rollback_missing (w : world) i T ri :
    initializing w i T -> t_details T = TRollback ri -> txs w !! ri = None -> rec_tx w i = init_failed i T FNotFound.
  Proof.
    intros [HT H1 H2 H3 H4 H5 H6 H7] Hd Hn. unfold Proto2.rec_tx, fail_init, init_failed.
    rewrite HT. cbv zeta. rewrite H1, H2, H3, H4, H5, H7, H6, Hd, Hn. reflexivity.
  Qed.

  Lemma tx_rollback_of_rollback (w : world) i T ri (R : txn) rj :
    initializing w i T -> t_details T = TRollback ri -> txs w !! ri = Some R -> t_details R = TRollback rj ->
    rec_tx w i = init_failed i T FForbidden.
  Proof.
    intros [HT H1 H2 H3 H4 H5 H6 H7] Hd HR HdR. unfold Proto2.rec_tx, fail_init, init_failed.
    rewrite HT. cbv zeta. rewrite H1, H2, H3, H4, H5, H7, H6, Hd, HR, HdR. reflexivity.
  Qed.

  (* a proposal that failed validation fails its transaction, which enters its Abort phase *)
  Lemma tx_validate_failed (w : world) i (T : txn) tg :
    txs w !! i = Some T -> t_apply T = None -> t_abort T = None -> t_commit T = None -> t_validate T = Some Doing ->
    t_props T = Some tg ->
    (forall t, In t tg -> exists p, props w !! (t, i) = Some p /\ is_Some (p_validate p)) ->
    (exists t p, In t tg /\ props w !! (t, i) = Some p /\ p_validate p = Some Failed) ->
    exists t p, In t tg /\ props w !! (t, i) = Some p /\ p_validate p = Some Failed /\
      rec_tx w i = ([EPutTx i (T <| t_state := TFailed |> <| t_failure := p_vfail p |> <| t_abort := Some Doing |>
                                 <| t_validate := Some Failed |>)], RDone).
  Proof.
    intros HT H1 H2 H3 H4 Hp Hall Hex.
    unfold Proto2.rec_tx. rewrite HT. cbv zeta. rewrite H1, H2, H3, H4, Hp. cbn [default]. unfold id.
    apply phase_scan_failed; assumption.
  Qed.

  Definition no_values (e : eff) : Prop := match e with EPutValues _ _ => False | _ => True end.

  Lemma rec_prop_values (o : oracle) (w : world) t i :
    Forall no_values (fst (rec_prop o w (t, i))) \/
    exists P C, committing w t i P C /\ c_committed C = p_prev P.
  Proof.
    destruct (rec_prop_shape candidate candidate_rb rollback_of overlay commit_merge payload record_applied touched restore
                doc_ok v_empty d_empty ch_empty o w t i) as [| | |? ? ? ? [->|[? ->]]|P C| | |];
      try solve [left; repeat constructor].
    right. exists P, C. split; [split|]; assumption.
  Qed.

  (* an invocation that writes a committed path-value map is the commit of a proposal, merging on top of its predecessor *)
  Lemma values_written_only_by_commit (o : oracle) (w : world) c t v :
    In (EPutValues t v) (fst (reconcile o w c)) ->
    exists t' i P C, c = CtlProp (t', i) /\ committing w t' i P C /\ c_committed C = p_prev P.
  Proof.
    intros Hin. destruct c as [i|[t' i]|t'|t'|cc]; cbn [Proto2.reconcile] in Hin.
    - pose proof (rec_tx_tp stamp w i) as Hf. rewrite List.Forall_forall in Hf. destruct (Hf _ Hin).
    - destruct (rec_prop_values o w t' i) as [Hf|(P & C & Hc & He)]; [rewrite List.Forall_forall in Hf; destruct (Hf _ Hin)|].
      exists t', i, P, C. auto.
    - destruct (rec_cfg_kinds _ _ _ _ _ _ _ _ _ Hin).
    - destruct (rec_master_only_putcfg _ _ _ _ _ _ _ Hin).
    - destruct (rec_conn_only_rel _ _ _ Hin).
  Qed.

  (* ... and in a reachable world the transaction of that proposal has a Commit phase and no Abort phase: a transaction
     that failed in Initialize or Validate (refused rollback, rejected change) never alters stored values on ANY of its
     targets *)
  Lemma values_written_only_by_committing_tx (o : oracle) (w : world) c t v :
    reach w -> In (EPutValues t v) (fst (reconcile o w c)) ->
    exists t' i T, c = CtlProp (t', i) /\ txs w !! i = Some T /\ is_Some (t_commit T) /\ t_abort T = None.
  Proof.
    intros Hr Hin. destruct (values_written_only_by_commit o w c t v Hin) as (t' & i & P & C & -> & Hc & _).
    pose proof Hr as HJ. apply J_reach in HJ.
    destruct (j_back _ HJ _ _ (cm_prop _ _ _ _ _ Hc)) as (T & HT & _ & Hcm & _).
    { right; left. rewrite (cm_commit _ _ _ _ _ Hc). eexists; reflexivity. }
    cbn in HT. exists t', i, T. split; [reflexivity|]. split; [exact HT|].
    assert (Hsc : is_Some (t_commit T)) by (apply Hcm; rewrite (cm_commit _ _ _ _ _ Hc); eexists; reflexivity).
    split; [exact Hsc|].
    destruct (wfb_spec _ _ _ _ _ _ (j_tx _ HJ _ _ HT)) as (_ & _ & _ & Hab & _).
    destruct (t_abort T) as [x|]; [|reflexivity].
    destruct Hab as [Hc0 _]; [eexists; reflexivity|]. rewrite Hc0 in Hsc. destruct Hsc; discriminate.
  Qed.

  Lemma aborted_tx_writes_no_values (o : oracle) (w : world) i (T : txn) t (k : nat) :
    reach w -> txs w !! i = Some T -> is_Some (t_abort T) ->
    forall t' v, ~ In (EPutValues t' v) (firstn k (fst (reconcile o w (CtlProp (t, i))))).
  Proof.
    intros Hr HT Hab t' v Hin. eapply or_introl, in_or_app in Hin. rewrite firstn_skipn in Hin.
    destruct (values_written_only_by_committing_tx o w _ t' v Hr Hin) as (t1 & i1 & T1 & [= <- <-] & HT1 & _ & Hna).
    rewrite HT in HT1. injection HT1 as <-. rewrite Hna in Hab. destruct Hab; discriminate.
  Qed.
End Rollback.

(** * The hypotheses are satisfiable: reachable worlds of the executable instance Model/P2Inst.v *)
Definition z_validating := @validating cmap cmap req dstate.
Definition z_initializing := @initializing cmap cmap req dstate.
(* two applied changes on target 1: /a = 1 (index 1), /b = 2 (index 2) *)
Definition z_two : list Label :=
  [LTarget 1 false; LConnUp 10 1; LChange [(1, x_ch "/a" "1")] true false; LChange [(1, x_ch "/b" "2")] true false]
  ++ x_rounds 20 (x_oracle COk) 1 [1; 2].
Definition z_rb (ri : N) (n : nat) : list Label := z_two ++ [LRollback ri] ++ x_rounds n (x_oracle COk) 1 [3].

Ltac z_validating_tac := split; vm_compute; first [reflexivity | left; reflexivity | right; reflexivity].

(* rollback of change 1 while the configuration reflects change 2 *)
Example z_not_latest_hyps : exists P C,
  z_validating (x_run (z_rb 1 9)) 1 3 P C /\ p_details P = PRollback 1 /\ c_index C <> 1.
Proof. eexists _, _. split; [z_validating_tac|]. split; vm_compute; [reflexivity|discriminate]. Qed.

(* rollback of change 2, the latest *)
Example z_accepted_hyps : exists P C Q ch,
  z_validating (x_run (z_rb 2 9)) 1 3 P C /\ p_details P = PRollback 2 /\ c_index C = 2 /\
  props (x_run (z_rb 2 9)) !! (1, 2) = Some Q /\ p_details Q = PChange ch /\
  doc_ok (candidate_rb (view overlay C) (default nil (p_rbvalues Q))) = true.
Proof.
  eexists _, _, _, _. split; [z_validating_tac|]. repeat (split; [vm_compute; reflexivity|]). vm_compute; reflexivity.
Qed.

Example z_commit_hyps : exists P C,
  y_committing (x_run (z_rb 2 12)) 1 3 P C /\ c_committed C = p_prev P /\ p_details P = PRollback 2 /\
  p_rbindex P = 1 /\ p_rbvalues P = Some [(B "/b", mkPV (B "/b") [] true 0)].
Proof.
  eexists _, _. split; [split; vm_compute; reflexivity|]. repeat (split; [vm_compute; reflexivity|]). vm_compute; reflexivity.
Qed.

(* ... and after its commit and apply the configuration is back to /a = 1 at index 1 *)
Example z_restored :
  y_live (x_run (z_rb 2 16)) 1 = [(B "/a", B "1")] /\
  (c_index <$> cfgs (x_run (z_rb 2 16)) !! 1) = Some 1 /\ y_state (x_run (z_rb 2 16)) 3 = Some TApplied.
Proof. repeat (split; [vm_compute; reflexivity|]). vm_compute; reflexivity. Qed.

(* rollback of an index that does not exist; rollback of a rollback *)
Example z_tx_missing_hyps : exists T,
  z_initializing (x_run (z_rb 7 1)) 3 T /\ t_details T = TRollback 7 /\ txs (x_run (z_rb 7 1)) !! 7 = None.
Proof. eexists. split; [split; vm_compute; reflexivity|]. split; vm_compute; reflexivity. Qed.

Definition z_rb_rb : list Label := z_rb 2 16 ++ [LRollback 3] ++ x_rounds 1 (x_oracle COk) 1 [4].
Example z_tx_rb_of_rb_hyps : exists T R,
  z_initializing (x_run z_rb_rb) 4 T /\ t_details T = TRollback 3 /\ txs (x_run z_rb_rb) !! 3 = Some R /\ t_details R = TRollback 2.
Proof. eexists _, _. split; [split; vm_compute; reflexivity|]. repeat (split; [vm_compute; reflexivity|]). vm_compute; reflexivity. Qed.

(* the refused proposal fails its transaction *)
Definition z_refused : Wd := x_run (z_rb 1 9 ++ [LRec (CtlProp (1, 3)) 9 (x_oracle COk)]).
Example z_tx_validate_failed_hyps : exists T P,
  txs z_refused !! 3 = Some T /\ t_apply T = None /\ t_abort T = None /\ t_commit T = None /\ t_validate T = Some Doing /\
  t_props T = Some [1] /\ props z_refused !! (1, 3) = Some P /\ p_validate P = Some Failed /\ p_vfail P = Some FForbidden.
Proof. eexists _, _. repeat (split; [vm_compute; reflexivity|]). vm_compute; reflexivity. Qed.

Example z_aborted_hyps : exists T,
  txs (x_run (z_rb 1 10)) !! 3 = Some T /\ is_Some (t_abort T) /\ y_live (x_run (z_rb 1 12)) 1 = y_live (x_run z_two) 1.
Proof. eexists. split; [vm_compute; reflexivity|]. split; vm_compute; [eexists|]; reflexivity. Qed.

(* the proposal-level checks (b) "no proposal at that index" and (c) "the proposal at that index is a rollback" are
   defensive: the transaction reconciler refuses both cases before any proposal is created, and the configuration index
   is only ever the index of a change.  Their hypotheses are satisfiable on constructed (not reachable) worlds: *)
Definition z_P (ri : N) : Prop2 := mkProp (PRollback ri) 0 0 0 None (Some Done) (Some Doing) None None None None None 0.
Definition z_C (ix : N) : Cfg := mkCfg ix [] [] [] [] 3 0 0 CSynchronized None 0 None 0.
Example z_missing_hyps :
  z_validating (mk_world [] 4 [((1, 3), z_P 2)] [(1, z_C 2)] [] [] [] [] []) 1 3 (z_P 2) (z_C 2) /\
  props (mk_world [] 4 [((1, 3), z_P 2)] [(1, z_C 2)] [] [] [] [] []) !! (1, 2) = None.
Proof. split; [z_validating_tac|vm_compute; reflexivity]. Qed.
Example z_rb_of_rb_hyps :
  z_validating (mk_world [] 4 [((1, 3), z_P 2); ((1, 2), z_P 1)] [(1, z_C 2)] [] [] [] [] []) 1 3 (z_P 2) (z_C 2) /\
  props (mk_world [] 4 [((1, 3), z_P 2); ((1, 2), z_P 1)] [(1, z_C 2)] [] [] [] [] []) !! (1, 2) = Some (z_P 1).
Proof. split; [z_validating_tac|vm_compute; reflexivity]. Qed.
