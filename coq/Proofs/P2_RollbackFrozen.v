(* C06: the rollback values and the rollback index recorded with the verdict of a validation, and the details of the
   proposal, never change once the proposal is validated - in ANY step from ANY world (all labels, oracles, crash
   prefixes, every pure layer).  The commit of a rollback therefore replays exactly what was recorded when the change it
   rolls back was validated (C06_change_records_rollback_values / C06_rollback_uses_recorded_values give the recording
   steps). *)
From stdpp Require Import gmap.
From RecordUpdate Require Import RecordUpdate.
From Coq Require Import NArith Lia.
From OC Require Import Model.Proto2 Proofs.P2Base Proofs.P2_Cursor.
Open Scope N_scope.

Section Frozen.
  Context {V Ch Req D : Type}.
  Context (candidate : V -> Ch -> V) (candidate_rb : V -> Ch -> V) (rollback_of : V -> Ch -> Ch)
          (overlay : V -> V -> V) (commit_merge : N -> N -> V -> V -> Ch -> V)
          (payload : N -> V -> Ch -> option Req) (record_applied : N -> N -> V -> V -> V -> Ch -> V)
          (touched : N -> V -> Ch -> V) (restore : V -> V -> V)
          (resync_payload : V -> list (option Req)) (doc_ok : V -> bool)
          (dev_apply : D -> Req -> D) (stamp : N -> Ch -> Ch) (v_empty : V) (d_empty : D) (ch_empty : Ch).

  Notation world := (@world V Ch Req D).
  Notation prop := (@prop Ch).
  Notation step := (@step V Ch Req D candidate candidate_rb rollback_of overlay commit_merge payload record_applied
                          touched restore resync_payload doc_ok dev_apply stamp v_empty d_empty ch_empty).
  Notation inst f := (f candidate candidate_rb rollback_of overlay commit_merge payload record_applied touched restore
                        resync_payload doc_ok dev_apply stamp v_empty d_empty ch_empty).

  (* the phase starts of the transaction reconciler touch a phase only; of the proposal writes only the verdict sets the
     three fields, and it needs Validate still running *)
  Theorem recorded_frozen (w : world) l k (P P' : prop) :
    props w !! k = Some P -> props (step w l) !! k = Some P' -> p_validate P = Some Done ->
    p_details P' = p_details P /\ p_rbvalues P' = p_rbvalues P /\ p_rbindex P' = p_rbindex P.
  Proof.
    intros HP HP' Hd. apply (inst prop_step) in HP'.
    destruct HP' as [H|(ctl & n & o & -> & [Hin|[_ Hn]])]; [assert (P' = P) as -> by congruence; auto| |congruence].
    apply reconcile_prop_write in Hin. destruct Hin as (P0 & HP0 & Hw). rewrite HP in HP0. injection HP0 as <-.
    destruct Hw as [(T & _ & _ & _ & Hs)|(t & i & _ & Hw)].
    - destruct Hs as [(_ & _ & ->)|[(_ & _ & _ & ->)|[(_ & _ & _ & _ & ->)|(_ & _ & _ & _ & _ & ->)]]]; cbn; auto.
    - destruct Hw; cbn; auto; congruence.
  Qed.

  (* ... along any list of steps in whose worlds the proposal is (still) validated *)
  Fixpoint stays_validated (k : N * N) (w : world) (ls : list (@label Ch)) : Prop :=
    match ls with
    | [] => True
    | l :: r => (forall P1 : prop, props (step w l) !! k = Some P1 -> p_validate P1 = Some Done) /\ stays_validated k (step w l) r
    end.

  Theorem recorded_frozen_run (ls : list (@label Ch)) : forall (w : world) k (P P' : prop),
    props w !! k = Some P -> props (fold_left step ls w) !! k = Some P' -> p_validate P = Some Done ->
    stays_validated k w ls ->
    p_details P' = p_details P /\ p_rbvalues P' = p_rbvalues P /\ p_rbindex P' = p_rbindex P.
  Proof.
    induction ls as [|l ls IH]; intros w k P P' HP HP' Hd Hstay; cbn [fold_left] in HP'.
    - assert (P' = P) as -> by congruence. auto.
    - destruct Hstay as [Hs1 Hs2]. destruct (props (step w l) !! k) as [P1|] eqn:H1.
      + destruct (recorded_frozen w l k P P1 HP H1 Hd) as (E1 & E2 & E3).
        destruct (IH (step w l) k P1 P' H1 HP' (Hs1 P1 eq_refl) Hs2) as (F1 & F2 & F3).
        repeat split; congruence.
      + exfalso. apply (inst prop_step_none) in H1. congruence.
  Qed.
End Frozen.
