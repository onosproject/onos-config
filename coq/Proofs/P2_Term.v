(* Mastership, terms and re-synchronisation in the v2 protocol model (C10), all schedules, all crash prefixes:
     - the mastership term of a target never decreases; the master changes to Some m only together with term+1
       and to None without changing the term; over any run, a re-assigned mastership has a strictly larger term,
     - every device request carries the term and the master connection of the configuration snapshot, the master
       relation belongs to this node and its connection is live,
     - a proposal change is sent only outside SYNCHRONIZING with applied term = term; a re-push only in SYNCHRONIZING;
       the applied term is raised (non-persistent target, something applied) only after every request of the
       re-push was answered OK in the same invocation. *)
From stdpp Require Import gmap.
From RecordUpdate Require Import RecordUpdate.
From Coq Require Import NArith Lia.
From OC Require Import Model.Proto2 Proofs.P2Base Proofs.P2Phases Proofs.P2_Cursor Proofs.P2_CursorInv.
Open Scope N_scope.

Section Term.
  Context {V Ch Req D : Type}.
  Context (candidate : V -> Ch -> V) (candidate_rb : V -> Ch -> V) (rollback_of : V -> Ch -> Ch)
          (overlay : V -> V -> V) (commit_merge : N -> N -> V -> V -> Ch -> V)
          (payload : N -> V -> Ch -> option Req) (record_applied : N -> N -> V -> V -> V -> Ch -> V)
          (touched : N -> V -> Ch -> V) (restore : V -> V -> V)
          (resync_payload : V -> list (option Req)) (doc_ok : V -> bool)
          (dev_apply : D -> Req -> D) (stamp : N -> Ch -> Ch) (v_empty : V) (d_empty : D) (ch_empty : Ch).

  Notation world := (@world V Ch Req D).
  Notation config := (@config V).
  Notation devev := (@devev Req).
  Notation apply_eff := (@apply_eff V Ch Req D dev_apply d_empty).
  Notation rec_cfg := (@rec_cfg V Ch Req D overlay restore resync_payload v_empty d_empty).
  Notation reconcile := (@reconcile V Ch Req D candidate candidate_rb rollback_of overlay commit_merge payload record_applied
                                    touched restore resync_payload doc_ok stamp v_empty d_empty ch_empty).
  Notation step := (@step V Ch Req D candidate candidate_rb rollback_of overlay commit_merge payload record_applied
                          touched restore resync_payload doc_ok dev_apply stamp v_empty d_empty ch_empty).
  Notation reach := (@reach V Ch Req D candidate candidate_rb rollback_of overlay commit_merge payload record_applied
                            touched restore resync_payload doc_ok dev_apply stamp v_empty d_empty ch_empty).
  Notation aview := (@aview V overlay).
  Notation dev_answer := (@dev_answer V Ch Req D d_empty).


  Notation upd_status := (@upd_status V Ch Req overlay restore v_empty).

  Definition term_of (w : world) (t : N) : N := match cfgs w !! t with Some C => c_term C | None => 0 end.
  Definition master_of (w : world) (t : N) : option N := match cfgs w !! t with Some C => c_master C | None => None end.
  Definition run_from (w : world) (ls : list label) : world := fold_left step ls w.

  (* either nothing changes, or the master resigns (same term), or a master is elected in term+1 among the live
     CONTROLS relations from this node to the target *)
  Theorem mastership_step (w : world) l t :
    (master_of (step w l) t = master_of w t /\ term_of (step w l) t = term_of w t) \/
    (master_of (step w l) t = None /\ master_of w t <> None /\ term_of (step w l) t = term_of w t /\
     exists k o, l = LRec (CtlMaster t) k o) \/
    (exists m, master_of (step w l) t = Some m /\ term_of (step w l) t = term_of w t + 1 /\ rels w !! m = Some (t, true) /\
               (forall m0, master_of w t = Some m0 -> rels w !! m0 <> Some (t, true)) /\
               exists k o, l = LRec (CtlMaster t) k o).
  Proof.
    unfold master_of, term_of. destruct (cfgs (step w l) !! t) as [C'|] eqn:H'.
    - apply cfg_step in H'. destruct H' as [(C & HC & [S|(ctl & k & o & c0 & -> & Hw & S)])|(Hn & i & k & o & -> & _ & Hc)].
      + rewrite HC. sim_cbn S. left. split; congruence.
      + rewrite HC. inversion Hw; subst; sim_cbn S; try (left; split; congruence).
        * right. left. repeat split; try congruence. eauto.
        * right. right. exists m. repeat split; try congruence; eauto.
      + rewrite Hn. unfold core in Hc. injection Hc as _ _ _ _ _ -> -> _ _. left. split; reflexivity.
    - apply cfg_step_none in H'. rewrite H'. left. split; reflexivity.
  Qed.

  Theorem term_monotone_step (w : world) l t :
    term_of w t <= term_of (step w l) t /\
    (forall m, master_of (step w l) t = Some m -> master_of (step w l) t <> master_of w t -> term_of (step w l) t = term_of w t + 1) /\
    (master_of (step w l) t = None -> term_of (step w l) t = term_of w t).
  Proof.
    destruct (mastership_step w l t) as [(Hm & Ht)|[(Hm & Hm0 & Ht & _)|(m & Hm & Ht & _)]].
    - split; [lia|]. split; [intros m _ Hne; congruence|auto].
    - split; [lia|]. split; [intros m H; congruence|auto].
    - split; [lia|]. split; [auto|intros H; congruence].
  Qed.

  (* at most one master: the master is ONE optional field of the configuration record *)
  Theorem single_master (w : world) t (C : config) m m' :
    cfgs w !! t = Some C -> c_master C = Some m -> c_master C = Some m' -> m = m'.
  Proof. intros _ H1 H2. congruence. Qed.

  Theorem term_monotone_run (ls : list label) : forall (w : world) t, term_of w t <= term_of (run_from w ls) t.
  Proof.
    unfold run_from. induction ls as [|l ls IH]; intros w t; cbn [fold_left]; [lia|].
    pose proof (IH (step w l) t). destruct (term_monotone_step w l t) as [H1 _]. lia.
  Qed.

  (* whenever, at the end of a run, the target has a master different from the one at the start (in particular
     after the master relation was lost: resignation or direct re-election), the term is strictly larger *)
  Theorem new_term_after_reassign (ls : list label) : forall (w : world) t m,
    master_of (run_from w ls) t = Some m -> master_of (run_from w ls) t <> master_of w t ->
    term_of w t < term_of (run_from w ls) t.
  Proof.
    unfold run_from. induction ls as [|l ls IH]; intros w t m Hm Hne; cbn [fold_left] in *; [congruence|].
    pose proof (term_monotone_run ls (step w l) t) as Hmono. unfold run_from in Hmono.
    destruct (mastership_step w l t) as [(Hm1 & Ht1)|[(Hm1 & Hm0 & Ht1 & _)|(m1 & Hm1 & Ht1 & _)]].
    - rewrite <- Ht1. eapply IH; [exact Hm|]. congruence.
    - rewrite <- Ht1. eapply IH; [exact Hm|]. congruence.
    - lia.
  Qed.

  Theorem new_term_after_loss (ls : list label) (w : world) t m0 m :
    master_of w t = Some m0 -> rels w !! m0 <> Some (t, true) ->
    master_of (run_from w ls) t = Some m -> m <> m0 ->
    term_of w t < term_of (run_from w ls) t.
  Proof. intros H0 _ Hm Hne. eapply new_term_after_reassign; [exact Hm|]. congruence. Qed.

  Theorem new_term_after_resign (ls : list label) (w : world) t m :
    master_of w t = None -> master_of (run_from w ls) t = Some m -> term_of w t < term_of (run_from w ls) t.
  Proof. intros H0 Hm. eapply new_term_after_reassign; [exact Hm|]. congruence. Qed.

  (* every request carries the term of the configuration snapshot as election id and goes over the connection
     named by its master; that CONTROLS relation is owned by this node and its connection is live *)
  Theorem election_id (w : world) l evs t m term og r a :
    devlog (step w l) = devlog w ++ evs -> In (DevSet t m term og r a) evs ->
    exists C, cfgs w !! t = Some C /\ term = c_term C /\ c_master C = Some m /\
              (exists tt, rels w !! m = Some (tt, true)) /\ is_Some (conns w !! m).
  Proof.
    intros Hd Hin. eapply devlog_step_in in Hin; [|exact Hd].
    destruct Hin as (ctl & k & o & -> & [(i & -> & -> & Hs)|(-> & -> & Hs)]).
    - destruct Hs as (C & P & HC & _ & Ht & Hm & Hr & Hc & _). exists C. auto.
    - destruct Hs as (C & HC & _ & Ht & Hm & Hr & Hc & _). exists C. auto.
  Qed.

  (* a proposal change is sent only outside SYNCHRONIZING and when the device was synchronised in the current term;
     a re-push (no origin) is sent only in state SYNCHRONIZING *)
  Theorem no_change_before_resync (w : world) l evs t m term og r a :
    reach w -> devlog (step w l) = devlog w ++ evs -> In (DevSet t m term og r a) evs ->
    exists C, cfgs w !! t = Some C /\
      match og with
      | Some i => c_state C <> CSynchronizing /\ c_aterm C = c_term C /\ exists k o, l = LRec (CtlProp (t, i)) k o
      | None => c_state C = CSynchronizing /\ exists k o, l = LRec (CtlCfg t) k o
      end.
  Proof.
    intros Hr Hd Hin. eapply devlog_step_in in Hin; [|exact Hd].
    destruct Hin as (ctl & k & o & -> & [(i & -> & -> & Hs)|(-> & -> & Hs)]).
    - destruct Hs as (C & P & HC & _ & _ & _ & _ & _ & _ & _ & _ & _ & Hst & Hle & _). exists C. split; [exact HC|].
      split; [exact Hst|]. split; [|eauto].
      eapply aterm_le_term in HC; [lia|exact Hr].
    - destruct Hs as (C & HC & _ & _ & _ & _ & _ & _ & Hst & _). exists C. split; [exact HC|]. split; [exact Hst|eauto].
  Qed.

  (* the applied term moves only by the configuration reconciler, to the current term, and for a non-persistent
     target only from state SYNCHRONIZING with a master *)
  Theorem aterm_moves_by_sync (w : world) l t (C C' : config) :
    cfgs w !! t = Some C -> cfgs (step w l) !! t = Some C' -> c_aterm C' <> c_aterm C ->
    c_aterm C' = c_term C /\ c_term C' = c_term C /\ (exists k o, l = LRec (CtlCfg t) k o) /\
    (targets w !! t = Some true \/
     (targets w !! t = Some false /\ c_state C = CSynchronizing /\ c_state C' = CSynchronized /\ is_Some (c_master C))).
  Proof.
    intros HC H' Hne. apply cfg_step in H'.
    destruct H' as [(C0 & HC0 & [S|(ctl & k & o & c0 & -> & Hw & S)])|(Hn & _)]; [| |congruence].
    - rewrite HC in HC0. injection HC0 as <-. sim_cbn S. congruence.
    - rewrite HC in HC0. injection HC0 as <-. inversion Hw; subst; sim_cbn S; try congruence.
      + split; [congruence|]. split; [congruence|]. split; [eauto|]. left. assumption.
      + split; [congruence|]. split; [congruence|]. split; [eauto|]. right. repeat split; auto.
        all: try (match goal with H : c_master _ = Some _ |- _ => rewrite H end; eexists; reflexivity).
  Qed.

  (* when the configuration reconciler of a non-persistent target with something applied writes the entry in state
     SYNCHRONIZING, its effect list is: every request of the re-push, each answered OK, then the status write that
     sets the applied term to the current term *)
  Theorem resync_completes (o : oracle) (w : world) t (C c : config) :
    cfgs w !! t = Some C -> targets w !! t = Some false -> c_state C = CSynchronizing -> c_applied C <> 0 ->
    In (EPutCfg t c) (fst (rec_cfg o w t)) ->
    exists m rs, c_master C = Some m /\ resync_payload (aview C) = map Some rs /\
      fst (rec_cfg o w t) =
        map (fun r => EDev (DevSet t m (c_term C) None r COk)) rs ++
        upd_status t C (C <| c_state := CSynchronized |> <| c_amaster := c_master C |> <| c_aterm := c_term C |>) /\
      c_aterm c = c_term C /\ c_state c = CSynchronized.
  Proof.
    intros HC HT Hst Happ. unfold Proto2.rec_cfg. rewrite HC, HT.
    rewrite Hst. cbn [negb]. rewrite bool_decide_eq_true_2 by reflexivity. cbn [negb].
    destruct (c_master C) as [m|] eqn:Hm; [|intros []].
    apply N.eqb_neq in Happ. rewrite Happ.
    destruct (rels w !! m) as [[tt [|]]|]; try (intros []).
    destruct (conns w !! m); [|intros []].
    destruct (resync_effs t m (c_term C) (dev_answer w t (c_term C) o) (resync_payload (aview C))) as [es res] eqn:E.
    pose proof (resync_effs_complete (V:=V) (Ch:=Ch) t m (c_term C) (dev_answer w t (c_term C) o) (resync_payload (aview C))) as Hcomp.
    pose proof (resync_effs_in (V:=V) (Ch:=Ch) t m (c_term C) (dev_answer w t (c_term C) o) (resync_payload (aview C))) as Hin.
    rewrite E in Hcomp, Hin. cbn [fst snd] in Hcomp, Hin.
    destruct res as [r|].
    - cbn [fst]. intros H. destruct (Hin _ H) as (? & Heq & _). discriminate Heq.
    - cbn [fst]. destruct (Hcomp eq_refl) as (rs & Hrs & ->). intros H. exists m, rs. split; [reflexivity|]. split; [exact Hrs|].
      split; [reflexivity|]. apply in_app_or in H. destruct H as [H|H].
      + apply in_map_iff in H. destruct H as (? & Heq & _). discriminate Heq.
      + unfold Proto2.upd_status in H. cbn in H. destruct H as [H|[H|[]]]; [discriminate H|]. injection H as <-. cbn. auto.
  Qed.
  Lemma fold_devs (evs : list devev) : forall w : world,
    cfgs (fold_left apply_eff (map (@EDev V Ch Req) evs) w) = cfgs w /\ devlog (fold_left apply_eff (map (@EDev V Ch Req) evs) w) = devlog w ++ evs.
  Proof.
    induction evs as [|ev evs IH]; intros w; cbn [map fold_left]; [split; [reflexivity|symmetry; apply app_nil_r]|].
    destruct (IH (apply_eff w (EDev ev))) as [Hc Hd]. rewrite Hc, Hd, cfgs_apply_eff, devlog_apply_eff.
    split; [reflexivity|]. rewrite <- app_assoc. reflexivity.
  Qed.

  (* the step that raises the applied term of a non-persistent target with something applied appends the COMPLETE
     re-push to the device log, every request in the current term over the master's connection and answered OK *)
  Theorem resync_step (w : world) l t (C C' : config) :
    cfgs w !! t = Some C -> targets w !! t = Some false -> c_applied C <> 0 ->
    cfgs (step w l) !! t = Some C' -> c_aterm C' <> c_aterm C ->
    exists m rs, c_master C = Some m /\ resync_payload (aview C) = map Some rs /\
      devlog (step w l) = devlog w ++ map (fun r => DevSet t m (c_term C) None r COk) rs.
  Proof.
    intros HC HT Happ HC' Hne.
    destruct (aterm_moves_by_sync _ _ _ _ _ HC HC' Hne) as (_ & _ & (k & o & ->) & [Hp|(_ & Hst & _ & _)]); [congruence|].
    cbn [Proto2.step Proto2.reconcile] in HC' |- *.
    pose proof HC' as Hpre. apply cfg_prefix in Hpre.
    destruct Hpre as [(C0 & HC0 & S)|[(c & Hin & S)|(c & _ & Hn & _)]]; [| |congruence].
    { rewrite HC in HC0. injection HC0 as <-. apply sim_fields in S. destruct S as (_ & _ & _ & _ & _ & _ & _ & _ & S9). congruence. }
    destruct (resync_completes o w t C c HC HT Hst Happ Hin) as (m & rs & Hm & Hrs & Hes & _).
    exists m, rs. split; [exact Hm|]. split; [exact Hrs|].
    rewrite Hes in HC' |- *. clear Hes Hin.
    set (evs := map (fun r => DevSet t m (c_term C) None r COk) rs).
    replace (map (fun r => EDev (DevSet t m (c_term C) None r COk)) rs) with (map (@EDev V Ch Req) evs) in * by (unfold evs; rewrite map_map; reflexivity).
    unfold Proto2.upd_status in *.
    rewrite firstn_app, fold_left_app in HC' |- *. rewrite map_length in HC' |- *. rewrite firstn_map in HC' |- *.
    destruct (fold_devs (firstn k evs) w) as [Hc1 Hd1].
    set (w1 := fold_left apply_eff (map (@EDev V Ch Req) (firstn k evs)) w) in *.
    destruct (k - length evs)%nat as [|[|j]] eqn:Hk.
    - exfalso. cbn [firstn fold_left] in HC'. rewrite Hc1, HC in HC'. injection HC' as <-. congruence.
    - exfalso. cbn [firstn fold_left] in HC'. rewrite cfgs_apply_eff, Hc1, HC, lookup_insert in HC'. injection HC' as <-. cbn in Hne. congruence.
    - cbn [firstn fold_left]. rewrite firstn_nil. cbn [fold_left]. rewrite !devlog_apply_eff, Hd1.
      rewrite firstn_all2 by lia. reflexivity.
  Qed.
End Term.
