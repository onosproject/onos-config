(* Proofs for Model/PanicSkel.v: no modelled northbound handler reaches a Panic outcome on a
   request that is decodable from the wire. *)
From Coq Require Import List NArith ZArith Bool Lia.
From OC Require Import Base.Bytes Model.PanicSkel Proofs.PanicSkelRegexp.
Import ListNotations.
Open Scope N_scope.

Definition np {A} (o : outcome A) : Prop := is_panic o = false.

Lemma np_ok {A} (a : A) : np (Ok a).  Proof. reflexivity. Qed.
Lemma np_err {A} c : np (@Err A c).  Proof. reflexivity. Qed.

Lemma np_bind {A B} (o : outcome A) (k : A -> outcome B) :
  np o -> (forall a, o = Ok a -> np (k a)) -> np (bind o k).
Proof. destruct o as [a|c|w]; cbn; intros Ho Hk; [apply Hk; reflexivity | reflexivity | discriminate]. Qed.

(* o does not panic, and what it returns satisfies Q *)
Definition yields {A} (Q : A -> Prop) (o : outcome A) : Prop :=
  match o with Ok a => Q a | Err _ => True | Panic _ => False end.

Lemma yields_np {A} (Q : A -> Prop) o : yields Q o -> np o.
Proof. destruct o; [reflexivity | reflexivity | contradiction]. Qed.

Lemma yields_bind {A B} (P : A -> Prop) (Q : B -> Prop) o k :
  yields P o -> (forall a, o = Ok a -> P a -> yields Q (k a)) -> yields Q (bind o k).
Proof. destruct o as [a|c|w]; cbn; [intros Ha Hk; exact (Hk a eq_refl Ha) | trivial | contradiction]. Qed.

Lemma yields_bind_np {A B} (Q : B -> Prop) (o : outcome A) k :
  np o -> (forall a, o = Ok a -> yields Q (k a)) -> yields Q (bind o k).
Proof. destruct o as [a|c|w]; cbn; [intros _ Hk; exact (Hk a eq_refl) | trivial | discriminate]. Qed.

Lemma np_bind_yields {A B} (P : A -> Prop) (o : outcome A) (k : A -> outcome B) :
  yields P o -> (forall a, o = Ok a -> P a -> np (k a)) -> np (bind o k).
Proof. destruct o as [a|c|w]; cbn; [intros Ha Hk; exact (Hk a eq_refl Ha) | reflexivity | contradiction]. Qed.

Ltac np_step :=
  match goal with
  | |- np (Ok _) => apply np_ok
  | |- np (Err _) => apply np_err
  | |- np (bind _ _) => apply np_bind; [| intros ? ?]
  | |- np (if ?b then _ else _) => destruct b eqn:?
  end.

(* ------------------------------------------------------------------ slices and searches *)
Lemma slice_np s lo hi : (0 <= lo)%Z -> (lo <= hi)%Z -> (hi <= zlen s)%Z -> np (slice s lo hi).
Proof.
  intros H1 H2 H3. unfold slice. apply Z.leb_le in H1, H2, H3. rewrite H1, H2, H3. reflexivity.
Qed.

Lemma last_index_byte_spec c s i :
  last_index_byte c s = Some i -> (i < List.length s)%nat /\ nth i s 0 = c.
Proof.
  revert i; induction s as [|x s IH]; intros i; cbn; [discriminate|].
  destruct (last_index_byte c s) as [j|] eqn:E.
  - intros [= <-]. destruct (IH j eq_refl) as [H1 H2]. split; [lia | exact H2].
  - destruct (x =? c) eqn:Ex; [|discriminate]. intros [= <-]. apply N.eqb_eq in Ex. split; [lia | exact Ex].
Qed.

Lemma zlast_index_range c s : (-1 <= zlast_index c s < zlen s)%Z.
Proof.
  unfold zlast_index, zlen. destruct (last_index_byte c s) as [i|] eqn:E.
  - apply last_index_byte_spec in E. lia.
  - pose proof (Nat2Z.is_nonneg (List.length s)). lia.
Qed.

Lemma index_byte_spec c s i : index_byte c s = Some i -> (i < List.length s)%nat.
Proof.
  revert i; induction s as [|x s IH]; intros i; cbn; [discriminate|].
  destruct (x =? c); [intros [= <-]; lia|].
  destruct (index_byte c s) as [j|]; cbn; [|discriminate]. intros [= <-]. specialize (IH j eq_refl). lia.
Qed.

Lemma zlast_index_head c s : (0 <= zlast_index c (c :: s))%Z.
Proof. unfold zlast_index. cbn. destruct (last_index_byte c s); [lia|]. rewrite N.eqb_refl. lia. Qed.

(* ------------------------------------------------------------------ index matches are bracketed *)
Definition bracketed (m : str) : Prop := exists inner, m = c_lbr :: inner ++ [c_rbr].

Lemma index_matches_aux_bracketed cur s : Forall bracketed (index_matches_aux cur s).
Proof.
  revert cur; induction s as [|c s IH]; intros cur; cbn; [constructor|].
  destruct cur as [acc|].
  - destruct (c =? c_rbr); [constructor; [exists (rev acc); reflexivity | apply IH]|].
    destruct (c =? c_nl); apply IH.
  - destruct (c =? c_lbr); apply IH.
Qed.

Lemma extract_one_np m : bracketed m -> np (extract_one m).
Proof.
  intros [inner ->]. unfold extract_one.
  set (m := c_lbr :: inner ++ [c_rbr]).
  assert (Hlen : List.length m = S (S (List.length inner))) by (unfold m; cbn; rewrite app_length; cbn; lia).
  destruct (zlast_index c_eq m <? 0)%Z eqn:Eneg.
  - np_step; [apply slice_np; unfold zlen; lia | np_step].
  - apply Z.ltb_ge in Eneg.
    unfold zlast_index in *. destruct (last_index_byte c_eq m) as [i|] eqn:E; [|lia].
    destruct (last_index_byte_spec _ _ _ E) as [Hi Hn].
    assert (i <> 0)%nat by (intros ->; unfold m in Hn; cbn in Hn; discriminate).
    assert (i <> S (List.length inner))%nat.
    { intros ->. unfold m in Hn. cbn [nth] in Hn. rewrite nth_middle in Hn. discriminate. }
    np_step; [apply slice_np; unfold zlen; lia|].
    np_step; [apply slice_np; unfold zlen; lia | np_step].
Qed.

Lemma extract_all_np ms : Forall bracketed ms -> np (extract_all ms).
Proof.
  induction 1 as [|m ms Hm _ IH]; cbn; [apply np_ok|].
  np_step; [apply extract_one_np; exact Hm|]. np_step; [exact IH | np_step].
Qed.

Lemma extract_index_names_np path : np (extract_index_names path).
Proof. apply extract_all_np, index_matches_aux_bracketed. Qed.

Lemma last_elem_np {A} (l : list A) : l <> [] -> np (last_elem l).
Proof.
  intros H. unfold last_elem. destruct (rev l) eqn:E; [|apply np_ok].
  exfalso. apply H. rewrite <- (rev_involutive l), E. reflexivity.
Qed.

(* ------------------------------------------------------------------ path text *)
Definition all_some {A} (l : list (option A)) : bool := forallb (fun o => match o with Some _ => true | None => false end) l.

Lemma str_path_elem_np es : all_some es = true -> np (str_path_elem es).
Proof.
  induction es as [|[e|] es IH]; cbn; intros H; [apply np_ok | | discriminate].
  np_step; [apply IH; exact H | np_step].
Qed.

Definition starts_slash (s : str) : Prop := exists r, s = c_slash :: r.

Lemma str_path_yields p : opath_ok p = true -> yields starts_slash (str_path p).
Proof.
  destruct p as [p|]; cbn; [|intros _; exists []; reflexivity]. unfold elems_ok. intros H.
  destruct (p_elem p) as [|[e|] es]; [destruct (p_element p); eexists; reflexivity | | discriminate].
  apply yields_bind_np; [apply str_path_elem_np; exact H|]. intros rest _. eexists; reflexivity.
Qed.

Lemma full_path_yields prefix p : opath_ok prefix = true -> opath_ok p = true -> yields starts_slash (full_path prefix p).
Proof.
  intros H1 H2. unfold full_path.
  apply (yields_bind starts_slash); [apply str_path_yields; exact H1|]. intros pp _ [r ->].
  apply (yields_bind starts_slash); [apply str_path_yields; exact H2|]. intros s _ Hs.
  destruct (eqb_str (c_slash :: r) root); [exact Hs | exists (r ++ s); reflexivity].
Qed.

(* ------------------------------------------------------------------ pkg/utils/path *)
Lemma find_path_from_model_np path rw exact : np (find_path_from_model path rw exact).
Proof.
  unfold find_path_from_model. destruct (lookup_rw _ rw); [apply np_ok|].
  destruct exact; [apply np_err|].
  np_step.
  - destruct (suffixb [c_rbr] path); [|apply np_ok].
    np_step; [apply extract_index_names_np|].
    destruct a as [|x l]; [apply np_ok|]. np_step; [apply last_elem_np; discriminate | np_step].
  - np_step; [np_step | np_step].
Qed.

Lemma get_parent_path_np path : np (get_parent_path path).
Proof.
  unfold get_parent_path. pose proof (zlast_index_range c_slash path).
  destruct (zlast_index c_slash path <=? 0)%Z eqn:E; [apply np_ok|].
  apply Z.leb_gt in E. apply slice_np; lia.
Qed.

Lemma check_key_value_np path r v : np (dec_guard v) -> np (check_key_value path r v).
Proof.
  intros Hdg. unfold check_key_value. np_step; [apply extract_index_names_np|].
  destruct a as [|x l]; [apply np_ok|].
  np_step; [np_step|]. np_step; [np_step|].
  np_step; [destruct (nv_type v =? 5); [exact Hdg | apply np_ok]|].
  np_step; [apply get_parent_path_np|].
  np_step.
  - pose proof (zlast_index_range c_slash a0). apply slice_np; lia.
  - np_step; [apply extract_index_names_np|]. np_step; np_step.
Qed.

Lemma json_base_path_np path : np (json_base_path path).
Proof.
  unfold json_base_path. destruct ((1 <? zlen path)%Z && suffixb [c_slash] path) eqn:E; [|apply np_ok].
  apply andb_true_iff in E. destruct E as [E _]. apply Z.ltb_lt in E. apply slice_np; lia.
Qed.

(* ------------------------------------------------------------------ values *)
Lemma leaf_list_collect_np l a :
  forallb (fun o => match o with Some s => scalar_ok s | None => false end) l = true -> np (leaf_list_collect l a).
Proof.
  revert a; induction l as [|[s|] l IH]; intros a; cbn; intros H; [apply np_ok | | apply np_ok].
  apply andb_true_iff in H. destruct H as [Hs Hl].
  destruct s as [x|x|z|n|b|b|[[d p]|]|f|]; try (apply IH; exact Hl); try apply np_err.
  - destruct (max_decimal_precision <? p); [apply np_err | apply IH; exact Hl].
  - cbn in Hs. discriminate.
Qed.

(* a value accepted by the conversion has a precision strDecimal64 can divide by *)
Lemma handle_leaf_list_yields l :
  forallb (fun o => match o with Some s => scalar_ok s | None => false end) l = true ->
  yields (fun nv => np (dec_guard nv)) (handle_leaf_list l).
Proof.
  intros H. unfold handle_leaf_list. destruct (has_nil_elem l); [exact I|].
  apply yields_bind_np; [apply leaf_list_collect_np; exact H|]. intros a _.
  destruct (la_str a); [|reflexivity]. destruct (la_int a); [|reflexivity]. destruct (la_uint a); [|reflexivity].
  destruct (la_bool a); [|reflexivity]. destruct (la_bytes a); [|reflexivity]. destruct (la_dec a); [|reflexivity].
  destruct (la_float a); [exact I | reflexivity].
Qed.

Lemma to_native_yields v : match v with Some t => tval_ok t = true | None => True end ->
  yields (fun nv => np (dec_guard nv)) (to_native v).
Proof.
  destruct v as [[s|j|l]|]; cbn; intros H; try exact I; [|apply handle_leaf_list_yields; exact H].
  destruct s as [x|x|z|n|b|b|[[d p]|]|[|]|]; try exact I; try reflexivity; [|discriminate].
  destruct (max_decimal_precision <? p) eqn:E; [exact I|].
  apply N.ltb_ge in E. unfold max_decimal_precision in E. unfold dec_guard. cbn.
  assert (Hp : (Z.of_N (p mod 256) mod 256 < 64)%Z).
  { rewrite N.mod_small by lia. rewrite Z.mod_small by lia. lia. }
  apply Z.ltb_lt in Hp. rewrite Hp. reflexivity.
Qed.

(* the guarded read of TypeOpts[0] never fails, so the conversion at a model entry is the conversion *)
Lemma to_native_at_eq r v : to_native_at r v = to_native v.
Proof.
  unfold to_native_at. destruct (reads_type_opts v); [|reflexivity].
  destruct (rw_opts r); reflexivity.
Qed.

(* ... and the guard has content *)
Example type_opt0_needs_guard : type_opt0 false [] = Panic w_index /\ forall opts, np (type_opt0 true opts).
Proof. split; [reflexivity | intros [|x o]; reflexivity]. Qed.

(* ------------------------------------------------------------------ Set *)
Lemma do_delete_np ck rw prefix p : opath_ok prefix = true -> opath_ok p = true -> np (do_delete ck rw prefix p).
Proof.
  intros H1 H2. unfold do_delete. apply (np_bind_yields _ _ _ (full_path_yields _ _ H1 H2)). intros a _ [r ->].
  np_step; [apply find_path_from_model_np|].
  np_step.
  - destruct a as [[|] [rp|]]; try apply np_ok.
    destruct (rw_iskey rp && negb (suffixb [c_rbr] _)); [|apply np_ok].
    pose proof (zlast_index_head c_slash r). pose proof (zlast_index_range c_slash (c_slash :: r)).
    apply slice_np; lia.
  - destruct ck; [|apply np_ok]. np_step; [apply extract_index_names_np|]. np_step; np_step.
Qed.

Lemma do_update_np rw prefix u : opath_ok prefix = true -> update_ok u = true -> np (do_update rw prefix u).
Proof.
  intros H1 H2. destruct u as [u|]; [|discriminate]. cbn in H2. apply andb_true_iff in H2. destruct H2 as [Hp Hv].
  unfold do_update. np_step; [exact (yields_np _ _ (full_path_yields _ _ H1 Hp))|].
  assert (Htyped : np (r <- find_path_from_model a rw true ;;
                       match r with
                       | (_, Some rp) => nv <- to_native_at rp (u_val u) ;; _ <- check_key_value a rp nv ;; Ok [a]
                       | (_, None) => Panic w_nil
                       end)).
  { np_step; [apply find_path_from_model_np|].
    unfold find_path_from_model in H0. destruct (lookup_rw (anonymize_indices a) rw) eqn:El; [|discriminate].
    injection H0 as <-. rewrite to_native_at_eq.
    apply (np_bind_yields _ _ _ (to_native_yields (u_val u) ltac:(destruct (u_val u); [exact Hv | exact I]))).
    intros nv _ Hnv. np_step; [|np_step]. apply check_key_value_np. exact Hnv. }
  destruct (u_val u) as [[s|j|l]|]; try exact Htyped.
  np_step; [apply json_base_path_np|]. destruct (u_plugin u); [apply np_err | apply np_ok].
Qed.

Lemma resolve_target_np e ov id : np (resolve_target e ov id).
Proof.
  unfold resolve_target. destruct (find_target e id); [|apply np_err].
  np_step.
  - destruct (lookup_override ov id) as [[tv|]|]; first [apply np_ok | apply np_err].
  - destruct (find_plugin e (fst a) (snd a)); [apply np_ok | apply np_err].
Qed.

Lemma get_tinfo_np e ov ts id : np (get_tinfo e ov ts id).
Proof.
  unfold get_tinfo. destruct (find _ ts); [apply np_ok|]. np_step; [apply resolve_target_np | np_step].
Qed.

Lemma set_deletes_np e ov prefix ds : forall ts,
  opath_ok prefix = true -> forallb opath_ok ds = true -> np (set_deletes e ov prefix ds ts).
Proof.
  induction ds as [|d ds IH]; intros ts Hp Hd; cbn; [apply np_ok|].
  apply andb_true_iff in Hd. destruct Hd as [Hd Hds].
  np_step; [apply get_tinfo_np|]. destruct a as [t ts1].
  np_step; [apply do_delete_np; assumption|]. apply IH; assumption.
Qed.

Lemma set_updates_np e ov prefix us : forall ts,
  opath_ok prefix = true -> forallb update_ok us = true -> np (set_updates e ov prefix us ts).
Proof.
  induction us as [|u us IH]; intros ts Hp Hu; cbn; [apply np_ok|].
  apply andb_true_iff in Hu. destruct Hu as [Hu Hus].
  np_step; [destruct u; [apply np_ok | discriminate]|].
  np_step; [apply get_tinfo_np|]. destruct a0 as [t ts1].
  np_step; [apply do_update_np; assumption|]. apply IH; assumption.
Qed.

Lemma extract_ext_np id exts : forallb ext_ok exts = true -> np (extract_ext id exts).
Proof.
  induction exts as [|x exts IH]; cbn; intros H; [apply np_ok|].
  apply andb_true_iff in H. destruct H as [Hx Hxs].
  destruct x as [[[i p]|]|]; [|discriminate|apply IH; exact Hxs].
  destruct (i =? id); [apply np_ok | apply IH; exact Hxs].
Qed.

Lemma get_overrides_np exts : forallb ext_ok exts = true -> np (get_overrides exts).
Proof.
  intros H. unfold get_overrides. np_step; [apply extract_ext_np; exact H|].
  destruct a as [[| |]|]; first [apply np_ok | apply np_err].
Qed.

Lemma get_strategy_np exts : forallb ext_ok exts = true -> np (get_strategy exts).
Proof.
  intros H. unfold get_strategy. np_step; [apply extract_ext_np; exact H|].
  destruct a as [[| |]|]; first [apply np_ok | apply np_err].
Qed.

Lemma set_wire_ok_parts r : set_wire_ok r = true ->
  opath_ok (s_prefix r) = true /\ forallb opath_ok (s_delete r) = true /\
  forallb update_ok (s_replace r) = true /\ forallb update_ok (s_update r) = true /\ forallb ext_ok (s_ext r) = true.
Proof. unfold set_wire_ok. rewrite !andb_true_iff. tauto. Qed.

Theorem set_handler_total : forall e r, set_wire_ok r = true -> np (set_handler e r).
Proof.
  intros e r H. destruct (set_wire_ok_parts r H) as (Hp & Hd & Hr & Hu & Hx).
  unfold set_handler.
  np_step; [apply get_overrides_np; exact Hx|].
  np_step; [apply get_strategy_np; exact Hx|].
  np_step; [np_step|].
  np_step; [apply set_deletes_np; assumption|].
  np_step; [apply set_updates_np; assumption|].
  np_step; [apply set_updates_np; assumption|].
  np_step; [np_step|]. np_step; np_step.
Qed.

(* the hypothesis has content: a SetRequest with a nil path element (which no decoder produces) panics *)
Definition nil_elem_req : set_req :=
  Build_set_req None [Some (Build_gpath (B "t1") [None] [])] [] [] [].

Lemma set_handler_needs_wire_ok :
  exists e r, set_wire_ok r = false /\
              set_handler e r = Panic w_nil.
Proof.
  exists (Build_env [Build_target (B "t1") (B "m") (B "1")] [Build_plugin (B "m") (B "1") []] 0), nil_elem_req.
  split; vm_compute; reflexivity.
Qed.

(* ------------------------------------------------------------------ Subscribe and the scalar-only entry points *)
Theorem subscribe_handler_total : forall ms b, np (subscribe_handler b ms).
Proof.
  induction ms as [|m ms IH]; intros b; cbn; [apply np_ok|].
  np_step; [|apply IH].
  destruct m as [prefix subs| |]; cbn; [|destruct b; first [apply np_ok | apply np_err] | apply np_err].
  destruct b; [apply np_err|].
  destruct (negb (eqb_str (path_target prefix) [])); [apply np_ok|].
  destruct (existsb _ subs); first [apply np_ok | apply np_err].
Qed.

Theorem misc_handlers_total : forall i,
  np capabilities_handler /\ np list_models_handler /\ np (rollback_handler i) /\ np admin_store_handler.
Proof. intros i. repeat split. Qed.

(* ------------------------------------------------------------------ Get *)
Lemma forall_guard_np {A} (f : A -> outcome unit) l : (forall x, In x l -> np (f x)) -> np (forall_guard f l).
Proof.
  induction l as [|x l IH]; cbn; intros H; [apply np_ok|].
  np_step; [apply H; left; reflexivity | apply IH; intros y Hy; apply H; right; exact Hy].
Qed.

Lemma stored_ok_guards vals v : forallb stored_ok vals = true -> In v vals -> negb (sv_deleted v) = true ->
  np (_ <- tree_guard (sv_path v) ;; json_leaf_guard (sv_val v)) /\ np (leaf_guard (sv_val v)).
Proof.
  intros H Hin Hd. rewrite forallb_forall in H. specialize (H v Hin). unfold stored_ok in H.
  apply negb_true_iff in Hd. rewrite Hd in H. cbn in H. apply andb_true_iff in H. destruct H as [H1 H2].
  apply negb_true_iff in H1. apply negb_true_iff in H2. split; [np_step; [exact H1 | exact H2]|].
  unfold json_leaf_guard in H2. destruct (leaf_guard (sv_val v)); [reflexivity | reflexivity | discriminate].
Qed.

Lemma get_update_np c enc q : forallb stored_ok (cf_values c) = true -> np (get_update c enc q).
Proof.
  intros Hc. unfold get_update. np_step; [apply wildcard_regexp_compiles|].
  set (sel := filter _ (cf_values c)).
  assert (Hsel : forall v, In v sel ->
            np (_ <- tree_guard (sv_path v) ;; json_leaf_guard (sv_val v)) /\ np (leaf_guard (sv_val v))).
  { intros v Hv. apply filter_In in Hv. destruct Hv as [Hin Hf]. apply andb_true_iff in Hf.
    exact (stored_ok_guards _ v Hc Hin (proj2 Hf)). }
  destruct sel as [|v0 sel0] eqn:Esel; [apply np_ok|]. rewrite <- Esel in *. clear Esel.
  np_step.
  - np_step; [|np_step]. apply forall_guard_np. intros v Hv. exact (proj1 (Hsel v Hv)).
  - np_step; [|np_step].
    np_step; [|np_step]. apply forall_guard_np. intros v Hv. exact (proj2 (Hsel v Hv)).
Qed.

Lemma find_config_ok st id ty ver c : state_ok st = true -> find_config st id ty ver = Some c -> forallb stored_ok (cf_values c) = true.
Proof.
  unfold state_ok, find_config. intros Hst Hf. apply find_some in Hf. destruct Hf as [Hin _].
  rewrite forallb_forall in Hst. apply Hst. exact Hin.
Qed.

Lemma add_target_yields e st ov id : state_ok st = true ->
  yields (fun c => forallb stored_ok (cf_values c) = true) (add_target e st ov id).
Proof.
  intros Hst. unfold add_target. apply yields_bind_np; [apply resolve_target_np|]. intros p _.
  destruct (find_config st id (pl_type p) (pl_version p)) eqn:E; [|exact I]. exact (find_config_ok _ _ _ _ _ Hst E).
Qed.

Definition seen_ok (seen : list (str * config)) : Prop := forall sc, In sc seen -> forallb stored_ok (cf_values (snd sc)) = true.

Local Arguments str_path : simpl never.
Local Arguments add_target : simpl never.
Local Arguments prefix_has_elems : simpl never.

Lemma get_paths_yields e st ov prefix ps : forall seen acc,
  state_ok st = true -> opath_ok prefix = true -> forallb opath_ok ps = true -> all_some ps = true -> seen_ok seen ->
  yields (fun x => match x with Some (seen', _) => seen_ok seen' | None => True end) (get_paths e st ov prefix ps seen acc).
Proof.
  induction ps as [|[p|] ps IH]; intros seen acc Hst Hpf Hps Hall Hseen; cbn; [exact Hseen | | discriminate].
  cbn in Hps. apply andb_true_iff in Hps. destruct Hps as [Hp Hps].
  match goal with |- context [if ?b then Ok None else _] => destruct b end; [exact I|].
  match goal with |- context [if eqb_str ?x [] then Err c_invalid else _] => set (id := x) end.
  destruct (eqb_str id []); [exact I|].
  apply (yields_bind seen_ok).
  - destruct (find _ seen); [exact Hseen|].
    apply (yields_bind _ _ _ _ (add_target_yields e st ov id Hst)).
    intros c _ Hc sc [<-|Hin]; [exact Hc | exact (Hseen _ Hin)].
  - intros seen' _ Hseen'.
    apply yields_bind_np; [exact (yields_np _ _ (str_path_yields (Some p) Hp))|]. intros s _.
    apply yields_bind_np; [|intros s' _; apply IH; assumption].
    destruct (prefix_has_elems prefix); [|apply np_ok].
    np_step; [exact (yields_np _ _ (str_path_yields _ Hpf)) | np_step].
Qed.

Lemma get_updates_np seen enc qs : forall d, seen_ok seen -> np (get_updates seen enc qs d).
Proof.
  induction qs as [|[id q] qs IH]; intros d Hseen; cbn; [apply np_ok|].
  destruct (find (fun sc => eqb_str (fst sc) id) seen) as [[i c]|] eqn:Ef; [|apply IH; assumption].
  np_step; [|apply IH; assumption].
  apply get_update_np. apply find_some in Ef. destruct Ef as [Hin _]. apply (Hseen _ Hin).
Qed.

Lemma get_wire_ok_parts r : get_wire_ok r = true ->
  opath_ok (g_prefix r) = true /\ forallb opath_ok (g_path r) = true /\ all_some (g_path r) = true /\ forallb ext_ok (g_ext r) = true.
Proof. unfold get_wire_ok, all_some. rewrite !andb_true_iff. tauto. Qed.

Theorem get_handler_total : forall e st r,
  get_wire_ok r = true -> state_ok st = true -> np (get_handler e st r).
Proof.
  intros e st r H Hst. destruct (get_wire_ok_parts r H) as (Hpf & Hps & Hall & Hx).
  unfold get_handler.
  np_step; [np_step|].
  np_step; [apply get_strategy_np; exact Hx|].
  np_step.
  { (* the state / operational branch only looks at the targets *)
    clear - Hall. revert Hall. generalize false. induction (g_path r) as [|[p|] ps IH]; intros any Hall; cbn;
      [destruct any; reflexivity | | discriminate].
    destruct (eqb_str _ []); [reflexivity | apply IH; exact Hall]. }
  np_step.
  { pose proof (get_overrides_np (g_ext r) Hx) as Ho. destruct (get_overrides (g_ext r)); [exact Ho | reflexivity | exact Ho]. }
  apply (np_bind_yields _ _ _ (get_paths_yields e st a0 (g_prefix r) (g_path r) [] [] Hst Hpf Hps Hall ltac:(intros sc []))).
  intros [[seen qs]|] _ Hseen; [|apply np_ok].
  np_step.
  - destruct (g_path r); [|apply np_ok]. destruct (g_prefix r) as [pf|] eqn:Epf; [|apply np_ok].
    destruct (eqb_str (p_target pf) []); [apply np_err|].
    apply (np_bind_yields (fun c => forallb stored_ok (cf_values c) = true)).
    { pose proof (add_target_yields e st a0 (p_target pf) Hst) as Hat. destruct (add_target e st a0 (p_target pf)); exact Hat. }
    intros c _ Hc. np_step; [exact (yields_np _ _ (str_path_yields _ Hpf))|].
    np_step; [|np_step]. apply get_update_np. exact Hc.
  - np_step; [apply get_updates_np; assumption|]. np_step; np_step.
Qed.

(* an instance of Proofs/PanicSkelRegexp.wildcard_regexp_compiles: every query of at most 3 characters over the
   alphabet that matters (a wildcard star, dot, backslash, brackets, parenthesis, dollar, slash, a letter) compiles *)
Fixpoint words (alphabet : str) (n : nat) : list str :=
  match n with
  | O => [[]]
  | S k => [] :: flat_map (fun w => map (fun c => c :: w) alphabet) (words alphabet k)
  end.

Definition regexp_alphabet : str := B "a/.*\([]$".

Example regexp_ok_small_scope :
  forallb (fun q => negb (is_panic (must_compile (wildcard_regexp q false))) &&
                    negb (is_panic (must_compile (wildcard_regexp q true)))) (words regexp_alphabet 3) = true.
Proof. apply forallb_forall. intros q _. rewrite !wildcard_regexp_compiles. reflexivity. Qed.

(* ------------------------------------------------------------------ LeafSelectionQuery *)
Lemma lsq_updates_np rw prefix us : forall acc,
  opath_ok prefix = true -> forallb update_ok us = true -> np (lsq_updates rw prefix us acc).
Proof.
  induction us as [|u us IH]; intros acc Hp Hu; cbn; [apply np_ok|].
  apply andb_true_iff in Hu. destruct Hu as [Hu Hus].
  np_step; [apply do_update_np; assumption | apply IH; assumption].
Qed.

Lemma lsq_deletes_np rw prefix ds : forall acc,
  opath_ok prefix = true -> forallb opath_ok ds = true -> np (lsq_deletes rw prefix ds acc).
Proof.
  induction ds as [|d ds IH]; intros acc Hp Hd; cbn; [apply np_ok|].
  apply andb_true_iff in Hd. destruct Hd as [Hd Hds].
  np_step; [apply do_delete_np; assumption | apply IH; assumption].
Qed.

Lemma build_tree_guard_np vals : forallb stored_ok vals = true -> np (build_tree_guard vals).
Proof.
  intros H. unfold build_tree_guard. apply forall_guard_np. intros v Hv.
  unfold prune in Hv. apply filter_In in Hv. destruct Hv as [Hin Hf]. apply andb_true_iff in Hf.
  exact (proj1 (stored_ok_guards _ v H Hin (proj1 Hf))).
Qed.

(* the paths a change context adds are live entries of the merged configuration: they have to be inside
   the tree builder's domain as well (tree_safe_updates); for typed updates they are instances of model
   paths with index values restricted by CheckKeyValue, for JSON updates they are the plugin's answer *)
Definition tree_safe_updates (e : env) (st : state) (r : lsq_req) : Prop :=
  forall c p cx ups ups' dels,
    find_config st (l_target r) (l_type r) (l_version r) = Some c ->
    find_plugin e (l_type r) (l_version r) = Some p -> l_ctx r = Some cx ->
    lsq_updates (pl_rw p) (s_prefix cx) (s_update cx) [] = Ok ups ->
    lsq_updates (pl_rw p) (s_prefix cx) (s_replace cx) ups = Ok ups' ->
    lsq_deletes (pl_rw p) (s_prefix cx) (s_delete cx) [] = Ok dels ->
    forallb stored_ok (lsq_merge (cf_values c) ups' dels) = true.

Theorem lsq_handler_total_partial : forall e st r,
  lsq_wire_ok r = true -> state_ok st = true -> tree_safe_updates e st r -> np (lsq_handler e st r).
Proof.
  intros e st r Hw Hst Hsafe. unfold lsq_handler.
  destruct (find_config st (l_target r) (l_type r) (l_version r)) as [c|] eqn:Ec; [|apply np_err].
  destruct (find_plugin e (l_type r) (l_version r)) as [p|] eqn:Ep; [|apply np_err].
  pose proof (find_config_ok _ _ _ _ _ Hst Ec) as Hc.
  apply (np_bind_yields (fun vals => forallb stored_ok vals = true)).
  - unfold lsq_wire_ok in Hw. destruct (l_ctx r) as [cx|] eqn:Ecx; [|exact Hc].
    destruct (set_wire_ok_parts cx Hw) as (Hp & Hd & Hr & Hu & Hx).
    destruct (0 <? _)%nat; [|exact Hc].
    apply yields_bind_np; [apply lsq_updates_np; assumption|]. intros ups E1.
    apply yields_bind_np; [apply lsq_updates_np; assumption|]. intros ups' E2.
    apply yields_bind_np; [apply lsq_deletes_np; assumption|]. intros dels E3.
    destruct (forallb is_path_valid ups'); [|exact I]. exact (Hsafe _ _ _ _ _ _ Ec Ep Ecx E1 E2 E3).
  - intros vals _ Hvals. np_step; [apply build_tree_guard_np; exact Hvals | np_step].
Qed.

(* a LeafSelectionQuery without a change context needs no further assumption *)
Theorem lsq_handler_total_no_context : forall e st r,
  l_ctx r = None -> state_ok st = true -> np (lsq_handler e st r).
Proof.
  intros e st r Hn Hst. apply lsq_handler_total_partial; [unfold lsq_wire_ok; rewrite Hn; reflexivity | exact Hst |].
  intros c p cx ups ups' dels _ _ Hcx. rewrite Hn in Hcx. discriminate.
Qed.

(* ------------------------------------------------------------------ the hypotheses are satisfiable by non-trivial inputs *)
Definition ex_env : env :=
  Build_env [Build_target (B "t1") (B "devicesim") (B "1.0.0")]
            [Build_plugin (B "devicesim") (B "1.0.0")
                          [Build_rwpath (B "/list[k=*]/k") true (B "k") []; Build_rwpath (B "/list[k=*]/v") false [] []; Build_rwpath (B "/foo") false [] []]] 0.

Definition ex_set : set_req :=
  Build_set_req None
    [Some (Build_gpath (B "t1") [Some (Build_elem (B "list") [(B "k", B "a]")])] [])]
    []
    [Some (Build_update (Some (Build_gpath (B "t1") [Some (Build_elem (B "list") [(B "k", B "k1")]); Some (Build_elem (B "k") [])] []))
                        (Some (TScalar (SStr (B "k1")))) (PPaths []));
     Some (Build_update (Some (Build_gpath (B "t1") [Some (Build_elem (B "foo") [])] [])) (Some (TScalar (SFloat true))) (PPaths []))]
    [ERegistered (Some (111, XStrategy false))].

Example ex_set_wire_ok : set_wire_ok ex_set = true.
Proof. vm_compute. reflexivity. Qed.

(* the delete of list[k=a]] (the shape that used to slice out of range) is refused with a status *)
Example ex_set_outcome : set_handler ex_env ex_set = Err c_invalid.
Proof. vm_compute. reflexivity. Qed.

(* without that delete the request reaches the NaN float, which is refused with a status as well *)
Example ex_set_nan_outcome :
  set_handler ex_env (Build_set_req None [] [] (s_update ex_set) (s_ext ex_set)) = Err c_internal.
Proof. vm_compute. reflexivity. Qed.

Definition ex_state : state :=
  [Build_config (B "t1-devicesim-1.0.0")
     [Build_stored (B "/list[k=k1]/k") false (mk_nval vt_string 2 [] None);
      Build_stored (B "/cont/lli") false (mk_nval vt_ll_int 4 [64; 0; 0; 1; 1; 3; 0]%Z None);
      Build_stored (B "/a=b/c") true (mk_nval 0 0 [] None)]].

Example ex_state_ok : state_ok ex_state = true.
Proof. vm_compute. reflexivity. Qed.

Definition ex_get : get_req :=
  Build_get_req (Some (Build_gpath (B "t1") [] [])) [Some (Build_gpath [] [Some (Build_elem (B "list") [(B "k", B "a(")])] [])] enc_json 0 [].

Example ex_get_wire_ok : get_wire_ok ex_get = true.
Proof. vm_compute. reflexivity. Qed.

Example ex_get_outcome : get_handler ex_env ex_state ex_get = Ok true.
Proof. vm_compute. reflexivity. Qed.

(* what state_ok excludes: a live entry the tree builder cannot slice (it passes IsPathValid) *)
Example tree_guard_unsafe_valid_path :
  is_path_valid (B "/list[k=a]]b=c]/v") = true /\ tree_guard (B "/list[k=a]]b=c]/v") = Panic w_slice.
Proof. split; vm_compute; reflexivity. Qed.

(* the allocation guard of LeafSelectionQuery has content: without it the first merged update panics on a
   configuration that exists but holds no value *)
Example merge_writes_needs_allocation :
  merge_writes false [] [B "/foo"] = Panic w_nilmap /\ forall vals ups, merge_writes true vals ups = Ok tt.
Proof. split; [reflexivity | intros; reflexivity]. Qed.
