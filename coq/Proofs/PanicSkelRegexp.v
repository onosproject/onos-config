(* regexp.MustCompile never panics on the text utils.MatchWildcardRegexp builds: the QuoteMeta'd query,
   after the two ReplaceAll passes, is exactly the rendering of a token list (literal / ".*" / legal-character
   class), and the recogniser of the emitted fragment accepts every such rendering. *)
From Coq Require Import List NArith ZArith Bool Lia.
From OC Require Import Base.Bytes Model.PanicSkel.
Import ListNotations.
Open Scope N_scope.
Local Arguments N.eqb : simpl never.
Local Arguments is_meta : simpl never.

Fixpoint toks (q : str) : list tok :=
  match q with
  | [] => []
  | c :: q' =>
    if c =? 46 then
      match q' with
      | c2 :: c3 :: q'' => if (c2 =? 46) && (c3 =? 46) then TAny :: toks q'' else TLit c :: toks q'
      | _ => TLit c :: toks q'
      end
    else if c =? 42 then TLegal :: toks q'
    else TLit c :: toks q'
  end.

Definition qtok (c : N) : str := if is_meta c then [92; c] else [c].
Definition rend1 (t : tok) : str := match t with TLit c => qtok c | TAny => B ".*" | TLegal => B "\*" end.
Definition rend2 (t : tok) : str := match t with TLit c => qtok c | TAny => B ".*" | TLegal => legal_class end.
Definition r1 (ts : list tok) : str := flat_map rend1 ts.
Definition r2 (ts : list tok) : str := flat_map rend2 ts.

Definition R1 (s : str) : str := replace_all (B "\.\.\.") (B ".*") s.
Definition R2 (s : str) : str := replace_all (B "\*") legal_class s.

Lemma quote_cons c q : quote_meta (c :: q) = qtok c ++ quote_meta q.
Proof. reflexivity. Qed.

(* first character of a quoted text: a backslash or a non-meta character *)
Definition head_ok (s : str) : Prop := match s with [] => True | x :: _ => x = 92 \/ is_meta x = false end.

Lemma quote_head q : head_ok (quote_meta q).
Proof.
  destruct q as [|c q]; [exact I|]. rewrite quote_cons. unfold qtok, head_ok.
  destruct (is_meta c) eqn:E; cbn [app]; [left; reflexivity | right; exact E].
Qed.

Lemma meta_46 : is_meta 46 = true. Proof. reflexivity. Qed.
Lemma meta_42 : is_meta 42 = true. Proof. reflexivity. Qed.

Lemma nonmeta_facts c : is_meta c = false ->
  (c =? 92) = false /\ (c =? 46) = false /\ (c =? 36) = false /\ (c =? 40) = false /\ (c =? 91) = false.
Proof.
  intros H. repeat split; apply N.eqb_neq; intros ->; discriminate.
Qed.

Lemma head_ok_not x s : head_ok (x :: s) -> is_meta x = true -> x <> 92 -> False.
Proof. cbn. intros [H|H] Hm Hn; congruence. Qed.

(* ReplaceAll where the text does not start like the pattern *)
Lemma replace_step_other b o new c s :
  (c =? b) = false -> replace_all (b :: o) new (c :: s) = c :: replace_all (b :: o) new s.
Proof. intros H. unfold replace_all. cbn [replace_all_aux prefixb]. rewrite (N.eqb_sym b c), H. reflexivity. Qed.

Lemma replace_bs_other b x o new c s :
  (c =? x) = false -> replace_all (b :: x :: o) new (b :: c :: s) = b :: replace_all (b :: x :: o) new (c :: s).
Proof.
  intros H. unfold replace_all. cbn [replace_all_aux prefixb]. rewrite (N.eqb_sym x c), H, andb_false_r. reflexivity.
Qed.

Definition not_head (x : N) (s : str) : Prop := match s with [] => True | y :: _ => y <> x end.

Lemma replace_bs_nothead b x o new s :
  not_head x s -> replace_all (b :: x :: o) new (b :: s) = b :: replace_all (b :: x :: o) new s.
Proof.
  destruct s as [|c s]; cbn [not_head]; intros H; [|apply replace_bs_other, N.eqb_neq, H].
  unfold replace_all. cbn [replace_all_aux prefixb]. rewrite andb_false_r. reflexivity.
Qed.

(* ReplaceAll of a pattern "\x..." steps over a quoted character other than x *)
Lemma replace_qtok x o new c s : c <> x -> not_head x s ->
  replace_all (92 :: x :: o) new (qtok c ++ s) = qtok c ++ replace_all (92 :: x :: o) new s.
Proof.
  intros Hc Hs. unfold qtok. destruct (is_meta c) eqn:Em; cbn [app].
  - rewrite replace_bs_other by (apply N.eqb_neq; exact Hc). f_equal.
    destruct (c =? 92) eqn:E92; [|apply replace_step_other; exact E92].
    apply N.eqb_eq in E92. subst c. apply replace_bs_nothead. exact Hs.
  - apply replace_step_other. exact (proj1 (nonmeta_facts c Em)).
Qed.

Lemma R2_step_other c s : (c =? 92) = false -> R2 (c :: s) = c :: R2 s.
Proof. exact (replace_step_other _ _ _ c s). Qed.

Lemma R1_nil : R1 [] = []. Proof. reflexivity. Qed.
Lemma R2_nil : R2 [] = []. Proof. reflexivity. Qed.

Lemma R1_bs_end : R1 [92] = [92]. Proof. reflexivity. Qed.
Lemma R2_bs_end : R2 [92] = [92]. Proof. reflexivity. Qed.

Lemma R2_star s : R2 (92 :: 42 :: s) = legal_class ++ R2 s.
Proof. reflexivity. Qed.

Lemma R1_dots s : R1 (92 :: 46 :: 92 :: 46 :: 92 :: 46 :: s) = 46 :: 42 :: R1 s.
Proof. reflexivity. Qed.

(* ---------------------------------------------------------------- stage 2 *)
Definition tok_ok (t : tok) : Prop := match t with TLit c => c <> 42 | _ => True end.

Lemma r1_nostar ts : not_head 42 (r1 ts).
Proof.
  destruct ts as [|t ts]; [exact I|]. unfold r1; cbn [flat_map]. destruct t as [c| |]; cbn; try discriminate.
  unfold qtok. destruct (is_meta c) eqn:E; cbn; [discriminate|]. intros ->. discriminate.
Qed.

Lemma stage2 ts : Forall tok_ok ts -> R2 (r1 ts) = r2 ts.
Proof.
  induction 1 as [|t ts Ht _ IH]; [reflexivity|].
  unfold r1, r2 in *; cbn [flat_map]. destruct t as [c| |].
  - cbn [rend1 rend2]. rewrite <- IH. apply (replace_qtok 42 [] legal_class); [exact Ht | apply r1_nostar].
  - cbn [rend1 rend2 app B]. change (B ".*") with [46; 42]. cbn [app].
    rewrite R2_step_other by reflexivity. rewrite R2_step_other by reflexivity. rewrite IH. reflexivity.
  - cbn [rend1 rend2]. change (B "\*") with [92; 42]. cbn [app]. rewrite R2_star. rewrite IH. reflexivity.
Qed.

(* ---------------------------------------------------------------- stage 1 *)
Lemma replace_bs_nomatch b x o new X : (x =? b) = false -> prefixb o X = false ->
  replace_all (b :: x :: o) new (b :: x :: X) = b :: x :: replace_all (b :: x :: o) new X.
Proof.
  intros Hx Ho. unfold replace_all. cbn [replace_all_aux prefixb].
  rewrite Ho, !andb_false_r, (N.eqb_sym b x), Hx. reflexivity.
Qed.

Lemma R1_bs_dot_nomatch X : prefixb [92; 46; 92; 46] X = false -> R1 (92 :: 46 :: X) = 92 :: 46 :: R1 X.
Proof. intros H. apply replace_bs_nomatch; [reflexivity | exact H]. Qed.

Lemma quote_nodot q : not_head 46 (quote_meta q).
Proof.
  pose proof (quote_head q) as Hh. destruct (quote_meta q) as [|x s]; [exact I|].
  intros ->. cbn in Hh. destruct Hh as [H|H]; discriminate.
Qed.

Lemma qtok_prefix c p s : prefixb (92 :: 46 :: p) (qtok c ++ s) = (c =? 46) && prefixb p s.
Proof.
  unfold qtok. destruct (is_meta c) eqn:Em; cbn [app prefixb].
  - rewrite (N.eqb_sym 46 c). reflexivity.
  - destruct (nonmeta_facts c Em) as (N92 & N46 & _). rewrite (N.eqb_sym 92 c), N92, N46. reflexivity.
Qed.

Lemma quote_no_dots_prefix q :
  match q with c2 :: c3 :: _ => (c2 =? 46) && (c3 =? 46) = false | _ => True end ->
  prefixb [92; 46; 92; 46] (quote_meta q) = false.
Proof.
  destruct q as [|c2 [|c3 q]]; intros H; [reflexivity | |].
  - rewrite quote_cons, qtok_prefix. apply andb_false_r.
  - rewrite !quote_cons, !qtok_prefix. cbn [prefixb]. rewrite andb_true_r. exact H.
Qed.

Lemma stage1_aux : forall n q, (List.length q <= n)%nat -> R1 (quote_meta q) = r1 (toks q) /\ Forall tok_ok (toks q).
Proof.
  induction n as [|n IH]; intros q Hn.
  - destruct q; [split; [reflexivity | constructor] | cbn in Hn; lia].
  - destruct q as [|c q']; [split; [reflexivity | constructor]|].
    cbn [List.length] in Hn. assert (Hq' : (List.length q' <= n)%nat) by lia.
    destruct (IH q' Hq') as [IH1 IH2].
    rewrite quote_cons. cbn [toks].
    destruct (c =? 46) eqn:E46.
    + apply N.eqb_eq in E46. subst c. unfold qtok. rewrite meta_46. cbn [app].
      assert (Hplain : match q' with c2 :: c3 :: _ => (c2 =? 46) && (c3 =? 46) = false | _ => True end ->
                       R1 (92 :: 46 :: quote_meta q') = r1 (TLit 46 :: toks q') /\ Forall tok_ok (TLit 46 :: toks q')).
      { intros Hc. split.
        - rewrite R1_bs_dot_nomatch by (apply quote_no_dots_prefix; exact Hc).
          rewrite IH1. unfold r1. cbn [flat_map rend1]. unfold qtok. rewrite meta_46. reflexivity.
        - constructor; [cbn; discriminate | exact IH2]. }
      destruct q' as [|c2 [|c3 q'']]; [apply Hplain; exact I | apply Hplain; exact I |].
      destruct ((c2 =? 46) && (c3 =? 46)) eqn:Edd; [|apply Hplain; reflexivity].
      apply andb_true_iff in Edd. destruct Edd as [Ea Eb]. apply N.eqb_eq in Ea. apply N.eqb_eq in Eb. subst c2 c3.
      cbn [List.length] in Hq'. destruct (IH q'' ltac:(lia)) as [J1 J2].
      rewrite !quote_cons. unfold qtok. rewrite meta_46. cbn [app]. rewrite R1_dots. rewrite J1.
      split; [reflexivity | constructor; [exact I | exact J2]].
    + assert (Hr : R1 (qtok c ++ quote_meta q') = qtok c ++ r1 (toks q')).
      { rewrite <- IH1. apply (replace_qtok 46 _ (B ".*")); [apply N.eqb_neq; exact E46 | apply quote_nodot]. }
      rewrite Hr. destruct (c =? 42) eqn:E42.
      * apply N.eqb_eq in E42. subst c. split; [reflexivity | constructor; [exact I | exact IH2]].
      * split; [reflexivity | constructor; [cbn; intros ->; discriminate | exact IH2]].
Qed.

Lemma body_tokens q : R2 (R1 (quote_meta q)) = r2 (toks q).
Proof.
  destruct (stage1_aux (List.length q) q (le_n _)) as [H1 H2]. rewrite H1. apply stage2. exact H2.
Qed.

(* ---------------------------------------------------------------- the recogniser accepts what is rendered *)
Definition ends (e : str) : Prop := e = [] \/ e = B "$" \/ e = B "(?:$|[/\[])".
Definition end_of (e : str) : rend := if eqb_str e [] then EndOpen else if eqb_str e (B "$") then EndExact else EndBoundary.

Lemma re_atoms_end e f : ends e -> re_atoms (S f) e = Some ([], end_of e).
Proof. intros [-> | [-> | ->]]; reflexivity. Qed.

(* one step of the recogniser on a character that starts neither an ending nor the legal class *)
Lemma re_atoms_step f c s : (c =? 36) = false -> (c =? 40) = false -> (c =? 91) = false ->
  re_atoms (S f) (c :: s) =
  if c =? 92 then
    match s with
    | c2 :: s'' => if is_meta c2 then option_map (fun r => (TLit c2 :: fst r, snd r)) (re_atoms f s'') else None
    | [] => None
    end
  else if c =? 46 then
    match s with
    | c2 :: s'' => if c2 =? 42 then option_map (fun r => (TAny :: fst r, snd r)) (re_atoms f s'') else None
    | [] => None
    end
  else if is_meta c then None
  else option_map (fun r => (TLit c :: fst r, snd r)) (re_atoms f s).
Proof.
  intros N36 N40 N91. cbn [re_atoms]. change (eqb_str (c :: s) []) with false.
  change (eqb_str (c :: s) (B "$")) with ((c =? 36) && eqb_str s []).
  change (eqb_str (c :: s) (B "(?:$|[/\[])")) with ((c =? 40) && eqb_str s (B "?:$|[/\[])")).
  change (prefixb legal_class (c :: s)) with ((91 =? c) && prefixb (B "a-zA-Z0-9_:,\-\.]*?") s).
  rewrite N36, N40, (N.eqb_sym 91 c), N91. reflexivity.
Qed.

Lemma rend2_length t : (0 < List.length (rend2 t))%nat.
Proof. destruct t as [c| |]; cbn; try lia. unfold qtok. destruct (is_meta c); cbn; lia. Qed.

Lemma re_atoms_render ts : forall e fuel, ends e -> (List.length (r2 ts ++ e) < fuel)%nat ->
  re_atoms fuel (r2 ts ++ e) = Some (ts, end_of e).
Proof.
  induction ts as [|t ts IH]; intros e fuel HS Hf.
  - cbn [r2 flat_map app] in *. destruct fuel as [|f]; [lia|]. apply re_atoms_end. exact HS.
  - destruct fuel as [|f]; [lia|].
    unfold r2 in *. cbn [flat_map] in *. rewrite <- app_assoc in *.
    set (rest := flat_map rend2 ts ++ e) in *.
    assert (Hr : re_atoms f rest = Some (ts, end_of e)).
    { apply IH; [exact HS|]. fold rest. rewrite app_length in Hf. pose proof (rend2_length t). lia. }
    destruct t as [c| |]; cbn [rend2].
    + unfold qtok. destruct (is_meta c) eqn:Em; cbn [app].
      * rewrite re_atoms_step by reflexivity. change (92 =? 92) with true. cbv iota. rewrite Em, Hr. reflexivity.
      * destruct (nonmeta_facts c Em) as (N92 & N46 & N36 & N40 & N91).
        rewrite re_atoms_step by assumption. rewrite N92, N46, Em, Hr. reflexivity.
    + change (B ".*") with [46; 42]. cbn [app]. rewrite re_atoms_step by reflexivity.
      change (46 =? 92) with false. change (46 =? 46) with true. change (42 =? 42) with true. cbv iota.
      rewrite Hr. reflexivity.
    + cbn [re_atoms].
      assert (E1 : eqb_str (legal_class ++ rest) [] = false) by reflexivity.
      assert (E2 : eqb_str (legal_class ++ rest) (B "$") = false) by reflexivity.
      assert (E3 : eqb_str (legal_class ++ rest) (B "(?:$|[/\[])") = false) by reflexivity.
      rewrite E1, E2, E3. rewrite prefixb_app.
      replace (skipn (List.length legal_class) (legal_class ++ rest)) with rest by reflexivity.
      rewrite Hr. reflexivity.
Qed.

Theorem wildcard_regexp_compiles : forall q exact, is_panic (must_compile (wildcard_regexp q exact)) = false.
Proof.
  intros q exact. unfold wildcard_regexp.
  change (replace_all (B "\*") legal_class (replace_all (B "\.\.\.") (B ".*") (quote_meta q))) with (R2 (R1 (quote_meta q))).
  rewrite body_tokens.
  assert (H : forall e, ends e -> is_panic (must_compile (B "^" ++ r2 (toks q) ++ e)) = false).
  { intros e HS. change (B "^" ++ r2 (toks q) ++ e) with (94 :: (r2 (toks q) ++ e)). unfold must_compile.
    rewrite (re_atoms_render (toks q) e _ HS) by lia. reflexivity. }
  destruct exact.
  - apply H. right; left; reflexivity.
  - destruct (suffixb [c_slash] q || suffixb (B "...") q).
    + rewrite <- (app_nil_r (r2 (toks q))). apply H. left; reflexivity.
    + apply H. right; right; reflexivity.
Qed.
