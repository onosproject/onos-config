(* From textual paths to element lists (the steps of Spec/Gnmi.v).
   render writes a step list the way onos-config prints a gNMI path: "/" name for an element, "[" key "=" value "]" for
   each of its keys.  For well-formed steps (no '/' or '[' in an element name, no '=' in a key name, no ']' in a key
   value, names not empty)
     - render is injective,
     - "text p is beneath text q at a '/' or '[' boundary" (utils.IsPathBelow) holds exactly when the steps of q are a
       PROPER PREFIX of the steps of p: a container above its children, a key-less list name above every entry, a
       leading subset of the keys above every entry having them - and never a name that merely shares a textual prefix. *)
From Coq Require Import List NArith Bool Lia.
From OC Require Import Base.Bytes Model.Merge Spec.Gnmi Proofs.MergeProofs Proofs.TextPathProofs.
Import ListNotations.
Open Scope N_scope.

Definition render_step (s : step) : str :=
  match s with
  | SName n => c_slash :: n
  | SKey k v => c_lbr :: k ++ c_eq :: v ++ [c_rbr]
  end.

Definition render (p : spath) : str := concat (map render_step p).

Definition no_boundary (s : str) : Prop := forall c, In c s -> is_boundary c = false.

Definition step_wf (s : step) : Prop :=
  match s with
  | SName n => n <> [] /\ no_boundary n
  | SKey k v => ~ In c_eq k /\ ~ In c_rbr v
  end.

Definition spath_wf (p : spath) : Prop := Forall step_wf p.

(* the boolean form *)
Definition step_wfb (s : step) : bool :=
  match s with
  | SName n => negb (eqb_str n []) && forallb (fun c => negb (is_boundary c)) n
  | SKey k v => forallb (fun c => negb (c =? c_eq)) k && forallb (fun c => negb (c =? c_rbr)) v
  end.
Definition spath_wfb (p : spath) : bool := forallb step_wfb p.

Lemma step_wfb_ok s : step_wfb s = true -> step_wf s.
Proof.
  destruct s as [n|k v]; cbn; rewrite andb_true_iff, !forallb_forall; intros [H1 H2].
  - split; [apply negb_true_iff in H1; apply eqb_str_neq in H1; exact H1|].
    intros c HI. specialize (H2 c HI). apply negb_true_iff in H2. exact H2.
  - split; intros HI.
    + specialize (H1 _ HI). rewrite N.eqb_refl in H1. discriminate.
    + specialize (H2 _ HI). rewrite N.eqb_refl in H2. discriminate.
Qed.

Lemma spath_wfb_ok p : spath_wfb p = true -> spath_wf p.
Proof.
  unfold spath_wfb, spath_wf. rewrite forallb_forall. intros H. apply Forall_forall. intros s HI.
  apply step_wfb_ok, H, HI.
Qed.

(* a text that is empty or starts at a path element boundary *)
Definition bstart (r : str) : Prop := match r with [] => True | c :: _ => is_boundary c = true end.

Lemma render_cons s p : render (s :: p) = render_step s ++ render p.
Proof. reflexivity. Qed.

Lemma render_app p q : render (p ++ q) = render p ++ render q.
Proof. unfold render. rewrite map_app, concat_app. reflexivity. Qed.

Lemma render_step_start s : exists c r, render_step s = c :: r /\ is_boundary c = true.
Proof. destruct s as [n|k v]; cbn; eexists; eexists; split; reflexivity. Qed.

Lemma render_bstart p : bstart (render p).
Proof.
  destruct p as [|s p]; [exact I|]. rewrite render_cons.
  destruct (render_step_start s) as [c [r [-> B]]]. exact B.
Qed.

Lemma render_nonempty s p : render (s :: p) <> [].
Proof. rewrite render_cons. destruct (render_step_start s) as [c [r [-> _]]]. discriminate. Qed.

Lemma bstart_app (a b : str) : bstart a -> bstart b -> bstart (a ++ b).
Proof. destruct a; cbn; auto. Qed.

(* ------------------------------------------------------------------ unique readability *)
Lemma name_split n : forall m R1 R2, no_boundary n -> no_boundary m -> bstart R1 -> bstart R2 ->
  n ++ R1 = m ++ R2 -> n = m /\ R1 = R2.
Proof.
  induction n as [|x n IH]; intros m R1 R2 Hn Hm B1 B2 E.
  - destruct m as [|y m]; [auto|]. exfalso. cbn in E. subst R1. cbn in B1.
    rewrite (Hm y (or_introl eq_refl)) in B1. discriminate.
  - destruct m as [|y m].
    + exfalso. cbn in E. subst R2. cbn in B2. rewrite (Hn x (or_introl eq_refl)) in B2. discriminate.
    + cbn in E. injection E as -> E.
      destruct (IH m R1 R2) as [-> ->]; auto.
      * intros c HI. apply Hn. right. exact HI.
      * intros c HI. apply Hm. right. exact HI.
  Qed.

Lemma delim_split (d : N) (a : str) : forall (a' X Y : str), ~ In d a -> ~ In d a' -> a ++ d :: X = a' ++ d :: Y -> a = a' /\ X = Y.
Proof.
  induction a as [|x a IH]; intros a' X Y Ha Ha' E.
  - destruct a' as [|y a']; cbn in E; [injection E as ->; auto|].
    injection E as -> _. exfalso. apply Ha'. left. reflexivity.
  - destruct a' as [|y a']; cbn in E.
    + injection E as -> _. exfalso. apply Ha. left. reflexivity.
    + injection E as -> E. destruct (IH a' X Y) as [-> ->]; auto.
      * intros HI. apply Ha. right. exact HI.
      * intros HI. apply Ha'. right. exact HI.
Qed.

(* what unique readability of a step needs: less than step_wf (the name may be empty) *)
Definition readable (s : step) : Prop :=
  match s with
  | SName n => no_boundary n
  | SKey k v => ~ In c_eq k /\ ~ In c_rbr v
  end.

Lemma step_wf_readable s : step_wf s -> readable s.
Proof. destruct s; [intros [_ H]; exact H | auto]. Qed.

Lemma step_split s t R1 R2 : readable s -> readable t -> bstart R1 -> bstart R2 ->
  render_step s ++ R1 = render_step t ++ R2 -> s = t /\ R1 = R2.
Proof.
  intros Ws Wt B1 B2 E. destruct s as [n|k v]; destruct t as [m|k' v']; cbn in E; try discriminate.
  - injection E as E. destruct (name_split n m R1 R2 Ws Wt B1 B2 E) as [-> ->]. auto.
  - injection E as E. destruct Ws as [Hk Hv]. destruct Wt as [Hk' Hv'].
    rewrite <- !app_assoc in E. cbn in E.
    destruct (delim_split c_eq k k' _ _ Hk Hk' E) as [-> E2].
    rewrite <- !app_assoc in E2. cbn in E2.
    destruct (delim_split c_rbr v v' _ _ Hv Hv' E2) as [-> ->]. auto.
Qed.

Lemma render_prefix_gen q : forall p R, spath_wf q -> spath_wf p -> bstart R ->
  render q ++ R = render p -> exists rest, p = q ++ rest /\ render rest = R.
Proof.
  induction q as [|s q IH]; intros p R Wq Wp BR E.
  - exists p. cbn in E. auto.
  - inversion Wq as [|? ? Ws Wq']; subst.
    destruct p as [|t p].
    + exfalso. rewrite render_cons in E. destruct (render_step_start s) as [c [r [Es _]]]. rewrite Es in E. discriminate.
    + inversion Wp as [|? ? Wt Wp']; subst. rewrite !render_cons, <- app_assoc in E.
      destruct (step_split s t (render q ++ R) (render p) (step_wf_readable s Ws) (step_wf_readable t Wt)) as [-> E'];
        [apply bstart_app; [apply render_bstart | exact BR] | apply render_bstart | exact E |].
      destruct (IH p R Wq' Wp' BR E') as [rest [-> HR]]. exists rest. auto.
Qed.

Theorem render_injective p q : spath_wf p -> spath_wf q -> render p = render q -> p = q.
Proof.
  intros Wp Wq E. destruct (render_prefix_gen p q [] Wp Wq I) as [rest [-> HR]]; [rewrite app_nil_r; exact E|].
  destruct rest as [|s rest]; [rewrite app_nil_r; reflexivity|]. exfalso. apply (render_nonempty s rest HR).
Qed.

Lemma render_proper p : spath_wf p -> p <> [] -> proper (render p).
Proof.
  intros W NE. destruct p as [|s p]; [congruence|]. split; [apply render_nonempty|].
  inversion W as [|? ? Ws _]; subst. rewrite render_cons. destruct s as [n|k v]; cbn.
  - destruct Ws as [Hn _]. destruct n; [congruence | discriminate].
  - discriminate.
Qed.

(* ------------------------------------------------------------------ beneath = proper prefix of the steps *)
Theorem below_iff_proper_prefix p q : spath_wf p -> spath_wf q -> q <> [] ->
  (is_path_below (render p) (render q) = true <-> exists rest, rest <> [] /\ p = q ++ rest).
Proof.
  intros Wp Wq NE. rewrite (below_iff (render p) (render q) (render_proper q Wq NE)). split.
  - intros [c [r [E B]]].
    destruct (render_prefix_gen q p (c :: r) Wq Wp B (eq_sym E)) as [rest [-> HR]].
    exists rest. split; [|reflexivity]. intros ->. discriminate.
  - intros [rest [NR ->]]. rewrite render_app. destruct rest as [|s rest]; [congruence|].
    rewrite render_cons. destruct (render_step_start s) as [c [r [-> B]]]. exists c, (r ++ render rest). auto.
Qed.

(* the same with the boolean prefix test of Spec/Gnmi.v *)
Lemma eqb_step_eq a b : eqb_step a b = true <-> a = b.
Proof.
  destruct a as [x|k v]; destruct b as [y|k' v']; cbn; split; try congruence.
  - intros H. apply eqb_str_eq in H. congruence.
  - intros [= ->]. apply eqb_str_refl.
  - rewrite andb_true_iff, !eqb_str_eq. intros [-> ->]. reflexivity.
  - intros [= -> ->]. rewrite !eqb_str_refl. reflexivity.
Qed.

Lemma eqb_spath_eq a : forall b, eqb_spath a b = true <-> a = b.
Proof.
  induction a as [|x a IH]; intros [|y b]; cbn; split; try congruence; try reflexivity.
  - rewrite andb_true_iff, eqb_step_eq, IH. intros [-> ->]. reflexivity.
  - intros [= -> ->]. rewrite andb_true_iff, eqb_step_eq, IH. auto.
Qed.

Lemma eqb_spath_refl a : eqb_spath a a = true.
Proof. apply eqb_spath_eq. reflexivity. Qed.

Lemma sprefix_spec d : forall p, sprefix d p = true <-> exists rest, p = d ++ rest.
Proof.
  induction d as [|x d IH]; intros p; cbn.
  - split; [intros _; exists p; reflexivity | reflexivity].
  - destruct p as [|y p]; [split; [discriminate | intros [rest H]; discriminate]|].
    rewrite andb_true_iff, eqb_step_eq, IH. split.
    + intros [-> [rest ->]]. exists rest. reflexivity.
    + intros [rest [= -> ->]]. split; [reflexivity | exists rest; reflexivity].
Qed.

Theorem below_is_proper_sprefix p q : spath_wf p -> spath_wf q -> q <> [] ->
  is_path_below (render p) (render q) = sprefix q p && negb (eqb_spath q p).
Proof.
  intros Wp Wq NE.
  destruct (is_path_below (render p) (render q)) eqn:B.
  - apply (below_iff_proper_prefix p q Wp Wq NE) in B. destruct B as [rest [NR ->]]. symmetry.
    apply andb_true_iff. split; [apply sprefix_spec; exists rest; reflexivity|].
    apply negb_true_iff. destruct (eqb_spath q (q ++ rest)) eqn:E; [|reflexivity].
    apply eqb_spath_eq in E. destruct rest; [congruence | destruct (app_cons_neq _ _ _ E)].
  - symmetry. destruct (sprefix q p) eqn:S; [|reflexivity]. cbn [andb]. apply negb_false_iff.
    apply sprefix_spec in S. destruct S as [rest ->].
    destruct rest as [|s rest]; [rewrite app_nil_r; apply eqb_spath_refl|]. exfalso.
    assert (H : is_path_below (render (q ++ s :: rest)) (render q) = true).
    { apply (below_iff_proper_prefix _ q Wp Wq NE). exists (s :: rest). split; [discriminate | reflexivity]. }
    congruence.
Qed.

Lemma eqb_render p q : spath_wf p -> spath_wf q -> eqb_str (render p) (render q) = eqb_spath p q.
Proof.
  intros Wp Wq. destruct (eqb_spath p q) eqn:E.
  - apply eqb_spath_eq in E. subst. apply eqb_str_refl.
  - apply eqb_str_neq. intros H. apply (render_injective p q Wp Wq) in H. subst.
    rewrite eqb_spath_refl in E. discriminate.
Qed.
