(* The step lists of Spec/Gnmi.v and the gNMI paths of property C16 (Model/Path.v): for a path the Set handler accepts
   (YANG identifiers as element and key names, key values over IndexAllowedChars) the text utils.StrPath prints is the
   rendering of its steps - name, then the keys in the order StrPath prints them (sorted by key name) - and these steps
   are well formed, so PathAbstraction.v applies to every accepted path. *)
From Coq Require Import List NArith Bool Lia.
From OC Require Import Base.Bytes Model.Merge Model.Path Spec.Gnmi Proofs.PathProofs Proofs.PathProofs2 Proofs.PathAbstraction.
Import ListNotations.
Open Scope N_scope.

Definition steps_of_elem (e : elem) : spath :=
  SName (e_name e) :: map (fun kv => SKey (fst kv) (snd kv)) (isort key_leb (e_keys e)).
Definition steps_of (p : gpath) : spath := concat (map steps_of_elem p).

Lemma safe_id esc s : has esc s = false -> has c_bslash s = false -> safe esc s = s.
Proof.
  induction s as [|c s IH]; cbn [safe]; [reflexivity|]. rewrite !has_cons, !orb_false_iff. intros [H1 H1'] [H2 H2'].
  rewrite H1, H2, (IH H1' H2'). reflexivity.
Qed.

Lemma index_allowed_has v c : index_allowed v = true -> index_char c = false -> has c v = false.
Proof. unfold index_allowed. rewrite andb_true_iff. intros [_ H]. apply forallb_has, H. Qed.

Definition key_acc (kv : str * str) : Prop := ident (fst kv) = true /\ index_allowed (snd kv) = true.

Lemma render_keys_steps ks : Forall key_acc ks ->
  concat (map render_key ks) = render (map (fun kv => SKey (fst kv) (snd kv)) ks).
Proof.
  induction ks as [|[k v] ks IH]; intros F; [reflexivity|].
  inversion F as [|? ? [_ Hv] Fks]; subst. cbn [map concat]. rewrite render_cons, (IH Fks).
  unfold render_key. cbn [fst snd render_step].
  rewrite (safe_id c_rbr v); [reflexivity | |]; apply (index_allowed_has v _ Hv); reflexivity.
Qed.

Lemma keys_steps_wf ks : Forall key_acc ks -> spath_wf (map (fun kv => SKey (fst kv) (snd kv)) ks).
Proof.
  induction ks as [|[k v] ks IH]; intros F; [constructor|].
  inversion F as [|? ? [Hk Hv] Fks]; subst. constructor; [|apply IH; exact Fks].
  cbn [fst snd step_wf] in *. split; apply has_false.
  - apply (ident_parts k Hk).
  - apply (index_allowed_has v _ Hv). reflexivity.
Qed.

Lemma accepted_elem_steps e : accepted_elem e = true ->
  c_slash :: Path.render e = render (steps_of_elem e) /\ spath_wf (steps_of_elem e).
Proof.
  unfold accepted_elem. rewrite !andb_true_iff, forallb_forall. intros [[Hn Hk] _].
  destruct (ident_parts _ Hn) as (NE & Hsl & Hlb & _ & _ & Hbs).
  assert (F : Forall key_acc (isort key_leb (e_keys e))).
  { apply Forall_forall. intros kv HI. apply isort_in in HI.
    specialize (Hk kv HI). apply andb_true_iff in Hk. exact Hk. }
  split.
  - unfold Path.render, steps_of_elem, render_keys. rewrite render_cons. cbn [render_step].
    rewrite (render_keys_steps _ F), (safe_id c_slash (e_name e) Hsl Hbs). reflexivity.
  - unfold steps_of_elem. constructor; [|apply keys_steps_wf; exact F].
    split; [exact NE|]. intros c HI. unfold is_boundary.
    apply orb_false_iff. split; apply N.eqb_neq; intros ->; [apply (proj1 (has_false _ _) Hsl HI) | apply (proj1 (has_false _ _) Hlb HI)].
Qed.

Theorem accepted_path_steps p : accepted_gpath p = true ->
  str_path p = render (steps_of p) /\ spath_wf (steps_of p) /\ steps_of p <> [].
Proof.
  unfold accepted_gpath. destruct p as [|e0 p0]; [discriminate|]. intros H.
  assert (G : str_path_elem (e0 :: p0) = render (steps_of (e0 :: p0)) /\ spath_wf (steps_of (e0 :: p0))).
  { revert H. generalize (e0 :: p0). intros p. induction p as [|e p IH]; intros H; [split; [reflexivity | constructor]|].
    cbn [forallb] in H. apply andb_true_iff in H. destruct H as [He Hp].
    destruct (accepted_elem_steps e He) as [E1 W1]. destruct (IH Hp) as [E2 W2].
    unfold steps_of, str_path_elem in *. cbn [map concat]. split.
    - rewrite render_app, <- E1, <- E2. reflexivity.
    - apply Forall_app. split; assumption. }
  destruct G as [G1 G2]. split; [exact G1|]. split; [exact G2|]. unfold steps_of, steps_of_elem. cbn. discriminate.
Qed.

(* hence, between the texts of two accepted paths, "beneath" is "proper prefix of the steps" *)
Corollary accepted_below p q : accepted_gpath p = true -> accepted_gpath q = true ->
  is_path_below (str_path p) (str_path q) = sprefix (steps_of q) (steps_of p) && negb (eqb_spath (steps_of q) (steps_of p)).
Proof.
  intros Hp Hq. destruct (accepted_path_steps p Hp) as [-> [Wp _]]. destruct (accepted_path_steps q Hq) as [-> [Wq Nq]].
  apply below_is_proper_sprefix; assumption.
Qed.
