(* Proofs about the path codec model (property C16), part 2: SplitPath on rendered paths, the round
   trip, injectivity, GetParentPath, createUpdate's re-parser, the accepted alphabet, and the
   counterexamples showing that every conjunct of wf_gpath is needed. *)
From Coq Require Import List NArith Bool Lia Permutation.
From OC Require Import Base.Bytes Model.Path Proofs.PathProofs.
Import ListNotations.
Open Scope N_scope.

(* --------------------------------------------- the tokenizer on one element -- *)
Lemma run_render_key k v inb :
  key_ok (k, v) = true -> run (inb, false) (render_key (k, v)) = Some (false, false).
Proof.
  intros H. apply key_ok_parts in H as (_ & _ & Hbs & _ & Hu).
  unfold key_unsplit in Hu.
  destruct (scan_open true true k) as [b|] eqn:Ek; [|discriminate].
  destruct (scan_open false b v) as [b'|] eqn:Ev; [|discriminate].
  unfold render_key; cbn [fst snd].
  cbn [run fst snd]. change (tok_step inb false c_lbr) with (Some (true, false)). cbv iota.
  rewrite run_app, (run_scan_key _ _ _ Hbs Ek).
  cbn [run fst snd]. change (tok_step b false c_eq) with (Some (b, false)). cbv iota.
  rewrite run_app, (run_scan_val _ _ _ Ev).
  reflexivity.
Qed.

Lemma run_render_keys ks : forall inb,
  forallb key_ok ks = true -> run (inb, false) (concat (map render_key ks)) = Some (inb && is_empty (concat (map render_key ks)), false).
Proof.
  induction ks as [|[k v] ks IH]; intros inb H.
  - cbn. rewrite andb_true_r. reflexivity.
  - cbn [forallb] in H. apply andb_true_iff in H as [Hkv H].
    cbn [map concat]. rewrite run_app, (run_render_key _ _ _ Hkv), (IH _ H).
    unfold render_key. cbn. rewrite andb_false_r. reflexivity.
Qed.

Definition tok_ok (e : elem) : Prop := run (false, false) (render e) = Some (false, false).

Lemma elem_tok_ok last e : elem_ok last e = true -> tok_ok e.
Proof.
  intros H. apply elem_ok_parts in H as (Hn & Hk & Hs & _).
  unfold tok_ok, render. rewrite run_app, (run_safe_name _ Hn), (render_keys_sorted _ Hs), (run_render_keys _ _ Hk).
  reflexivity.
Qed.

Lemma next_token_render e r :
  tok_ok e -> (r = [] \/ exists r', r = c_slash :: r') -> next_token false false (render e ++ r) = (render e, r).
Proof.
  intros H Hr. rewrite (next_token_run _ _ _ _ r H). cbn [fst snd].
  destruct Hr as [->|[r' ->]]; cbn; [rewrite app_nil_r|rewrite app_nil_r]; reflexivity.
Qed.

(* ------------------------------------------------ SplitPath on a rendered path -- *)
(* the text of e :: p without its leading '/' *)
Definition body (e : elem) (p : gpath) : str := render e ++ str_path_elem p.

Lemma str_path_elem_cons e p : str_path_elem (e :: p) = c_slash :: body e p.
Proof. reflexivity. Qed.

Lemma body_nil e : body e [] = render e.
Proof. apply app_nil_r. Qed.

Lemma body_cons e e2 p : body e (e2 :: p) = render e ++ c_slash :: body e2 p.
Proof. reflexivity. Qed.

Lemma split_loop_nil f : split_loop f [] = [].
Proof. destruct f; reflexivity. Qed.

Lemma split_loop_cons f path :
  path <> [] ->
  split_loop (S f) path = fst (next_token false false path) :: split_loop f (strip_slash (snd (next_token false false path))).
Proof.
  intros H. destruct path as [|c path]; [congruence|].
  cbn [split_loop]. destruct (next_token false false (c :: path)); reflexivity.
Qed.

Lemma wf_gpath_cons e e2 p : wf_gpath (e :: e2 :: p) = elem_ok false e && wf_gpath (e2 :: p).
Proof. reflexivity. Qed.

Lemma wf_gpath_parts p : wf_gpath p = true -> Forall (fun e => elem_ok false e = true) p.
Proof.
  induction p as [|e [|e2 p] IH]; intros H; [constructor|constructor; [apply elem_ok_weaken; exact H|constructor]|].
  rewrite wf_gpath_cons in H. apply andb_true_iff in H as [He H]. constructor; [exact He|apply IH; exact H].
Qed.

Lemma name_render_nonempty e : e_name e <> [] -> render e <> [].
Proof.
  unfold render. destruct (e_name e) as [|x n]; [congruence|]. intros _.
  cbn [safe]. destruct ((x =? c_slash) || (x =? c_bslash)); discriminate.
Qed.

Lemma split_loop_body p : forall e fuel,
  wf_gpath (e :: p) = true ->
  (List.length (body e p) < fuel)%nat ->
  split_loop fuel (body e p) = map render (e :: p).
Proof.
  induction p as [|e2 p IH]; intros e fuel Hwf Hfuel; (destruct fuel as [|f]; [lia|]).
  - rewrite body_nil. cbn [wf_gpath] in Hwf. pose proof (elem_tok_ok _ _ Hwf) as He.
    rewrite split_loop_cons
      by (apply name_render_nonempty; apply elem_ok_parts in Hwf as (_ & _ & _ & [Hn|[Hn _]]); [exact Hn|discriminate]).
    pose proof (next_token_render _ [] He (or_introl eq_refl)) as T. rewrite app_nil_r in T.
    rewrite T. cbn [fst snd strip_slash].
    rewrite split_loop_nil. reflexivity.
  - rewrite wf_gpath_cons in Hwf. apply andb_true_iff in Hwf as [He Hwf]. apply elem_tok_ok in He.
    rewrite body_cons in *.
    rewrite split_loop_cons by (destruct (render e); discriminate).
    rewrite (next_token_render _ _ He (or_intror (ex_intro _ _ eq_refl))). cbn [fst snd strip_slash].
    rewrite N.eqb_refl.
    cbn [map]. f_equal.
    apply IH; [exact Hwf|]. rewrite app_length in Hfuel. cbn [List.length] in Hfuel. lia.
Qed.

Lemma split_path_render p : wf_gpath p = true -> split_path (str_path_elem p) = map render p.
Proof.
  intros H. destruct p as [|e p]; [reflexivity|].
  rewrite str_path_elem_cons. unfold split_path. cbn [strip_slash]. rewrite N.eqb_refl.
  apply split_loop_body; [exact H|lia].
Qed.

Lemma str_path_nonempty e p : str_path (e :: p) = str_path_elem (e :: p).
Proof. reflexivity. Qed.

Lemma split_path_str_path p : wf_gpath p = true -> split_path (str_path p) = map render p.
Proof.
  destruct p as [|e p]; [reflexivity|]. rewrite str_path_nonempty. apply split_path_render.
Qed.

(* ---------------------------------------------------------------- round trip -- *)
Lemma roundtrip_elem p : wf_gpath p = true -> parse_path (str_path_elem p) = ROk p.
Proof.
  intros H. unfold parse_path. rewrite (split_path_render _ H).
  apply parse_gnmi_elements_render. apply wf_gpath_parts. exact H.
Qed.

Lemma roundtrip p : wf_gpath p = true -> parse_path (str_path p) = ROk p.
Proof.
  destruct p as [|e p]; [reflexivity|]. rewrite str_path_nonempty. apply roundtrip_elem.
Qed.

Lemma injective p q : wf_gpath p = true -> wf_gpath q = true -> str_path p = str_path q -> p = q.
Proof.
  intros Hp Hq E. pose proof (roundtrip _ Hp) as Rp. rewrite E, (roundtrip _ Hq) in Rp. congruence.
Qed.

(* ------------------------------------------------------------- GetParentPath -- *)
Lemma last_index_none c t : has c t = false -> last_index_byte c t = None.
Proof.
  induction t as [|x t IH]; intros H; [reflexivity|].
  apply has_cons_inv in H as [Hx H].
  cbn. rewrite (IH H), Hx. reflexivity.
Qed.

Lemma last_index_app c s t : has c t = false -> last_index_byte c (s ++ c :: t) = Some (List.length s).
Proof.
  intros H. induction s as [|x s IH].
  - cbn. rewrite (last_index_none _ _ H), N.eqb_refl. reflexivity.
  - cbn [app last_index_byte List.length]. rewrite IH. reflexivity.
Qed.

Lemma firstn_length_app {A} (s t : list A) : firstn (List.length s) (s ++ t) = s.
Proof. induction s as [|x s IH]; [destruct t; reflexivity|cbn; f_equal; exact IH]. Qed.

Lemma get_parent_app s t : has c_slash t = false -> get_parent (s ++ c_slash :: t) = s.
Proof.
  intros H. unfold get_parent. rewrite (last_index_app _ _ _ H).
  destruct s as [|x s]; [reflexivity|].
  cbn [List.length]. change (S (List.length s)) with (List.length (x :: s)). apply firstn_length_app.
Qed.

Lemma has_safe c e s : c <> c_bslash -> has c (safe e s) = has c s.
Proof.
  intros Hc. induction s as [|x s IH]; [reflexivity|].
  cbn [safe]. destruct ((x =? e) || (x =? c_bslash)).
  - rewrite !has_cons, IH. assert (c_bslash =? c = false) as -> by (apply N.eqb_neq; congruence). reflexivity.
  - rewrite !has_cons, IH. reflexivity.
Qed.

Lemma has_concat c l : Forall (fun s => has c s = false) l -> has c (concat l) = false.
Proof.
  induction 1 as [|s l Hs _ IH]; [reflexivity|]. cbn [concat]. rewrite has_app, Hs, IH. reflexivity.
Qed.

Lemma slash_free_render e : slash_free e = true -> has c_slash (render e) = false.
Proof.
  unfold slash_free. rewrite andb_true_iff, negb_true_iff. intros [Hn Hk].
  unfold render. rewrite has_app, has_safe, Hn by discriminate. cbn [orb].
  unfold render_keys. apply has_concat. apply Forall_map.
  assert (HF : Forall (fun kv => has c_slash (render_key kv) = false) (e_keys e)).
  { apply Forall_forall. intros [k v] Hin. rewrite forallb_forall in Hk. specialize (Hk _ Hin).
    cbn [fst snd] in Hk. apply andb_true_iff in Hk as [H1 H2]. apply negb_true_iff in H1, H2.
    unfold render_key; cbn [fst snd]. rewrite has_cons, has_app, has_cons, has_app, has_safe, H1, H2 by discriminate.
    reflexivity. }
  eapply Permutation_Forall; [apply isort_perm|exact HF].
Qed.

Lemma str_path_elem_app p q : str_path_elem (p ++ q) = str_path_elem p ++ str_path_elem q.
Proof. unfold str_path_elem. rewrite map_app, concat_app. reflexivity. Qed.

Lemma parent_of_path p e : slash_free e = true -> get_parent (str_path_elem (p ++ [e])) = str_path_elem p.
Proof.
  intros H. rewrite str_path_elem_app. cbn [str_path_elem map concat]. rewrite app_nil_r.
  apply get_parent_app. apply slash_free_render. exact H.
Qed.

(* ------------------------------------------------- createUpdate's re-parser -- *)
Lemma trim_right_noslash t : has c_slash t = false -> trim_right_slash t = t.
Proof.
  induction t as [|x t IH]; intros H; [reflexivity|].
  apply has_cons_inv in H as [Hx H].
  cbn [trim_right_slash]. rewrite (IH H). destruct t; [rewrite Hx|]; reflexivity.
Qed.

Lemma trim_right_app a b : trim_right_slash b <> [] -> trim_right_slash (a ++ b) = a ++ trim_right_slash b.
Proof.
  intros H. induction a as [|x a IH]; [reflexivity|].
  cbn [app trim_right_slash]. rewrite IH.
  destruct (a ++ trim_right_slash b) eqn:E; [|reflexivity].
  apply app_eq_nil in E as [_ E]. contradiction.
Qed.

Lemma split_on_token c t r : has c t = false -> split_on c (t ++ c :: r) = t :: split_on c r.
Proof.
  intros H. induction t as [|x t IH].
  - cbn. rewrite N.eqb_refl. reflexivity.
  - apply has_cons_inv in H as [Hx H].
    cbn [app split_on]. rewrite Hx, (IH H). reflexivity.
Qed.

Lemma split_on_single c t : has c t = false -> split_on c t = [t].
Proof.
  induction t as [|x t IH]; intros H; [reflexivity|].
  apply has_cons_inv in H as [Hx H].
  cbn [split_on]. rewrite Hx, (IH H). reflexivity.
Qed.

(* elements whose text is non-empty and free of '/' *)
Definition plain (e : elem) : Prop := has c_slash (render e) = false /\ render e <> [].

Lemma body_nonempty e p : plain e -> body e p <> [].
Proof. intros [_ H]. unfold body. destruct (render e); [congruence|discriminate]. Qed.

Lemma trim_right_body p : forall e, Forall plain (e :: p) -> trim_right_slash (body e p) = body e p.
Proof.
  induction p as [|e2 p IH]; intros e H; inversion H as [|? ? [Hs Hne] H']; subst.
  - rewrite body_nil. apply trim_right_noslash. exact Hs.
  - rewrite body_cons.
    assert (Ht : trim_right_slash (c_slash :: body e2 p) = c_slash :: body e2 p).
    { cbn [trim_right_slash]. rewrite (IH _ H').
      inversion H' as [|? ? Hp2 _]; subst.
      pose proof (body_nonempty e2 p Hp2). destruct (body e2 p); [congruence|reflexivity]. }
    rewrite trim_right_app; rewrite Ht; [reflexivity|discriminate].
Qed.

Lemma split_on_body p : forall e, Forall plain (e :: p) -> split_on c_slash (body e p) = map render (e :: p).
Proof.
  induction p as [|e2 p IH]; intros e H; inversion H as [|? ? [Hs Hne] H']; subst.
  - rewrite body_nil. apply split_on_single. exact Hs.
  - rewrite body_cons.
    rewrite (split_on_token _ _ _ Hs), (IH _ H'). reflexivity.
Qed.

Lemma trim_left_body e p : plain e -> trim_left_slash (c_slash :: body e p) = body e p.
Proof.
  intros [Hs Hne]. cbn [trim_left_slash]. rewrite N.eqb_refl. unfold body.
  destruct (render e) as [|x r]; [congruence|].
  apply has_cons_inv in Hs as [Hx _].
  cbn [app trim_left_slash]. rewrite Hx. reflexivity.
Qed.

Lemma create_update_roundtrip p :
  p <> [] -> wf_gpath p = true -> Forall (fun e => slash_free e = true /\ e_name e <> []) p ->
  create_update_path (str_path_elem p) = ROk p.
Proof.
  intros Hne Hwf Hsf. destruct p as [|e p]; [congruence|].
  assert (Hplain : Forall plain (e :: p)).
  { eapply Forall_impl; [|exact Hsf]. intros a [Ha Hn]. split; [apply slash_free_render; exact Ha|apply name_render_nonempty; exact Hn]. }
  unfold create_update_path, trim_slashes. rewrite str_path_elem_cons.
  inversion Hplain as [|? ? He _]; subst.
  rewrite (trim_left_body _ _ He), (trim_right_body _ _ Hplain), (split_on_body _ _ Hplain).
  apply parse_gnmi_elements_render. apply wf_gpath_parts. exact Hwf.
Qed.

(* ------------------------------------------------------ the accepted alphabet -- *)
Lemma ident_parts s :
  ident s = true ->
  s <> [] /\ has c_slash s = false /\ has c_lbr s = false /\ has c_rbr s = false /\ has c_eq s = false /\ has c_bslash s = false.
Proof.
  unfold ident. rewrite andb_true_iff, negb_true_iff, is_empty_false. intros [H1 H2].
  repeat split; try exact H1; eapply forallb_has; try exact H2; reflexivity.
Qed.

Lemma index_allowed_parts s : index_allowed s = true -> s <> [] /\ has c_slash s = false.
Proof.
  unfold index_allowed. rewrite andb_true_iff, negb_true_iff, is_empty_false. intros [H1 H2].
  split; [exact H1|]. eapply forallb_has; [exact H2|reflexivity].
Qed.

Lemma scan_open_inside closes s : (closes = false \/ has c_rbr s = false) -> scan_open closes true s = Some true.
Proof.
  induction s as [|x s IH]; intros H; [reflexivity|].
  assert (H' : closes = false \/ has c_rbr s = false).
  { destruct H as [H|H]; [left; exact H|right]. apply has_cons_inv in H. tauto. }
  cbn [scan_open]. destruct (x =? c_lbr); [apply IH; exact H'|].
  destruct (x =? c_rbr) eqn:E.
  - destruct H as [->|H]; [apply IH; exact H'|]. rewrite has_cons, E in H. discriminate.
  - destruct (x =? c_slash); apply IH; exact H'.
Qed.

Lemma accepted_elem_parts e :
  accepted_elem e = true -> elem_ok true e = true /\ slash_free e = true /\ e_name e <> [].
Proof.
  unfold accepted_elem. rewrite !andb_true_iff. intros [[Hn Hk] Hs].
  apply ident_parts in Hn as (Hne & Hsl & Hlb & _).
  rewrite forallb_forall in Hk.
  split; [|split; [|exact Hne]].
  - unfold elem_ok. rewrite Hlb, Hs. cbn [negb andb].
    apply andb_true_iff. split; [|destruct (e_name e); [congruence|reflexivity]].
    rewrite andb_true_r. apply forallb_forall. intros [k v] Hin. specialize (Hk _ Hin). cbn [fst snd] in Hk.
    apply andb_true_iff in Hk as [Hik Hiv].
    apply ident_parts in Hik as (Hk1 & _ & _ & Hk4 & Hk5 & Hk6).
    apply index_allowed_parts in Hiv as (Hv1 & _).
    unfold key_ok, key_unsplit; cbn [fst snd]. rewrite Hk5, Hk6.
    rewrite (scan_open_inside true k (or_intror Hk4)), (scan_open_inside false v (or_introl eq_refl)).
    destruct k; [congruence|]. destruct v; [congruence|]. reflexivity.
  - unfold slash_free. rewrite Hsl. cbn [negb andb]. apply forallb_forall. intros [k v] Hin.
    specialize (Hk _ Hin). cbn [fst snd] in *. apply andb_true_iff in Hk as [Hik Hiv].
    apply ident_parts in Hik as (_ & Hk2 & _). apply index_allowed_parts in Hiv as (_ & Hv2).
    rewrite Hk2, Hv2. reflexivity.
Qed.

Lemma wf_of_elems p : p <> [] -> Forall (fun e => elem_ok true e = true) p -> wf_gpath p = true.
Proof.
  intros Hne H. induction H as [|e p He Hp IH]; [congruence|].
  destruct p as [|e2 p]; [exact He|].
  rewrite wf_gpath_cons, (elem_ok_weaken _ He). apply IH. discriminate.
Qed.

Lemma accepted_parts p :
  accepted_gpath p = true ->
  p <> [] /\ wf_gpath p = true /\ Forall (fun e => slash_free e = true /\ e_name e <> []) p.
Proof.
  intros H. destruct p as [|e p]; [discriminate|].
  unfold accepted_gpath in H. rewrite forallb_forall in H.
  assert (HA : Forall (fun a => elem_ok true a = true /\ slash_free a = true /\ e_name a <> []) (e :: p)).
  { apply Forall_forall. intros a Ha. apply accepted_elem_parts. apply H. exact Ha. }
  split; [discriminate|]. split.
  - apply wf_of_elems; [discriminate|]. eapply Forall_impl; [|exact HA]. intros a Ha. apply Ha.
  - eapply Forall_impl; [|exact HA]. intros a Ha. split; apply Ha.
Qed.

(* the text the Set handler stores for prefix ++ path *)
Lemma set_path_text_app pre q : q <> [] -> set_path_text pre q = str_path_elem (pre ++ q).
Proof.
  intros Hq. destruct q as [|e q]; [congruence|].
  destruct pre as [|e0 pre]; [reflexivity|].
  unfold set_path_text. rewrite !str_path_nonempty, str_path_elem_app. reflexivity.
Qed.

Lemma accepted_end_to_end pre q :
  q <> [] -> accepted_gpath (pre ++ q) = true ->
  let stored := set_path_text pre q in
  wf_gpath (pre ++ q) = true /\
  parse_path stored = ROk (pre ++ q) /\
  create_update_path stored = ROk (pre ++ q).
Proof.
  intros Hq H. cbv zeta. rewrite (set_path_text_app _ _ Hq).
  destruct (accepted_parts _ H) as (Hne & Hwf & Hsf).
  repeat split; [exact Hwf|apply roundtrip_elem; exact Hwf|apply create_update_roundtrip; assumption].
Qed.
