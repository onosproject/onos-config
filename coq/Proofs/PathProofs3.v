(* Proofs about the path codec model (property C16), part 3: the parsers are total (the model's
   RPanic / RFuel outcomes never occur), every conjunct of wf_gpath is necessary (counterexamples),
   refutation witnesses for key values containing '/', and examples inside the hypotheses. *)
From Coq Require Import List NArith Bool Lia.
From OC Require Import Base.Bytes Model.Path Proofs.PathProofs Proofs.PathProofs2.
Import ListNotations.
Open Scope N_scope.

(* --------------------------------------------------- totality of the parsers -- *)
Lemma find_slow_shorter c : forall n s u r,
  (List.length s <= n)%nat -> find_slow c s = (u, Some r) -> (List.length r < List.length s)%nat.
Proof.
  induction n as [|n IH]; intros s u r Hn H.
  - destruct s; [cbn in H; discriminate|cbn in Hn; lia].
  - destruct s as [|ch s]; [cbn in H; discriminate|].
    cbn [find_slow] in H. destruct (ch =? c).
    + injection H as _ <-. cbn. lia.
    + destruct (ch =? c_bslash).
      * destruct s as [|ch2 s]; [discriminate|].
        destruct (find_slow c s) as [u' r'] eqn:E. injection H as _ ->.
        apply IH in E; cbn in *; lia.
      * destruct (find_slow c s) as [u' r'] eqn:E. injection H as _ ->.
        apply IH in E; cbn in *; lia.
Qed.

Lemma find_unescaped_shorter c s u r :
  find_unescaped c s = (u, Some r) -> (List.length r < List.length s)%nat.
Proof. rewrite find_unescaped_slow. apply (find_slow_shorter c (List.length s)). lia. Qed.

(* parseKey panics on the empty text only, and what it hands on is shorter than what it was given *)
Lemma parse_key_cases s :
  match parse_key s with
  | ROk (_, _, next) => (List.length next < List.length s)%nat
  | RErr _ => True
  | RPanic | RFuel => s = []
  end.
Proof.
  unfold parse_key. destruct s as [|c0 s1]; [reflexivity|].
  destruct (negb (c0 =? c_lbr)); [exact I|].
  destruct (find_unescaped c_eq s1) as [k' [rhs|]] eqn:E1; [|exact I].
  destruct (is_empty k'); [exact I|].
  destruct (find_unescaped c_rbr rhs) as [v' [nx|]] eqn:E2; [|exact I].
  destruct (is_empty v'); [exact I|].
  apply find_unescaped_shorter in E1, E2. cbn. lia.
Qed.

Lemma parse_keys_total : forall fuel s acc,
  (List.length s <= fuel)%nat -> parse_keys fuel s acc <> RPanic /\ parse_keys fuel s acc <> RFuel.
Proof.
  induction fuel as [|f IH]; intros s acc Hf.
  - destruct s; [cbn; split; discriminate|cbn in Hf; lia].
  - destruct s as [|c s]; [cbn; split; discriminate|].
    cbn [parse_keys]. pose proof (parse_key_cases (c :: s)) as Hp.
    destruct (parse_key (c :: s)) as [[[k v] next]|e| |]; [|split; discriminate|discriminate Hp|discriminate Hp].
    apply IH. cbn in *. lia.
Qed.

Lemma parse_element_total pe : parse_element pe <> RPanic /\ parse_element pe <> RFuel.
Proof.
  unfold parse_element. destruct (find_unescaped c_lbr pe) as [name [rest|]]; [|split; discriminate].
  destruct (is_empty name); [split; discriminate|].
  destruct (parse_keys_total (List.length (c_lbr :: rest)) (c_lbr :: rest) [] (le_n _)) as [H1 H2].
  destruct (parse_keys (List.length (c_lbr :: rest)) (c_lbr :: rest) []); try congruence; split; discriminate.
Qed.

Lemma parse_gnmi_elements_total l : parse_gnmi_elements l <> RPanic /\ parse_gnmi_elements l <> RFuel.
Proof.
  induction l as [|e l [IH1 IH2]]; [cbn; split; discriminate|].
  cbn [parse_gnmi_elements]. destruct (parse_element_total e) as [H1 H2].
  destruct (parse_element e); try congruence; [|split; discriminate].
  destruct (parse_gnmi_elements l); try congruence; split; discriminate.
Qed.

Lemma parsers_total s :
  (parse_path s <> RPanic /\ parse_path s <> RFuel) /\
  (create_update_path s <> RPanic /\ create_update_path s <> RFuel).
Proof. split; apply parse_gnmi_elements_total. Qed.

(* SplitPath's loop: the fuel handed to it (length + 1) is never what ends it *)
Lemma next_token_lengths : forall path inb esc,
  (List.length (fst (next_token inb esc path)) + List.length (snd (next_token inb esc path)) = List.length path)%nat.
Proof.
  induction path as [|c path IH]; intros inb esc; [reflexivity|].
  cbn [next_token]. destruct (tok_step inb esc c) as [[i e]|]; [|reflexivity].
  specialize (IH i e). destruct (next_token i e path). cbn in *. lia.
Qed.

Lemma strip_slash_length s : (List.length (strip_slash s) <= List.length s)%nat.
Proof. destruct s as [|c s]; [cbn; lia|]. cbn. destruct (c =? c_slash); cbn; lia. Qed.

Lemma split_step_shorter path :
  path <> [] ->
  (List.length (strip_slash (snd (next_token false false path))) < List.length path)%nat.
Proof.
  intros H. destruct path as [|c path]; [congruence|].
  cbn [next_token]. destruct (tok_step false false c) as [[i e]|] eqn:E.
  - pose proof (next_token_lengths path i e) as L. pose proof (strip_slash_length (snd (next_token i e path))) as S1.
    destruct (next_token i e path). cbn in *. lia.
  - cbn [snd strip_slash]. unfold tok_step in E.
    destruct (c =? c_lbr); [discriminate|]. destruct (c =? c_rbr); [discriminate|].
    destruct (c =? c_bslash); [discriminate|]. destruct (c =? c_slash); [cbn; lia|discriminate].
Qed.

Lemma split_loop_fuel : forall n path f1 f2,
  (List.length path <= n)%nat -> (List.length path < f1)%nat -> (List.length path < f2)%nat ->
  split_loop f1 path = split_loop f2 path.
Proof.
  induction n as [|n IH]; intros path f1 f2 Hn H1 H2.
  - destruct path; [rewrite !split_loop_nil; reflexivity|cbn in Hn; lia].
  - destruct path as [|c path]; [rewrite !split_loop_nil; reflexivity|].
    destruct f1 as [|f1]; [lia|]. destruct f2 as [|f2]; [lia|].
    rewrite !split_loop_cons by discriminate. f_equal.
    pose proof (split_step_shorter (c :: path)) as Hs. specialize (Hs ltac:(discriminate)).
    apply IH; cbn [List.length] in *; lia.
Qed.

(* -------------------------------- every conjunct of wf_gpath is necessary -- *)
Definition rt_fails (p : gpath) : Prop := parse_path (str_path p) <> ROk p.

Definition el (name : str) (ks : kmap) : elem := mkElem name ks.

(* an element name containing '[' *)
Example need_no_lbr_in_name : rt_fails [el (B "a[b") []].
Proof. unfold rt_fails. vm_compute. congruence. Qed.
(* an empty last element name: the trailing '/' is dropped by SplitPath *)
Example need_last_name : rt_fails [el (B "a") []; el [] []].
Proof. unfold rt_fails. vm_compute. congruence. Qed.
(* an empty name with keys: parseElement refuses it *)
Example need_name_with_keys : rt_fails [el [] [(B "k", B "v")]; el (B "a") []].
Proof. unfold rt_fails. vm_compute. congruence. Qed.
(* ... while an empty name without keys in the middle is fine *)
Example empty_middle_name_ok : parse_path (str_path [el (B "a") []; el [] []; el (B "b") []]) = ROk [el (B "a") []; el [] []; el (B "b") []].
Proof. vm_compute. reflexivity. Qed.
(* key lists that are not the canonical form of a map: unsorted, duplicate *)
Example need_sorted_keys : rt_fails [el (B "a") [(B "k2", B "1"); (B "k1", B "2")]].
Proof. unfold rt_fails. vm_compute. congruence. Qed.
Example need_unique_keys : rt_fails [el (B "a") [(B "k", B "1"); (B "k", B "2")]].
Proof. unfold rt_fails. vm_compute. congruence. Qed.
(* key names: empty, containing '=', containing '\' *)
Example need_key_name : rt_fails [el (B "a") [([], B "v")]].
Proof. unfold rt_fails. vm_compute. congruence. Qed.
Example need_no_eq_in_key_name : rt_fails [el (B "a") [(B "k=", B "v")]].
Proof. unfold rt_fails. vm_compute. congruence. Qed.
Example need_no_bslash_in_key_name : rt_fails [el (B "a") [(B "k\", B "v")]].
Proof. unfold rt_fails. vm_compute. congruence. Qed.
(* empty key value *)
Example need_key_value : rt_fails [el (B "a") [(B "k", [])]].
Proof. unfold rt_fails. vm_compute. congruence. Qed.
(* a ']' in a key name followed by a '/' before the next '[' *)
Example need_key_unsplit : rt_fails [el (B "a") [(B "k]", B "x/y")]].
Proof. unfold rt_fails. vm_compute. congruence. Qed.
(* ... while a ']' in a key name is harmless without such a '/' *)
Example key_rbr_boundary :
  wf_gpath [el (B "a") [(B "k]", B "xy")]] = true /\ wf_gpath [el (B "a") [(B "]", B "[/")]] = true /\
  wf_gpath [el (B "a") [(B "k]", B "x/y")]] = false.
Proof. vm_compute. auto. Qed.

(* ---------------------------------------------- inside the hypotheses -- *)
Definition sample_path : gpath :=
  [el (B "oc-if:interfaces") [];
   el (B "inter/face\x") [(B "name", B "eth0/1]\[=")];
   el (B "sub]=") [(B "a[", B "1"); (B "b/c", B "*")];
   el [] [];
   el (B "leaf") []].

Example sample_path_wf : wf_gpath sample_path = true.
Proof. vm_compute. reflexivity. Qed.
Example sample_path_roundtrip : parse_path (str_path sample_path) = ROk sample_path.
Proof. apply roundtrip. exact sample_path_wf. Qed.

Definition sample_accepted : gpath :=
  [el (B "mod:top") []; el (B "entry") [(B "id", B "10.0.0.1"); (B "zone", B "x-y_z*")]; el (B "descr") []].
Example sample_accepted_ok : accepted_gpath sample_accepted = true.
Proof. vm_compute. reflexivity. Qed.

(* ------------------------------------------------------------ refutations -- *)
(* key values containing '/' do round-trip (they are inside wf_gpath) but GetParentPath and
   createUpdate's strings.Split do not respect brackets.  The witnesses lie OUTSIDE what the Set handler accepts: the
   key value x/y fails IndexAllowedChars, which CheckKeyValue (updates, /repo 7b08917) and doDelete (deletes, /repo
   a2a122e) enforce *)
Definition slash_key_path : gpath := [el (B "a") []; el (B "b") [(B "k", B "x/y")]].

Lemma parent_outside_accepted :
  exists p e, wf_gpath (p ++ [e]) = true /\ accepted_gpath (p ++ [e]) = false /\
              get_parent (str_path_elem (p ++ [e])) <> str_path_elem p.
Proof.
  exists [el (B "a") []], (el (B "b") [(B "k", B "x/y")]).
  split; [vm_compute; reflexivity|]. split; [vm_compute; reflexivity|]. vm_compute. congruence.
Qed.

Lemma get_proto_outside_accepted :
  exists p, wf_gpath p = true /\ accepted_gpath p = false /\
            parse_path (str_path p) = ROk p /\ create_update_path (str_path p) <> ROk p.
Proof.
  exists slash_key_path. split; [vm_compute; reflexivity|]. split; [vm_compute; reflexivity|].
  split; [vm_compute; reflexivity|]. vm_compute. congruence.
Qed.

Lemma parent_refuted :
  exists p e, wf_gpath (p ++ [e]) = true /\ get_parent (str_path_elem (p ++ [e])) <> str_path_elem p.
Proof. destruct parent_outside_accepted as (p & e & H1 & _ & H2). exists p, e. auto. Qed.

Lemma get_proto_refuted :
  exists p, wf_gpath p = true /\ parse_path (str_path p) = ROk p /\ create_update_path (str_path p) <> ROk p.
Proof. destruct get_proto_outside_accepted as (p & H1 & _ & H2). exists p. auto. Qed.

(* such values never pass CheckPathIndexIsValid *)
Lemma slash_not_index_allowed v : has c_slash v = true -> index_allowed v = false.
Proof.
  intros H. unfold index_allowed. destruct (forallb index_char v) eqn:E; [|apply andb_false_r].
  rewrite (forallb_has index_char c_slash v E eq_refl) in H. discriminate.
Qed.

(* all the necessity counterexamples at once: dropping any conjunct of wf_gpath admits a path that
   does not come back *)
Lemma wf_necessary :
  rt_fails [el (B "a[b") []] /\
  rt_fails [el (B "a") []; el [] []] /\
  rt_fails [el [] [(B "k", B "v")]; el (B "a") []] /\
  rt_fails [el (B "a") [(B "k2", B "1"); (B "k1", B "2")]] /\
  rt_fails [el (B "a") [(B "k", B "1"); (B "k", B "2")]] /\
  rt_fails [el (B "a") [([], B "v")]] /\
  rt_fails [el (B "a") [(B "k=", B "v")]] /\
  rt_fails [el (B "a") [(B "k\", B "v")]] /\
  rt_fails [el (B "a") [(B "k", [])]] /\
  rt_fails [el (B "a") [(B "k]", B "x/y")]].
Proof.
  repeat split;
    [exact need_no_lbr_in_name|exact need_last_name|exact need_name_with_keys|exact need_sorted_keys|exact need_unique_keys
    |exact need_key_name|exact need_no_eq_in_key_name|exact need_no_bslash_in_key_name|exact need_key_value|exact need_key_unsplit].
Qed.

(* over the accepted alphabet the parent of a stored path is that path without its last element *)
Lemma accepted_parent p e :
  accepted_gpath (p ++ [e]) = true -> get_parent (str_path_elem (p ++ [e])) = str_path_elem p.
Proof.
  intros H. apply parent_of_path. destruct (accepted_parts _ H) as (_ & _ & F).
  apply Forall_app in F as [_ F]. inversion F as [|? ? [Hs _] _]. exact Hs.
Qed.

Lemma split_path_fuel path fuel :
  (List.length (strip_slash path) < fuel)%nat -> split_loop fuel (strip_slash path) = split_path path.
Proof.
  intros H. unfold split_path. apply (split_loop_fuel (List.length (strip_slash path))); lia.
Qed.
