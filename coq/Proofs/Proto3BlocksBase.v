(* Proto3BlocksBase: the second layer of the frontier invariant of the v3 protocol, for the sentence "a change whose apply
   FAILED or was ABORTED keeps later changes from being applied until it is rolled back".  FInv is proved on top of SInv
   (Proto3OrderBase): it adds what the abort gate of applyChange (Applied.Revision < Rollback.Index) relies on - the
   rollback index of a committing change is at least every committed index below it, the applied revision stays below a
   change whose apply failed (until a rollback apply completes), Applied.Target / Applied.Revision / Committed.Revision
   name committed changes - and the blocking rule itself (fb). *)
From Coq Require Import List NArith Bool Arith Lia.
From OC Require Import Model.Proto3 Spec.Tla3 Proofs.Proto3Proofs Proofs.Proto3OrderBase.
Import ListNotations.
Open Scope N_scope.

Record FInv (g : N -> option txn) (cm ap : cursor) : Prop := {
  b2  : forall j t, g j = Some t -> ra t = 2 \/ ra t = 5 -> rc t = 2;
  s5c : forall j t, g j = Some t -> rc t = 2 -> k_revision cm = k_target cm;
  s8u : forall a u, g a = Some u -> a = k_revision cm -> cc u = 2 \/ (cc u = 1 /\ k_change cm = a);
  s9u : forall j t a u, g j = Some t -> g a = Some u -> cc t <> 0 -> a = t_ridx t -> cc u = 2;
  f8  : k_revision ap <= k_change cm;
  f9b : k_target ap <= k_change cm;
  f6u : forall a t, g a = Some t -> a = k_revision ap -> cc t = 2;
  f9u : forall a t, g a = Some t -> a = k_target ap -> cc t = 2;
  f4  : forall a t, g a = Some t -> cc t = 2 -> a <= k_revision cm \/ (a = k_index cm /\ k_target cm < k_index cm);
  f1  : forall a t u tu, g a = Some t -> g u = Some tu -> cc t = 2 -> cc tu <> 0 -> a < u -> a <= t_ridx tu;
  f5  : forall a t, g a = Some t -> cc t = 2 -> k_ordinal ap < t_cord t -> k_revision ap < a;
  f3  : forall a t, g a = Some t -> cc t = 2 -> ca t = 3 \/ ca t = 5 ->
          k_revision ap < a \/ (k_target cm < k_index cm /\ k_revision cm = k_target cm /\ k_ordinal ap = k_ordinal cm);
  a5  : forall u tu, g u = Some tu -> cc tu = 2 -> ca tu = 0 -> k_target ap = u /\ k_ordinal ap + 1 = t_cord tu ->
          t_ridx tu <= k_revision ap;
  fb  : forall a t u tu, g a = Some t -> g u = Some tu -> ca t = 3 \/ ca t = 5 -> ra t <> 2 -> ra t <> 5 -> a < u ->
          ca tu <> 1 /\ ca tu <> 2
}.

Lemma FInv_ext g g' cm ap : (forall j, g j = g' j) -> FInv g cm ap -> FInv g' cm ap.
Proof.
  intros E [].
  constructor; intros; repeat match goal with H : g' _ = Some _ |- _ => rewrite <- E in H end; eauto.
Qed.

Ltac frame_eautoF :=
  solve [eauto using b2, s5c, s8u, s9u, f8, f9b, f6u, f9u, f4, f1, f5, f3, a5, fb].

Ltac unchangedF prep := unchanged_by ltac:(frame_eautoF) prep.
Ltac fromF prep Hs ps g := from_by ltac:(frame_eautoF) prep Hs ps g idtac.


(* a consequence used as a hint: no apply is in progress or complete above a failed / aborted one *)
Lemma failed_blocks g n cm ap a t0 i t :
  SInv g n cm ap -> FInv g cm ap -> g a = Some t0 -> g i = Some t ->
  ca t0 = 3 \/ ca t0 = 5 -> ca t = 1 \/ ca t = 2 -> a < i -> False.
Proof.
  intros HS HF Ha Hi F P L.
  assert (D : (ra t0 = 2 \/ ra t0 = 5) \/ (ra t0 <> 2 /\ ra t0 <> 5)) by lia.
  destruct D as [D | [D1 D2]].
  - pose proof (b2 _ _ _ HF a t0 Ha D) as B.
    pose proof (s5 _ _ _ _ HS a t0 Ha (or_intror B)) as S5.
    pose proof (s1 _ _ _ _ HS) as S1.
    assert (C : cc t = 2) by (apply (a0 _ _ _ _ HS i t Hi); lia).
    pose proof (s3a _ _ _ _ HS i t Hi) as X1. pose proof (s3b _ _ _ _ HS i t Hi) as X2.
    destruct (N.eq_dec i (k_change cm + 1)) as [E|E]; lia.
  - pose proof (fb _ _ _ HF a t0 i t Ha Hi F D1 D2 L). lia.
Qed.
