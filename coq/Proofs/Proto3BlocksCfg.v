(* Proto3BlocksCfg: the Committed-cursor writes of commitChange that do not complete a commit preserve FInv (second layer of the frontier invariant, Proto3BlocksBase). *)
From Coq Require Import List NArith Bool Arith Lia.
From OC Require Import Model.Proto3 Spec.Tla3 Proofs.Proto3Proofs Proofs.Proto3OrderBase Proofs.Proto3BlocksBase.
Import ListNotations.
Open Scope N_scope.

Lemma F_cfg_C1 g n cm ap i t :
  SInv g n cm ap -> FInv g cm ap -> g i = Some t ->
  cc t = 0 ->
  k_change cm + 1 = i ->
  k_target cm <> i ->
  k_index cm = k_target cm ->
  (forall j p, g j = Some p -> j = k_index cm /\ k_target cm = k_index cm -> 2 <= cc p) ->
  FInv g 
    {| k_index := k_index cm; k_ordinal := k_ordinal cm; k_revision := k_revision cm; k_target := i; k_change := k_change cm |} ap.
Proof.
  intros HS HF Hi G1 G2 G3 G4 G5.
  constructor; try unchangedF prj.
  - conj s5c; fromF prj (HS, HF) (s4, s5) g.
  - conj f4; fromF prj (HS, HF) f4 g.
  - conj f3; fromF prj (HS, HF) f3 g.
Qed.

Lemma F_cfg_C5 g n cm ap i t :
  SInv g n cm ap -> FInv g cm ap -> g i = Some t ->
  cc t = 5 ->
  k_change cm < i ->
  FInv g 
    {| k_index := i; k_ordinal := k_ordinal cm; k_revision := k_revision cm; k_target := k_target cm; k_change := i |} ap.
Proof.
  intros HS HF Hi G1 G2.
  constructor; try unchangedF prj.
  - conj s8u; fromF prj (HS, HF) (s3a, s3b, s3c, s8u) g.
  - conj f8; fromF prj (HS, HF) (f8, same_tx g) g.
  - conj f9b; fromF prj (HS, HF) f9b g.
  - conj f4; fromF prj (HS, HF) (s3a, s3b, f4) g.
  - conj f3; fromF prj (HS, HF) (s2, f3) g.
Qed.

