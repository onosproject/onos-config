(* Proto3BlocksCfgA: the Applied-cursor writes of applyChange and the Committed.Target write of commitRollback preserve FInv (second layer of the frontier invariant, Proto3BlocksBase). *)
From Coq Require Import List NArith Bool Arith Lia.
From OC Require Import Model.Proto3 Spec.Tla3 Proofs.Proto3Proofs Proofs.Proto3OrderBase Proofs.Proto3BlocksBase.
Import ListNotations.
Open Scope N_scope.

Lemma F_cfg_AC1 g n cm ap i t :
  SInv g n cm ap -> FInv g cm ap -> g i = Some t ->
  cc t = 2 ->
  ca t = 0 ->
  k_ordinal ap + 1 = t_cord t ->
  k_target ap <> i ->
  (forall j p, g j = Some p -> j = k_index ap /\ k_target ap = k_index ap -> 2 <= ca p) ->
  t_ridx t <= k_revision ap ->
  FInv g cm 
    {| k_index := k_index ap; k_ordinal := k_ordinal ap; k_revision := k_revision ap; k_target := i; k_change := k_change ap |}.
Proof.
  intros HS HF Hi G1 G2 G3 G4 G5 G6.
  constructor; try unchangedF prj.
  - conj f9b; fromF prj (HS, HF) (s3a, s3b) g.
  - conj f9u; fromF prj (HS, HF) (f9u, same_tx g, G5) g.
  - conj a5; fromF prj (HS, HF) (a5, same_tx g, G5) g.
Qed.

Lemma F_cfg_AC4 g n cm ap i t :
  SInv g n cm ap -> FInv g cm ap -> g i = Some t ->
  cc t = 2 ->
  ca t = 1 ->
  ~ (k_ordinal ap = t_cord t /\ k_revision ap = i) ->
  FInv g cm 
    {| k_index := i; k_ordinal := t_cord t; k_revision := i; k_target := k_target ap; k_change := k_change ap |}.
Proof.
  intros HS HF Hi G1 G2 G3.
  constructor; try unchangedF prj.
  - conj f8; fromF prj (HS, HF) (s3a, s3b) g.
  - conj f6u; fromF prj (HS, HF) (f6u, same_tx g, s2, s3a) g.
  - conj f5; fromF prj (HS, HF) (o1b, same_tx g) g.
  - conj f3; fromF prj (HS, HF) (f3, same_tx g, (fun j t0 Hg X Y => failed_blocks g n cm ap j t0 i t HS HF Hg Hi X (or_introl G2) Y)) g.
  - conj a5; fromF prj (HS, HF) (s4, a1) g.
Qed.

Lemma F_cfg_bump g n cm ap i t ap' :
  SInv g n cm ap -> FInv g cm ap -> g i = Some t ->
  cc t = 2 -> ca t = 3 \/ ca t = 5 -> k_ordinal ap < t_cord t ->
  k_index ap' = i -> k_ordinal ap' = t_cord t -> k_revision ap' = k_revision ap -> k_target ap' = i ->
  FInv g cm ap'.
Proof.
  intros HS HF Hi G1 G2 G3 E1 E2 E3 E4.
  constructor; try unchangedF ltac:(rewrite ?E1, ?E2, ?E3, ?E4 in *).
  - conj f9b; fromF ltac:(rewrite ?E1, ?E2, ?E3, ?E4 in *) (HS, HF) (s3a, s3b) g.
  - conj f9u; fromF ltac:(rewrite ?E1, ?E2, ?E3, ?E4 in *) (HS, HF) (f9u, same_tx g) g.
  - conj f5; fromF ltac:(rewrite ?E1, ?E2, ?E3, ?E4 in *) (HS, HF) f5 g.
  - conj f3; fromF ltac:(rewrite ?E1, ?E2, ?E3, ?E4 in *) (HS, HF) (o1a, f3) g.
  - conj a5; fromF ltac:(rewrite ?E1, ?E2, ?E3, ?E4 in *) (HS, HF) (a5, same_tx g) g.
Qed.

Lemma F_cfg_R1 g n cm ap i t :
  SInv g n cm ap -> FInv g cm ap -> g i = Some t ->
  rc t = 0 ->
  cc t = 2 ->
  k_revision cm = i ->
  k_target cm = i ->
  k_index cm = k_target cm ->
  FInv g 
    {| k_index := k_index cm; k_ordinal := k_ordinal cm; k_revision := k_revision cm; k_target := t_ridx t; k_change := k_change cm |} ap.
Proof.
  intros HS HF Hi G1 G2 G3 G4 G5.
  constructor; try unchangedF prj.
  - conj s5c; fromF prj (HS, HF) (s3c, s4, s5, s7a) g.
  - conj f4; fromF prj (HS, HF) f4 g.
  - conj f3; fromF prj (HS, HF) f3 g.
Qed.
