(* Proto3BlocksCfgC: the Committed-cursor write that completes a change commit preserves FInv (second layer of the frontier invariant, Proto3BlocksBase). *)
From Coq Require Import List NArith Bool Arith Lia.
From OC Require Import Model.Proto3 Spec.Tla3 Proofs.Proto3Proofs Proofs.Proto3OrderBase Proofs.Proto3BlocksBase.
Import ListNotations.
Open Scope N_scope.

Lemma F_cfg_C4 g n cm ap i t :
  SInv g n cm ap -> FInv g cm ap -> g i = Some t ->
  cc t = 1 ->
  k_change cm <> i ->
  FInv g 
    {| k_index := i; k_ordinal := k_ordinal cm + 1; k_revision := i; k_target := k_target cm; k_change := i |} ap.
Proof.
  intros HS HF Hi G1 G2.
  constructor; try unchangedF prj.
  - conj s5c; fromF prj (HS, HF) (s3a, s3b, s3c) g.
  - conj s8u; fromF prj (HS, HF) (s8u, same_tx g) g.
  - conj f8; fromF prj (HS, HF) (f8, s2, s3c) g.
  - conj f9b; fromF prj (HS, HF) (s3c, f9b) g.
  - conj f4; fromF prj (HS, HF) (s3a, s3c) g.
  - conj f3; fromF prj (HS, HF) (s2, s3a, s3b, s3c, f3) g.
Qed.
