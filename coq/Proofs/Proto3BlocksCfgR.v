(* Proto3BlocksCfgR: the Committed-cursor write that completes a rollback commit and the Applied-cursor writes of applyRollback preserve FInv (second layer of the frontier invariant, Proto3BlocksBase). *)
From Coq Require Import List NArith Bool Arith Lia.
From OC Require Import Model.Proto3 Spec.Tla3 Proofs.Proto3Proofs Proofs.Proto3OrderBase Proofs.Proto3BlocksBase.
Import ListNotations.
Open Scope N_scope.

Lemma F_cfg_R2 g n cm ap i t :
  SInv g n cm ap -> FInv g cm ap -> g i = Some t ->
  rc t = 1 ->
  k_revision cm = i ->
  FInv g 
    {| k_index := i; k_ordinal := k_ordinal cm + 1; k_revision := t_ridx t; k_target := k_target cm; k_change := k_change cm |} ap.
Proof.
  intros HS HF Hi G1 G2.
  constructor; try unchangedF prj.
  - conj s5c; fromF prj (HS, HF) s5 g.
  - conj s8u; fromF prj (HS, HF) (s4, s5, s7a, s9u) g.
  - conj f4; fromF prj (HS, HF) (s5, f4, f1) g.
  - conj f3; fromF prj (HS, HF) (f3, s5) g.
Qed.

Lemma F_cfg_AR1 g n cm ap i t :
  SInv g n cm ap -> FInv g cm ap -> g i = Some t ->
  rc t = 2 ->
  ra t = 0 ->
  k_ordinal ap + 1 = t_rord t ->
  ca t <> 0 ->
  ca t <> 1 ->
  (ca t = 3 \/ ca t = 5 -> t_cord t <= k_ordinal ap) ->
  FInv g cm 
    {| k_index := k_index ap; k_ordinal := k_ordinal ap; k_revision := k_revision ap; k_target := t_ridx t; k_change := k_change ap |}.
Proof.
  intros HS HF Hi G1 G2 G3 G4 G5 G6.
  constructor; try unchangedF prj.
  - conj f9b; fromF prj (HS, HF) (s3a, s4, s5) g.
  - conj f9u; fromF prj (HS, HF) (s5, s9u) g.
  - conj a5; fromF prj (HS, HF) (o3b, o4, a0, a0b, a1) g.
Qed.

Lemma F_cfg_AR3 g n cm ap i t :
  SInv g n cm ap -> FInv g cm ap -> g i = Some t ->
  rc t = 2 ->
  ra t = 1 ->
  FInv g cm 
    {| k_index := i; k_ordinal := t_rord t; k_revision := k_revision ap; k_target := k_target ap; k_change := k_change ap |}.
Proof.
  intros HS HF Hi G1 G2.
  constructor; try unchangedF prj.
  - conj f5; fromF prj (HS, HF) (o1a, o1b, o2a, o2b, o3a) g.
  - conj f3; fromF prj (HS, HF) (o3a, f3) g.
  - conj a5; fromF prj (HS, HF) (o1a, o1b, o2a, o2b, o3a) g.
Qed.

Lemma F_cfg_AR4 g n cm ap i t :
  SInv g n cm ap -> FInv g cm ap -> g i = Some t ->
  rc t = 2 ->
  ra t = 1 ->
  FInv g cm 
    {| k_index := i; k_ordinal := t_rord t; k_revision := t_ridx t; k_target := k_target ap; k_change := k_change ap |}.
Proof.
  intros HS HF Hi G1 G2.
  constructor; try unchangedF prj.
  - conj f8; fromF prj (HS, HF) (s1, s4, s5, s7a) g.
  - conj f6u; fromF prj (HS, HF) (s5, s9u) g.
  - conj f5; fromF prj (HS, HF) (o3a, o3b) g.
  - conj f3; fromF prj (HS, HF) (s4, s5, o3a, s5c) g.
  - conj a5; fromF prj (HS, HF) (s4, s5, s7a, s7c, f4, f1) g.
Qed.
