(* Proto3BlocksStep: every Reconcile call, stopped after any number of its store writes, keeps both layers of the
   frontier invariant (Inv of Proto3OrderBase and FInv of Proto3BlocksBase); hence the blocking rule for failed / aborted
   applies holds in every reachable world. *)
From Coq Require Import List NArith Bool Arith Lia.
From OC Require Import Model.Proto3 Spec.Tla3 Proofs.Proto3Proofs Proofs.Proto3OrderBase Proofs.Proto3OrderStepBase
  Proofs.Proto3OrderTx Proofs.Proto3OrderTxA Proofs.Proto3OrderCfg Proofs.Proto3OrderCfgC Proofs.Proto3OrderCfgA Proofs.Proto3OrderCfgA2
  Proofs.Proto3OrderCfgAC Proofs.Proto3OrderStep
  Proofs.Proto3BlocksBase Proofs.Proto3BlocksTx Proofs.Proto3BlocksTxA Proofs.Proto3BlocksTxA2 Proofs.Proto3BlocksCfg
  Proofs.Proto3BlocksCfgC Proofs.Proto3BlocksCfgR Proofs.Proto3BlocksCfgA.
Import ListNotations.
Open Scope N_scope.

Definition Inv2 (w : world) : Prop := Inv w /\ FInv (get_tx w) (cmc w) (apc w).

Record ST2 (w : world) (i : N) (t : txn) (c : config) : Prop :=
  { st2_inv : Inv2 w; st2_tx : get_tx w i = Some t; st2_cfg : w_cfg w = Some c }.

Lemma ST2_ST w i t c : ST2 w i t c -> ST w i t c.
Proof. intros [[H1 H1'] H2 H3]. constructor; assumption. Qed.

Lemma ST2_S w i t c : ST2 w i t c -> SInv (get_tx w) (nlen w) (c_cm c) (c_ap c).
Proof. intros S. exact (proj1 (ST_IA _ _ _ _ (ST2_ST _ _ _ _ S))). Qed.

Lemma ST2_F w i t c : ST2 w i t c -> FInv (get_tx w) (c_cm c) (c_ap c).
Proof. intros [[H1 H1'] H2 H3]. unfold cmc, apc in H1'. rewrite H3 in H1'. exact H1'. Qed.

Fixpoint okchain2 (o : oracle) (w : world) (effs : list eff) : Prop :=
  match effs with
  | [] => True
  | e :: r => Inv2 (apply_eff o w e) /\ okchain2 o (apply_eff o w e) r
  end.

Lemma run_effs_chain2 o effs : forall k w, Inv2 w -> okchain2 o w effs -> Inv2 (run_effs o k effs w).
Proof.
  induction effs as [|e r IH]; intros k w HI HC; cbn; [exact HI|].
  destruct HC as [H1 H2].
  destruct e as [i t evs | c cv av evs | el req code | ].
  - destruct k; [exact HI | apply IH; assumption].
  - destruct k; [exact HI | apply IH; assumption].
  - apply IH; assumption.
  - exact H1.
Qed.

Lemma chain_cfg2 o w i t c c' cv av evs r :
  ST2 w i t c ->
  IA (get_tx w) (nlen w) (c_cm c') (c_ap c') (w_hist w ++ evs) ->
  FInv (get_tx w) (c_cm c') (c_ap c') ->
  (ST2 (apply_eff o w (EPutCfg c' cv av evs)) i t (stored c' cv) -> okchain2 o (apply_eff o w (EPutCfg c' cv av evs)) r) ->
  okchain2 o w (EPutCfg c' cv av evs :: r).
Proof.
  intros [H1 H2 H3] HA HF K. cbn [okchain2].
  assert (HI : Inv2 (apply_eff o w (EPutCfg c' cv av evs))) by (split; [apply put_cfg_inv; exact HA | exact HF]).
  split; [exact HI|]. apply K. constructor; [exact HI | exact H2 | reflexivity].
Qed.

Lemma chain_tx2 o w i t c t' evs r :
  ST2 w i t c ->
  IA (updf (get_tx w) i t') (nlen w) (c_cm c) (c_ap c) (w_hist w ++ evs) ->
  FInv (updf (get_tx w) i t') (c_cm c) (c_ap c) ->
  (ST2 (apply_eff o w (EPutTx i t' evs)) i t' c -> okchain2 o (apply_eff o w (EPutTx i t' evs)) r) ->
  okchain2 o w (EPutTx i t' evs :: r).
Proof.
  intros [H1 H2 H3] HA HF K. cbn [okchain2].
  assert (HI : Inv2 (apply_eff o w (EPutTx i t' evs))).
  { split.
    - apply (put_tx_inv o w i t t' evs H2). unfold cmc, apc. rewrite H3. exact HA.
    - change (apply_eff o w (EPutTx i t' evs)) with (with_txs w (set_nth (N.to_nat (i - 1)) t' (w_txs w)) (w_hist w ++ evs)).
      eapply FInv_ext; [intros j; symmetry; apply get_tx_set with (t := t); exact H2|].
      unfold cmc, apc. cbn [w_cfg with_txs]. rewrite H3. exact HF. }
  split; [exact HI|]. apply K. constructor; [exact HI | apply (get_tx_put_tx_same o w i t t' evs H2) | exact H3].
Qed.

Lemma Inv2_dev o w el req code : Inv2 w -> Inv2 (apply_eff o w (EDev el req code)).
Proof. intros H. unfold apply_eff. destruct (code =? 0); exact H. Qed.

Lemma chain_dev2 o w i t c el req code r :
  ST2 w i t c ->
  (ST2 (apply_eff o w (EDev el req code)) i t c -> okchain2 o (apply_eff o w (EDev el req code)) r) ->
  okchain2 o w (EDev el req code :: r).
Proof.
  intros [H1 H2 H3] K. cbn [okchain2].
  assert (HI : Inv2 (apply_eff o w (EDev el req code))) by (apply Inv2_dev; exact H1).
  split; [exact HI|]. apply K. constructor; [exact HI | rewrite get_tx_dev; exact H2 | rewrite cfg_dev; exact H3].
Qed.

Lemma chain_panic2 o w : Inv2 w -> okchain2 o w [EPanic].
Proof. intros H. cbn [okchain2]. split; [exact H | exact I]. Qed.

(* the second-layer lemma of the kind of a write *)
Ltac use_F L S tx := eapply L with (t := tx); [apply (ST2_S _ _ _ _ S) | apply (ST2_F _ _ _ _ S) | apply (st2_tx _ _ _ _ S) | side .. ].
Ltac cfgF_kind S tx evs :=
  lazymatch evs with
  | [ev PhChange StCommit _ InProgress] => use_F F_cfg_C1 S tx
  | [ev PhChange StCommit _ Complete] => use_F F_cfg_C4 S tx
  | [ev PhRollback StCommit _ InProgress] => use_F F_cfg_R1 S tx
  | [ev PhRollback StCommit _ Complete] => use_F F_cfg_R2 S tx
  | [ev PhChange StApply _ InProgress] => use_F F_cfg_AC1 S tx
  | [ev PhChange StApply _ Complete] => use_F F_cfg_AC4 S tx
  | [ev PhRollback StApply _ InProgress] => use_F F_cfg_AR1 S tx
  | [ev PhRollback StApply _ Complete] => use_F F_cfg_AR4 S tx
  | [] => first [ use_F F_cfg_C5 S tx | use_F F_cfg_bump S tx | use_F F_cfg_AR3 S tx ]
  end.

Ltac txF_kind S tx t' :=
  lazymatch t' with
  | tx_set_rollback (set_cc _ InProgress) _ _ _ _ _ _ => use_F F_tx_C1' S tx
  | tx_set_change _ Complete _ _ _ _ => use_F F_tx_C2 S tx
  | tx_set_change _ Failed Canceled _ _ _ => use_F F_tx_C3 S tx
  | set_rc _ InProgress _ => use_F F_tx_R1' S tx
  | set_rc _ Complete _ => use_F F_tx_R3 S tx
  | set_ca _ InProgress _ => use_F F_tx_AC1' S tx
  | set_ca _ Aborted _ => use_F F_tx_abort S tx
  | set_ca _ Complete _ => use_F F_tx_AC2 S tx
  | set_ca _ Failed _ => use_F F_tx_AC3 S tx
  | set_ra _ InProgress _ => use_F F_tx_AR1' S tx
  | set_ra _ Complete _ => use_F F_tx_AR2 S tx
  | set_ra _ Failed _ => use_F F_tx_AR3 S tx
  end.

Ltac walk2 S t :=
  lazymatch goal with
  | |- okchain2 _ _ [] => exact I
  | |- okchain2 _ _ [EPanic] => apply chain_panic2; apply (st2_inv _ _ _ _ S)
  | |- okchain2 _ _ (EDev _ _ _ :: _) =>
      eapply chain_dev2; [exact S|]; let S' := fresh "S" in intros S'; facts (ST2_ST _ _ _ _ S') t; walk2 S' t
  | |- okchain2 _ _ (EPutCfg _ _ _ ?evs :: _) =>
      eapply chain_cfg2; [exact S | prjs; cfg_kind (ST2_ST _ _ _ _ S) t | prjs; cfgF_kind S t evs |];
      let S' := fresh "S" in intros S'; facts (ST2_ST _ _ _ _ S') t; walk2 S' t
  | |- okchain2 _ _ (EPutTx _ ?t' _ :: _) =>
      eapply chain_tx2; [exact S | prjs; tx_kind (ST2_ST _ _ _ _ S) t t' | prjs; txF_kind S t t' |];
      let S' := fresh "S" in intros S'; facts (ST2_ST _ _ _ _ S') t'; walk2 S' t'
  end.

Lemma commit_change_inv2 o w i t c r : ST2 w i t c ->
  commit_change o w i t c = Some r -> okchain2 o w (fst r).
Proof.
  intros S H.
  unfold commit_change in H. destruct (t_cc t) eqn:Ecc; try discriminate;
    revert H; break_match; intros H; inversion H; subst; clear H; cbn [fst]; unfold put_cfg; b2p; codes.
  all: try (pose proof (gate_commit_change_go _ _ ltac:(eassumption)) as Gt).
  all: facts (ST2_ST _ _ _ _ S) t; walk2 S t.
Qed.

Lemma commit_rollback_inv2 o w i t c r : ST2 w i t c ->
  commit_rollback o w i t c = Some r -> okchain2 o w (fst r).
Proof.
  intros S H.
  unfold commit_rollback in H. destruct (t_rc t) as [rcs|] eqn:Erc; [|discriminate].
  destruct rcs; try discriminate;
    revert H; break_match; intros H; inversion H; subst; clear H; cbn [fst]; unfold put_cfg; b2p; codes.
  all: try (match goal with G : gate_commit_rollback _ _ _ = GGo |- _ =>
              pose proof (gate_commit_rollback_go _ _ _ _ G (st2_tx _ _ _ _ S) ltac:(lia)) as Gt end).
  all: facts (ST2_ST _ _ _ _ S) t; walk2 S t.
Qed.

Lemma apply_change_inv2 o w i t c r : ST2 w i t c ->
  apply_change o w i t c = Some r -> okchain2 o w (fst r).
Proof.
  intros S H.
  unfold apply_change in H. destruct (st_eqb (t_cc t) Complete) eqn:Ecc; cbn [negb] in H; [|discriminate].
  destruct (t_ca t) eqn:Eca; try discriminate;
    revert H; break_match; intros H; inversion H; subst; clear H; cbn [fst]; unfold put_cfg; b2p; codes.
  all: try (match goal with G : gate_apply_change _ _ = GGo |- _ => pose proof (gate_apply_change_go _ _ G) as Gt end).
  all: facts (ST2_ST _ _ _ _ S) t; walk2 S t.
Qed.

Lemma apply_rollback_inv2 o w i t c r : ST2 w i t c ->
  apply_rollback o w i t c = Some r -> okchain2 o w (fst r).
Proof.
  intros S H.
  unfold apply_rollback in H. destruct (t_rc t) as [rcs|] eqn:Erc; [|discriminate].
  destruct rcs; try discriminate.
  destruct (t_ra t) as [ras|] eqn:Era; [|discriminate].
  destruct ras; try discriminate;
    revert H; break_match; intros H; inversion H; subst; clear H; cbn [fst]; unfold put_cfg; b2p; codes.
  all: try (match goal with G : gate_abort _ _ = GGo |- _ => pose proof (gate_abort_go _ _ G) as Gt end).
  all: facts (ST2_ST _ _ _ _ S) t; walk2 S t.
Qed.

Lemma rec_tx_inv2 o w i : Inv2 w -> okchain2 o w (fst (rec_tx o w i)).
Proof.
  intros HI. unfold rec_tx.
  destruct (get_tx w i) as [t|] eqn:Et; [|exact I].
  destruct (w_cfg w) as [c|] eqn:Ec; [|exact I].
  assert (S : ST2 w i t c) by (constructor; assumption).
  destruct (t_rb t); unfold orelse.
  - destruct (commit_rollback o w i t c) as [r|] eqn:E1; [eapply commit_rollback_inv2; eauto|].
    destruct (apply_rollback o w i t c) as [r|] eqn:E2; [eapply apply_rollback_inv2; eauto | exact I].
  - destruct (commit_change o w i t c) as [r|] eqn:E1; [eapply commit_change_inv2; eauto|].
    destruct (apply_change o w i t c) as [r|] eqn:E2; [eapply apply_change_inv2; eauto | exact I].
Qed.

Lemma neutral_chain2 o effs : forall w, Forall (neutral (cmc w) (apc w)) effs -> Inv2 w -> okchain2 o w effs.
Proof.
  induction effs as [|e r IH]; intros w F HI; [exact I|].
  inversion F as [|? ? He Fr]; subst. cbn [okchain2].
  destruct e as [i t evs | c' cv av evs | el req code | ]; cbn in He; try contradiction.
  - destruct evs; [|contradiction]. destruct He as [E1 E2].
    assert (HI' : Inv2 (apply_eff o w (EPutCfg c' cv av []))).
    { destruct HI as [H1 H2]. split.
      - apply put_cfg_inv. rewrite E1, E2, app_nil_r. exact H1.
      - change (FInv (get_tx w) (c_cm c') (c_ap c')). rewrite E1, E2. exact H2. }
    split; [exact HI'|]. apply IH; [|exact HI'].
    replace (cmc (apply_eff o w (EPutCfg c' cv av []))) with (cmc w) by (symmetry; exact E1).
    replace (apc (apply_eff o w (EPutCfg c' cv av []))) with (apc w) by (symmetry; exact E2).
    exact Fr.
  - assert (HI' : Inv2 (apply_eff o w (EDev el req code))) by (apply Inv2_dev; exact HI).
    split; [exact HI'|]. apply IH; [|exact HI'].
    unfold cmc, apc. rewrite cfg_dev. exact Fr.
Qed.

Lemma rec_cfg_inv2 o w : Inv2 w -> okchain2 o w (fst (rec_cfg o w)).
Proof.
  intros HI. destruct (w_cfg w) as [c|] eqn:Hc.
  - apply neutral_chain2; [|exact HI]. unfold cmc, apc. rewrite Hc. apply rec_cfg_neutral; exact Hc.
  - unfold rec_cfg. rewrite Hc. exact I.
Qed.

Lemma rec_master_inv2 o w : Inv2 w -> okchain2 o w (fst (rec_master o w)).
Proof.
  intros HI. destruct (w_cfg w) as [c|] eqn:Hc.
  - apply neutral_chain2; [|exact HI]. unfold cmc, apc. rewrite Hc. apply rec_master_neutral; exact Hc.
  - unfold rec_master. rewrite Hc. exact I.
Qed.

Lemma FInv_w0 : FInv (get_tx w0) (cmc w0) (apc w0).
Proof.
  constructor; intros;
    repeat match goal with H : get_tx w0 _ = Some _ |- _ => rewrite get_tx_w0 in H; discriminate H end;
    cbn in *; lia.
Qed.

Lemma step_inv2 w l : Inv2 w -> Inv2 (step w l).
Proof.
  intros HI. split; [apply step_inv; exact (proj1 HI)|].
  destruct HI as [HI HF]. unfold step. destruct (w_panicked w); [exact HF|].
  destruct l.
  - destruct (w_cfg w) eqn:Hc; [exact HF|].
    unfold cmc, apc in *. rewrite Hc in HF. cbn. exact HF.
  - change (upd w (w_txs w ++ [new_txn vs]) (w_cfg w) (w_pmap w) (w_target w) (w_rels w) (w_conns w) (w_dev w) (w_elect w))
      with (with_txs w (w_txs w ++ [new_txn vs]) (w_hist w)).
    eapply FInv_ext; [intros j; symmetry; apply get_tx_app|].
    eapply F_tx_append; [exact (proj1 HI) | exact HF | reflexivity].
  - destruct (get_tx w i) as [t|] eqn:Et; [|exact HF].
    match goal with |- FInv (get_tx (upd w (set_nth ?n ?t' (w_txs w)) _ _ _ _ _ _ _)) _ _ =>
      change (FInv (get_tx (with_txs w (set_nth n t' (w_txs w)) (w_hist w))) (cmc w) (apc w)); set (tn := t') end.
    eapply FInv_ext; [intros j; symmetry; apply get_tx_set with (t := t); exact Et|].
    eapply F_tx_Rb with (t := t); [exact (proj1 HI) | exact HF | exact Et | reflexivity].
  - exact (proj2 (run_effs_chain2 o _ k w (conj HI HF) (rec_tx_inv2 o w i (conj HI HF)))).
  - exact (proj2 (run_effs_chain2 o _ k w (conj HI HF) (rec_cfg_inv2 o w (conj HI HF)))).
  - exact (proj2 (run_effs_chain2 o _ k w (conj HI HF) (rec_master_inv2 o w (conj HI HF)))).
  - exact HF.
  - exact HF.
  - exact HF.
  - exact HF.
Qed.

Theorem Inv2_reach : forall w, reach w -> Inv2 w.
Proof. apply (reach_ind_inv Inv2); [split; [exact Inv_w0 | exact FInv_w0] | intros w l; apply step_inv2]. Qed.

(* the blocking rule as Spec/Tla3 states it *)
Lemma st_in_code s l : st_in s l = existsb (fun x => st_code s =? st_code x) l.
Proof. reflexivity. Qed.

Lemma blocks_from_ok l :
  (forall p q t u, nth_error l p = Some t -> nth_error l q = Some u -> (p < q)%nat ->
     ca t = 3 \/ ca t = 5 -> ra t <> 2 -> ra t <> 5 -> ca u <> 1 /\ ca u <> 2) ->
  blocks_from l = true.
Proof.
  induction l as [|t r IH]; intros H; [reflexivity|]. cbn [blocks_from].
  rewrite IH by (intros p q t1 u1 H1 H2 L; apply (H (S p) (S q) t1 u1 H1 H2); lia).
  rewrite andb_true_r.
  destruct (st_in (t_ca t) [Failed; Aborted]) eqn:Ef; [|reflexivity]. cbn [negb orb].
  destruct (rolled_back t) eqn:Er; [reflexivity|]. cbn [orb].
  apply negb_true_iff. apply existsb_false_all. intros u Hu.
  apply In_nth_error in Hu. destruct Hu as [q Hq].
  assert (F : ca t = 3 \/ ca t = 5) by (destruct (t_ca t); cbn in Ef |- *; try discriminate; lia).
  assert (R : ra t <> 2 /\ ra t <> 5).
  { unfold rolled_back in Er. destruct (t_ra t) as [s|]; cbn; [|lia]. destruct s; cbn in Er |- *; try discriminate; lia. }
  destruct (H O (S q) t u eq_refl Hq ltac:(lia) F (proj1 R) (proj2 R)) as [X1 X2].
  destruct (t_ca u); cbn in X1, X2 |- *; try reflexivity; lia.
Qed.

Theorem failed_blocks_later_reach : forall w, reach w -> failed_blocks_later_ok w = true.
Proof.
  intros w Hw. destruct (Inv2_reach w Hw) as [_ HF].
  unfold failed_blocks_later_ok. apply blocks_from_ok.
  intros p q t u Hp Hq L F R1 R2.
  assert (Gp : get_tx w (N.of_nat (S p)) = Some t).
  { unfold get_tx. replace (N.of_nat (S p) =? 0) with false by (symmetry; apply N.eqb_neq; lia).
    replace (N.to_nat (N.of_nat (S p) - 1)) with p by lia. exact Hp. }
  assert (Gq : get_tx w (N.of_nat (S q)) = Some u).
  { unfold get_tx. replace (N.of_nat (S q) =? 0) with false by (symmetry; apply N.eqb_neq; lia).
    replace (N.to_nat (N.of_nat (S q) - 1)) with q by lia. exact Hq. }
  apply (fb _ _ _ HF _ t _ u Gp Gq F R1 R2). lia.
Qed.
