(* Proto3BlocksTx: the transaction-record writes of commitChange / commitRollback, RollbackChange and AppendChange preserve FInv (second layer of the frontier invariant, Proto3BlocksBase). *)
From Coq Require Import List NArith Bool Arith Lia.
From OC Require Import Model.Proto3 Spec.Tla3 Proofs.Proto3Proofs Proofs.Proto3OrderBase Proofs.Proto3BlocksBase.
Import ListNotations.
Open Scope N_scope.

Lemma F_tx_C1' g n cm ap i t t' :
  SInv g n cm ap -> FInv g cm ap -> g i = Some t ->
  cc t = 0 ->
  k_change cm + 1 = i ->
  k_target cm = i ->
  flds t' = (t_rb t, InProgress, t_ca t, t_cord t, t_rc t, t_ra t, t_rord t, k_revision cm) ->
  FInv (updf g i t') cm ap.
Proof.
  intros HS HF Hi G1 G2 G3 F. getflds F.
  constructor; try unchangedF ltac:(upd t').
  - conj s8u; fromF ltac:(upd t') (HS, HF) (s8u, same_tx g) g.
  - conj s9u; fromF ltac:(upd t') (HS, HF) (s3c, s8u, s9u) g.
  - conj f6u; fromF ltac:(upd t') (HS, HF) (f6u, same_tx g, s1, s2, s3a) g.
  - conj f9u; fromF ltac:(upd t') (HS, HF) (s8u, s9u, f8, f9b, f6u) g.
  - conj f1; fromF ltac:(upd t') (HS, HF) f4 g.
Qed.

Lemma F_tx_C2 g n cm ap i t t' :
  SInv g n cm ap -> FInv g cm ap -> g i = Some t ->
  cc t = 1 ->
  k_change cm = i ->
  flds t' = (t_rb t, Complete, t_ca t, k_ordinal cm, t_rc t, t_ra t, t_rord t, t_ridx t) ->
  FInv (updf g i t') cm ap.
Proof.
  intros HS HF Hi G1 G2 F. getflds F.
  constructor; try unchangedF ltac:(upd t').
  - conj s9u; fromF ltac:(upd t') (HS, HF) s9u g.
  - conj f4; fromF ltac:(upd t') (HS, HF) s3c g.
  - conj f1; fromF ltac:(upd t') (HS, HF) (s3a, s3b, s3c, f1) g.
  - conj f5; fromF ltac:(upd t') (HS, HF) (f8, f9b, f6u) g.
  - conj f3; fromF ltac:(upd t') (HS, HF) (f8, f9b, f6u, cc_le g) g.
  - conj a5; fromF ltac:(upd t') (HS, HF) (f9u, f4, f1) g.
Qed.

Lemma F_tx_C3 g n cm ap i t t' :
  SInv g n cm ap -> FInv g cm ap -> g i = Some t ->
  cc t = 1 ->
  k_change cm <> i ->
  flds t' = (t_rb t, Failed, Canceled, t_cord t, t_rc t, t_ra t, t_rord t, t_ridx t) ->
  FInv (updf g i t') cm ap.
Proof.
  intros HS HF Hi G1 G2 F. getflds F.
  constructor; try unchangedF ltac:(upd t').
  - conj s8u; fromF ltac:(upd t') (HS, HF) (s8u, same_tx g) g.
  - conj s9u; fromF ltac:(upd t') (HS, HF) (s4, s9u) g.
  - conj f6u; fromF ltac:(upd t') (HS, HF) f6u g.
  - conj f9u; fromF ltac:(upd t') (HS, HF) (f9u, same_tx g) g.
  - conj f1; fromF ltac:(upd t') (HS, HF) f1 g.
Qed.

Lemma F_tx_R1' g n cm ap i t t' :
  SInv g n cm ap -> FInv g cm ap -> g i = Some t ->
  rc t = 0 ->
  k_revision cm = i ->
  k_target cm = t_ridx t ->
  flds t' = (t_rb t, t_cc t, t_ca t, t_cord t, Some InProgress, t_ra t, t_rord t, t_ridx t) ->
  FInv (updf g i t') cm ap.
Proof.
  intros HS HF Hi G1 G2 G3 F. getflds F.
  constructor; try unchangedF ltac:(upd t').
  - conj b2; fromF ltac:(upd t') (HS, HF) (b2, same_tx g) g.
Qed.

Lemma F_tx_R3 g n cm ap i t t' :
  SInv g n cm ap -> FInv g cm ap -> g i = Some t ->
  rc t = 1 ->
  k_revision cm <> i ->
  flds t' = (t_rb t, t_cc t, t_ca t, t_cord t, Some Complete, t_ra t, k_ordinal cm, t_ridx t) ->
  FInv (updf g i t') cm ap.
Proof.
  intros HS HF Hi G1 G2 F. getflds F.
  constructor; try unchangedF ltac:(upd t').
  - conj s5c; fromF ltac:(upd t') (HS, HF) (s3b, s3c, s4, s5, s7a) g.
Qed.

Lemma F_tx_Rb g n cm ap i t t' :
  SInv g n cm ap -> FInv g cm ap -> g i = Some t ->
  flds t' = (true, t_cc t, t_ca t, t_cord t, Some Pending, Some Pending, t_rord t, t_ridx t) ->
  FInv (updf g i t') cm ap.
Proof.
  intros HS HF Hi  F. getflds F.
  constructor; try unchangedF ltac:(upd t').
  - conj fb; from_by ltac:(frame_eautoF) ltac:(upd t') (HS, HF) (s4, s5, a0, b2, s5c, f6u, f4, f1, f5, fb, cc_le g, ca_le g) g ltac:(assert (D : (ra t = 2 \/ ra t = 5) \/ (ra t <> 2 /\ ra t <> 5)) by lia; destruct D as [D|[D1 D2]]).
Qed.

Lemma F_tx_append g n cm ap t' :
  SInv g n cm ap -> FInv g cm ap ->
  flds t' = (false, Pending, Pending, 0, None, None, 0, 0) ->
  FInv (fun j => if j =? n + 1 then Some t' else g j) cm ap.
Proof.
  intros HS HF F. getflds F. change (fun j => if j =? n + 1 then Some t' else g j) with (updf g (n + 1) t').
  constructor; try unchangedF ltac:(upd t').
  - conj s8u; fromF ltac:(upd t') (HS, HF) (s_dom, s1, s2, s3a, s3b) g.
  - conj s9u; fromF ltac:(upd t') (HS, HF) (s2, s3a, s4) g.
  - conj f6u; fromF ltac:(upd t') (HS, HF) (s2, f8) g.
  - conj f9u; fromF ltac:(upd t') (HS, HF) (s2, f9b) g.
Qed.
