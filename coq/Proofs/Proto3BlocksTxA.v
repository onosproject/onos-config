(* Proto3BlocksTxA: the transaction-record writes of applyChange (PENDING -> IN_PROGRESS / ABORTED, IN_PROGRESS -> COMPLETE) preserve FInv (second layer of the frontier invariant, Proto3BlocksBase). *)
From Coq Require Import List NArith Bool Arith Lia.
From OC Require Import Model.Proto3 Spec.Tla3 Proofs.Proto3Proofs Proofs.Proto3OrderBase Proofs.Proto3BlocksBase.
Import ListNotations.
Open Scope N_scope.

Lemma F_tx_AC1' g n cm ap i t t' :
  SInv g n cm ap -> FInv g cm ap -> g i = Some t ->
  cc t = 2 ->
  ca t = 0 ->
  k_ordinal ap + 1 = t_cord t ->
  k_target ap = i ->
  flds t' = (t_rb t, t_cc t, InProgress, t_cord t, t_rc t, t_ra t, t_rord t, t_ridx t) ->
  FInv (updf g i t') cm ap.
Proof.
  intros HS HF Hi G1 G2 G3 G4 F. getflds F.
  constructor; try unchangedF ltac:(upd t').
  - conj fb; fromF ltac:(upd t') (HS, HF) (o1a, a0, f1, f5, f3, a5) g.
Qed.

Lemma F_tx_abort g n cm ap i t t' :
  SInv g n cm ap -> FInv g cm ap -> g i = Some t ->
  cc t = 2 ->
  ca t = 0 ->
  k_ordinal ap + 1 = t_cord t ->
  k_target ap <> i ->
  (forall j p, g j = Some p -> j = k_index ap /\ k_target ap = k_index ap -> 2 <= ca p) ->
  flds t' = (t_rb t, t_cc t, Aborted, t_cord t, t_rc t, t_ra t, t_rord t, t_ridx t) ->
  FInv (updf g i t') cm ap.
Proof.
  intros HS HF Hi G1 G2 G3 G4 G5 F. getflds F.
  constructor; try unchangedF ltac:(upd t').
  - conj f3; fromF ltac:(upd t') (HS, HF) (f9u, f4, f1, f5, f3) g.
  - conj fb; fromF ltac:(upd t') (HS, HF) (o1b, a0, a1, a3) g.
Qed.

Lemma F_tx_AC2 g n cm ap i t t' :
  SInv g n cm ap -> FInv g cm ap -> g i = Some t ->
  cc t = 2 ->
  ca t = 1 ->
  k_ordinal ap = t_cord t ->
  k_revision ap = i ->
  flds t' = (t_rb t, t_cc t, Complete, t_cord t, t_rc t, t_ra t, t_rord t, t_ridx t) ->
  FInv (updf g i t') cm ap.
Proof.
  intros HS HF Hi G1 G2 G3 G4 F. getflds F.
  constructor; try unchangedF ltac:(upd t').
  - conj fb; fromF ltac:(upd t') (HS, HF) fb g.
Qed.
