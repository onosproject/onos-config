(* Proto3BlocksTxA2: the remaining transaction-record writes of applyChange / applyRollback preserve FInv (second layer of the frontier invariant, Proto3BlocksBase). *)
From Coq Require Import List NArith Bool Arith Lia.
From OC Require Import Model.Proto3 Spec.Tla3 Proofs.Proto3Proofs Proofs.Proto3OrderBase Proofs.Proto3BlocksBase.
Import ListNotations.
Open Scope N_scope.

Lemma F_tx_AC3 g n cm ap i t t' :
  SInv g n cm ap -> FInv g cm ap -> g i = Some t ->
  cc t = 2 ->
  ca t = 1 ->
  ~ (k_ordinal ap = t_cord t /\ k_revision ap = i) ->
  flds t' = (t_rb t, t_cc t, Failed, t_cord t, t_rc t, t_ra t, t_rord t, t_ridx t) ->
  FInv (updf g i t') cm ap.
Proof.
  intros HS HF Hi G1 G2 G3 F. getflds F.
  constructor; try unchangedF ltac:(upd t').
  - conj f3; fromF ltac:(upd t') (HS, HF) (a1, f5) g.
  - conj fb; fromF ltac:(upd t') (HS, HF) (o1b, a0, a1, a3) g.
Qed.

Lemma F_tx_AR1' g n cm ap i t t' :
  SInv g n cm ap -> FInv g cm ap -> g i = Some t ->
  rc t = 2 ->
  ra t = 0 ->
  k_ordinal ap + 1 = t_rord t ->
  k_target ap = t_ridx t ->
  flds t' = (t_rb t, t_cc t, t_ca t, t_cord t, t_rc t, Some InProgress, t_rord t, t_ridx t) ->
  FInv (updf g i t') cm ap.
Proof.
  intros HS HF Hi G1 G2 G3 G4 F. getflds F.
  constructor; try unchangedF ltac:(upd t').
  - conj fb; fromF ltac:(upd t') (HS, HF) fb g.
Qed.

Lemma F_tx_AR2 g n cm ap i t t' :
  SInv g n cm ap -> FInv g cm ap -> g i = Some t ->
  ra t = 1 ->
  flds t' = (t_rb t, t_cc t, t_ca t, t_cord t, t_rc t, Some Complete, t_rord t, t_ridx t) ->
  FInv (updf g i t') cm ap.
Proof.
  intros HS HF Hi G1 F. getflds F.
  constructor; try unchangedF ltac:(upd t').
  - conj b2; fromF ltac:(upd t') (HS, HF) (a3, a7, b1, b2, s5c) g.
Qed.

Lemma F_tx_AR3 g n cm ap i t t' :
  SInv g n cm ap -> FInv g cm ap -> g i = Some t ->
  ra t = 1 ->
  flds t' = (t_rb t, t_cc t, t_ca t, t_cord t, t_rc t, Some Failed, t_rord t, t_ridx t) ->
  FInv (updf g i t') cm ap.
Proof.
  intros HS HF Hi G1 F. getflds F.
  constructor; try unchangedF ltac:(upd t').
  - conj b2; fromF ltac:(upd t') (HS, HF) (a3, a7, b1, b2, s5c) g.
Qed.
