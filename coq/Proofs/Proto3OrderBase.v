(* Proto3OrderBase: the frontier invariant of the v3 transaction protocol (Model/Proto3.v) that relates the
   Committed / Applied cursors of the configuration to the phase states of ALL transactions, and the small
   theory it is proved with.  Statuses are read through their numeric codes (st_code: PENDING 0, IN_PROGRESS 1,
   COMPLETE 2, ABORTED 3, CANCELED 4, FAILED 5; an absent rollback record: 9) so that every state conjunct is
   linear arithmetic over the record fields.
   The invariant is stated over an abstract view of a world: g = get_tx w (index -> transaction), n = number of
   transactions, cm / ap = the Committed / Applied cursors (cur0 while the configuration does not exist) and
   h = the ghost history. *)
From Coq Require Import List NArith Bool Arith Lia.
From OC Require Import Model.Proto3 Spec.Tla3 Proofs.Proto3Proofs.
Import ListNotations.
Open Scope N_scope.

Arguments st_code : simpl nomatch.

Definition oc (o : option st) : N := match o with None => 9 | Some s => st_code s end.
Arguments oc : simpl nomatch.

Notation cc t := (st_code (t_cc t)).
Notation ca t := (st_code (t_ca t)).
Notation rc t := (oc (t_rc t)).
Notation ra t := (oc (t_ra t)).

Definition cmc (w : world) : cursor := match w_cfg w with Some c => c_cm c | None => cur0 end.
Definition apc (w : world) : cursor := match w_cfg w with Some c => c_ap c | None => cur0 end.
Definition nlen (w : world) : N := N.of_nat (length (w_txs w)).

Definition updf (g : N -> option txn) (i : N) (t : txn) : N -> option txn := fun j => if j =? i then Some t else g j.

(* the fields of a transaction record the invariant reads *)
Definition flds (t : txn) := (t_rb t, t_cc t, t_ca t, t_cord t, t_rc t, t_ra t, t_rord t, t_ridx t).

Record SInv (g : N -> option txn) (n : N) (cm ap : cursor) : Prop := {
  s_dom : forall j t, g j = Some t -> 1 <= j <= n;
  (* commit frontier *)
  s1  : k_index cm = k_change cm;
  s2  : k_change cm <= n /\ k_revision cm <= k_change cm;
  s3a : forall j t, g j = Some t -> k_change cm + 1 < j -> cc t = 0;
  s3b : forall j t, g j = Some t -> j = k_change cm + 1 -> cc t = 0 \/ ((cc t = 1 \/ cc t = 5) /\ k_target cm = j);
  s3c : forall j t, g j = Some t -> j <= k_change cm ->
          cc t = 2 \/ cc t = 5 \/ (j = k_change cm /\ cc t = 1 /\ k_revision cm = j /\ k_target cm = j);
  s4  : forall j t, g j = Some t -> cc t <> 0 -> t_ridx t < j;
  s5  : forall j t, g j = Some t -> rc t = 1 \/ rc t = 2 -> k_index cm = j /\ k_target cm = t_ridx t /\ cc t = 2;
  s7a : k_target cm < k_index cm -> k_revision cm = k_index cm \/ k_revision cm = k_target cm;
  s7c : forall j t, g j = Some t -> j = k_index cm /\ k_target cm < k_index cm -> cc t = 2 /\ k_target cm = t_ridx t;
  (* ordinals *)
  o1a : forall j t, g j = Some t -> cc t = 2 -> 1 <= t_cord t <= k_ordinal cm;
  o1b : forall j t k u, g j = Some t -> g k = Some u -> cc t = 2 -> cc u = 2 -> j < k -> t_cord t < t_cord u;
  o2a : forall j t, g j = Some t -> cc t = 1 -> k_change cm = j -> 1 <= k_ordinal cm;
  o2b : forall j t k u, g j = Some t -> g k = Some u -> cc t = 1 -> cc u = 2 -> k_change cm = j -> t_cord u < k_ordinal cm;
  o3a : forall j t, g j = Some t -> rc t = 2 -> t_rord t = k_ordinal cm;
  o3b : forall j t k u, g j = Some t -> g k = Some u -> rc t = 2 -> cc u = 2 -> t_cord u < t_rord t;
  o4  : forall j t k u, g j = Some t -> g k = Some u -> rc t = 1 -> cc u = 2 -> k_revision cm <> j -> t_cord u < k_ordinal cm;
  (* apply frontier *)
  a0  : forall j t, g j = Some t -> ca t <> 0 -> ca t <> 4 -> cc t = 2;
  a0b : forall j t, g j = Some t -> ca t = 4 -> cc t = 5;
  a1  : forall j t, g j = Some t -> ca t = 1 ->
          (k_ordinal ap + 1 = t_cord t /\ k_target ap = j) \/
          (k_ordinal ap = t_cord t /\ k_revision ap = j /\ k_index ap = j /\ k_target ap = j);
  a2  : forall j t, g j = Some t -> ca t = 3 \/ ca t = 5 -> t_cord t <= k_ordinal ap + 1;
  a3  : forall j t, g j = Some t -> ca t = 2 -> t_cord t <= k_ordinal ap;
  a7  : forall k u j t, g k = Some u -> g j = Some t -> ca u = 1 -> cc t = 2 ->
          k_ordinal ap = t_cord u /\ k_ordinal ap < t_cord t -> ca t = 0;
  b1  : forall j t, g j = Some t -> ra t = 1 ->
          rc t = 2 /\ k_target ap = t_ridx t /\ (k_ordinal ap + 1 = t_rord t \/ k_ordinal ap = t_rord t)
}.

Definition bCC (x : event) : bool := phase_eqb (e_phase x) PhChange && stage_eqb (e_stage x) StCommit && is_complete x.
Definition bCA (x : event) : bool := phase_eqb (e_phase x) PhChange && stage_eqb (e_stage x) StApply && is_complete x.

Record HInv (g : N -> option txn) (cm ap : cursor) (h : list event) : Prop := {
  h1 : forall e, In e h -> bCC e = true -> e_index e <= k_change cm;
  h2 : forall j t, g j = Some t -> cc t = 2 \/ (cc t = 1 /\ k_change cm = j) -> In (ev PhChange StCommit j Complete) h;
  h3 : forall e, In e h -> bCA e = true -> exists t, g (e_index e) = Some t /\ cc t = 2 /\ t_cord t <= k_ordinal ap;
  h_ord : order_ok h = true
}.

Definition IA g n cm ap h : Prop := SInv g n cm ap /\ HInv g cm ap h.
Definition Inv (w : world) : Prop := IA (get_tx w) (nlen w) (cmc w) (apc w) (w_hist w).

Lemma SInv_ext g g' n cm ap : (forall j, g j = g' j) -> SInv g n cm ap -> SInv g' n cm ap.
Proof.
  intros E [].
  constructor; intros; repeat match goal with H : g' _ = Some _ |- _ => rewrite <- E in H end; eauto.
Qed.

Lemma HInv_ext g g' cm ap h : (forall j, g j = g' j) -> HInv g cm ap h -> HInv g' cm ap h.
Proof.
  intros E [X1 X2 X3 X4].
  constructor; intros; repeat match goal with H : g' _ = Some _ |- _ => rewrite <- E in H end; eauto.
  destruct (X3 e) as [t Ht]; auto. exists t. rewrite <- E. exact Ht.
Qed.

Lemma IA_ext g g' n cm ap h : (forall j, g j = g' j) -> IA g n cm ap h -> IA g' n cm ap h.
Proof. intros E [A B]. split; [eapply SInv_ext | eapply HInv_ext]; eauto. Qed.

Lemma nth_error_set_nth_same {A} (l : list A) n x y : nth_error l n = Some y -> nth_error (set_nth n x l) n = Some x.
Proof. revert n; induction l as [|a l IH]; intros [|n] H; cbn in *; try discriminate; auto. Qed.

Lemma nth_error_set_nth_other {A} (l : list A) n m x : n <> m -> nth_error (set_nth n x l) m = nth_error l m.
Proof.
  revert n m; induction l as [|a l IH]; intros [|n] [|m] H; cbn; auto; try congruence.
Qed.

Definition with_txs (w : world) (txs : list txn) (h : list event) : world :=
  {| w_txs := txs; w_cfg := w_cfg w; w_cmap := w_cmap w; w_pmap := w_pmap w; w_target := w_target w;
     w_rels := w_rels w; w_conns := w_conns w; w_dev := w_dev w; w_elect := w_elect w; w_hist := h; w_panicked := w_panicked w |}.

Lemma get_tx_range w j t : get_tx w j = Some t -> 1 <= j <= nlen w.
Proof.
  unfold get_tx, nlen. destruct (j =? 0) eqn:E; [discriminate|]. apply N.eqb_neq in E.
  intros H. assert (L : (N.to_nat (j - 1) < length (w_txs w))%nat) by (apply nth_error_Some; congruence).
  lia.
Qed.

Lemma get_tx_set w i t t' h j : get_tx w i = Some t ->
  get_tx (with_txs w (set_nth (N.to_nat (i - 1)) t' (w_txs w)) h) j = updf (get_tx w) i t' j.
Proof.
  intros Hi. unfold updf. pose proof (get_tx_range _ _ _ Hi) as R.
  unfold get_tx in *; cbn. destruct (i =? 0) eqn:Ei; [discriminate|].
  destruct (j =? i) eqn:E.
  - apply N.eqb_eq in E; subst j. rewrite Ei. eapply nth_error_set_nth_same; eauto.
  - apply N.eqb_neq in E. apply N.eqb_neq in Ei. destruct (j =? 0) eqn:Ej; [reflexivity|]. apply N.eqb_neq in Ej.
    apply nth_error_set_nth_other. lia.
Qed.

Lemma get_tx_app w x h j :
  get_tx (with_txs w (w_txs w ++ [x]) h) j = if j =? nlen w + 1 then Some x else get_tx w j.
Proof.
  unfold get_tx, nlen; cbn. destruct (j =? 0) eqn:Ej.
  - apply N.eqb_eq in Ej; subst. destruct (0 =? N.of_nat (length (w_txs w)) + 1) eqn:E; [apply N.eqb_eq in E; lia | reflexivity].
  - apply N.eqb_neq in Ej. destruct (j =? N.of_nat (length (w_txs w)) + 1) eqn:E.
    + apply N.eqb_eq in E. replace (N.to_nat (j - 1)) with (length (w_txs w)) by lia.
      rewrite nth_error_app2 by lia. rewrite Nat.sub_diag. reflexivity.
    + apply N.eqb_neq in E. destruct (Nat.ltb (N.to_nat (j - 1)) (length (w_txs w))) eqn:L.
      * apply Nat.ltb_lt in L. rewrite nth_error_app1 by exact L. reflexivity.
      * apply Nat.ltb_ge in L. rewrite (proj2 (nth_error_None (w_txs w) _)) by exact L.
        apply nth_error_None. rewrite app_length; cbn. lia.
Qed.

Lemma order_from_app b r e : order_from b (r ++ [e]) = order_from b r && event_ordered (b ++ r) e.
Proof.
  revert b; induction r as [|x r IH]; intros b; cbn.
  - rewrite app_nil_r, andb_true_r. reflexivity.
  - rewrite IH. rewrite <- app_assoc. cbn. rewrite andb_assoc. reflexivity.
Qed.

Lemma order_ok_app h e : order_ok (h ++ [e]) = order_ok h && event_ordered h e.
Proof. unfold order_ok. rewrite order_from_app. reflexivity. Qed.

Lemma order_ok_app_incomplete h e : order_ok h = true -> is_complete e = false -> order_ok (h ++ [e]) = true.
Proof. intros H E. rewrite order_ok_app, H. unfold event_ordered. rewrite E. reflexivity. Qed.

Lemma existsb_false_all {A} (f : A -> bool) l : (forall x, In x l -> f x = false) -> existsb f l = false.
Proof. induction l as [|a l IH]; intros H; cbn; [reflexivity|]. rewrite H by (left; reflexivity). apply IH. intros; apply H; right; assumption. Qed.

Lemma eo_change p h i :
  (forall x, In x h -> phase_eqb (e_phase x) PhChange && stage_eqb (e_stage x) p && is_complete x = true -> e_index x < i) ->
  ordered_change p h (ev PhChange p i Complete) = true.
Proof.
  intros H. unfold ordered_change. cbn [e_phase e_stage e_index ev phase_eqb].
  replace (stage_eqb p p) with true by (destruct p; reflexivity).
  replace (is_complete {| e_phase := PhChange; e_stage := p; e_index := i; e_status := Complete |}) with true by reflexivity.
  cbn [andb]. rewrite existsb_false_all; [reflexivity|].
  intros x Hx. destruct (phase_eqb (e_phase x) PhChange && stage_eqb (e_stage x) p && is_complete x) eqn:E; [|reflexivity].
  cbn. apply N.leb_gt. apply H; assumption.
Qed.

Lemma unrolled_later_false p idx l :
  (forall x, In x l -> phase_eqb (e_phase x) PhChange && stage_eqb (e_stage x) p && is_complete x = true -> e_index x <= idx) ->
  unrolled_later p idx l = false.
Proof.
  induction l as [|x r IH]; intros H; cbn; [reflexivity|].
  rewrite IH by (intros; apply H; [right|]; assumption).
  rewrite orb_false_r.
  destruct (phase_eqb (e_phase x) PhChange && stage_eqb (e_stage x) p && is_complete x) eqn:E; [|reflexivity].
  assert (L : e_index x <= idx) by (apply H; [left; reflexivity | exact E]).
  apply N.ltb_ge in L. rewrite L. reflexivity.
Qed.

Lemma eo_rollback p h i :
  In (ev PhChange StCommit i Complete) h ->
  (forall x, In x h -> phase_eqb (e_phase x) PhChange && stage_eqb (e_stage x) p && is_complete x = true -> e_index x <= i) ->
  ordered_rollback p h (ev PhRollback p i Complete) = true.
Proof.
  intros Hin H. unfold ordered_rollback. cbn [e_phase e_stage e_index ev phase_eqb].
  replace (stage_eqb p p) with true by (destruct p; reflexivity).
  replace (is_complete {| e_phase := PhRollback; e_stage := p; e_index := i; e_status := Complete |}) with true by reflexivity.
  rewrite unrolled_later_false by exact H. cbn [andb negb]. rewrite andb_true_r.
  apply existsb_exists. exists (ev PhChange StCommit i Complete). split; [exact Hin|].
  cbn. rewrite N.eqb_refl. reflexivity.
Qed.

Lemma order_app_cc h i : order_ok h = true -> (forall x, In x h -> bCC x = true -> e_index x < i) ->
  order_ok (h ++ [ev PhChange StCommit i Complete]) = true.
Proof.
  intros H1 H2. rewrite order_ok_app, H1. unfold event_ordered. rewrite (eo_change StCommit) by exact H2.
  cbn. rewrite ?orb_true_r. reflexivity.
Qed.
Lemma order_app_ca h i : order_ok h = true -> (forall x, In x h -> bCA x = true -> e_index x < i) ->
  order_ok (h ++ [ev PhChange StApply i Complete]) = true.
Proof.
  intros H1 H2. rewrite order_ok_app, H1. unfold event_ordered. rewrite (eo_change StApply) by exact H2.
  cbn. rewrite ?orb_true_r. reflexivity.
Qed.
Lemma order_app_rc h i : order_ok h = true -> In (ev PhChange StCommit i Complete) h ->
  (forall x, In x h -> bCC x = true -> e_index x <= i) ->
  order_ok (h ++ [ev PhRollback StCommit i Complete]) = true.
Proof.
  intros H1 H2 H3. rewrite order_ok_app, H1. unfold event_ordered. rewrite (eo_rollback StCommit) by assumption.
  cbn. rewrite ?orb_true_r. reflexivity.
Qed.
Lemma order_app_ra h i : order_ok h = true -> In (ev PhChange StCommit i Complete) h ->
  (forall x, In x h -> bCA x = true -> e_index x <= i) ->
  order_ok (h ++ [ev PhRollback StApply i Complete]) = true.
Proof.
  intros H1 H2 H3. rewrite order_ok_app, H1. unfold event_ordered. rewrite (eo_rollback StApply) by assumption.
  cbn. rewrite ?orb_true_r. reflexivity.
Qed.

Lemma st_code_le s : st_code s <= 5.
Proof. destruct s; cbn; lia. Qed.

Lemma updf_inv g i t' j u : updf g i t' j = Some u -> (j = i /\ u = t') \/ (j <> i /\ g j = Some u).
Proof.
  unfold updf. destruct (j =? i) eqn:E.
  - apply N.eqb_eq in E. intros H; inversion H. left; auto.
  - apply N.eqb_neq in E. intros H; right; auto.
Qed.

(* ---- forward chaining over instantiated invariant facts.
   lia is exponential in the number of disjunctive hypotheses, so the instantiated conjuncts are kept boxed (opaque to
   lia); a boxed implication is fired when its premise follows from the atomic facts and dropped when it is refuted. *)
Definition box (P : Prop) : Prop := P.
Lemma box_use (P : Prop) : box P -> P. Proof. exact (fun x => x). Qed.

Ltac norm_neg H :=
  lazymatch type of H with
  | ~ (_ \/ _) => let H1 := fresh "ng" in let H2 := fresh "ng" in
                   apply Decidable.not_or in H; destruct H as [H1 H2]; norm_neg H1; norm_neg H2
  | ~ (?A /\ ?B) => let H' := fresh "N" in assert (H' : box (~ A \/ ~ B)) by (unfold box; lia); clear H
  | ~ (?x <> ?y) => let H' := fresh "N" in assert (H' : x = y) by lia; clear H
  | _ => idtac
  end.

Ltac norm_fact H :=
  lazymatch type of H with
  | True => clear H
  | _ /\ _ => let H1 := fresh "N" in let H2 := fresh "N" in destruct H as [H1 H2]; norm_fact H1; norm_fact H2
  | ~ (_ /\ _) => norm_neg H
  | ~ (_ \/ _) => norm_neg H
  | _ <> _ => idtac
  | ?A \/ ?B => change (box (A \/ B)) in H
  | ?A -> ?B => change (box (A -> B)) in H
  | ?T => try match goal with H2 : T |- _ => assert_fails (constr_eq H2 H); clear H end
  end.

Definition fired := True.
Ltac mark_fired := lazymatch goal with _ : fired |- _ => idtac | _ => assert fired by exact I end.

(* status premises (a status code compared with a numeral) are decided by looking the code up among the atoms, not by lia *)
Ltac is_num c := lazymatch c with N0 => idtac | Npos _ => idtac end.
Ltac is_code X := lazymatch X with st_code _ => idtac | oc _ => idtac end.

(* decide the status literal L: tac_true pf / tac_false tt / tac_unknown tt (continuations take a dummy argument so that
   Ltac does not run them when they are passed) *)
Ltac decide_lit L tac_true tac_false tac_unknown :=
  lazymatch L with
  | ?X = ?c =>
      lazymatch goal with
      | E : X = c |- _ => tac_true E
      | E : X <> c |- _ => tac_false tt
      | E : X = N0 |- _ => tac_false tt
      | E : X = Npos _ |- _ => tac_false tt
      | _ => tac_unknown tt
      end
  | ?X <> ?c =>
      lazymatch goal with
      | E : X <> c |- _ => tac_true E
      | E : X = c |- _ => tac_false tt
      | E : X = N0 |- _ =>
          let a := fresh "a" in assert (a : X <> c) by (rewrite E; discriminate); tac_true a
      | E : X = Npos _ |- _ =>
          let a := fresh "a" in assert (a : X <> c) by (rewrite E; discriminate); tac_true a
      | _ => tac_unknown tt
      end
  end.

Ltac is_lit L :=
  lazymatch L with
  | ?X = ?c => is_code X; is_num c
  | ?X <> ?c => is_code X; is_num c
  end.

Ltac is_sprem A :=
  lazymatch A with
  | ?L1 \/ ?L2 => is_sprem L1; is_sprem L2
  | _ => is_lit A
  end.

Ltac decide_prem A k_true k_false k_unknown :=
  lazymatch A with
  | ?L1 \/ ?L2 =>
      decide_prem L1 ltac:(fun a => k_true constr:(@or_introl L1 L2 a))
        ltac:(fun _ => decide_prem L2 ltac:(fun b => k_true constr:(@or_intror L1 L2 b)) k_false k_unknown)
        ltac:(fun _ => decide_prem L2 ltac:(fun b => k_true constr:(@or_intror L1 L2 b)) k_unknown k_unknown)
  | _ => decide_lit A k_true k_false k_unknown
  end.

Ltac fire_with H a :=
  let H' := fresh "N" in pose proof (H a) as H'; clear H; norm_fact H'; mark_fired.

(* status-guarded facts: decided by lookup only (cheap) *)
Ltac try_fire_s H :=
  lazymatch type of H with
  | box (?A -> ?B) =>
      lazymatch goal with
      | E : A |- _ => fire_with H E
      | E : box A |- _ => fire_with H (box_use A E)
      | _ =>
      tryif is_sprem A
      then decide_prem A ltac:(fun a => fire_with H a) ltac:(fun _ => clear H)
             ltac:(fun _ =>
                   tryif is_lit B
                   then decide_lit B ltac:(fun _ => clear H)
                          ltac:(fun _ =>
                                let na := fresh "N" in
                                assert (na : ~ A) by (let x := fresh in intro x; apply H in x; revert x; lia);
                                clear H; norm_neg na; mark_fired)
                          ltac:(fun _ => idtac)
                   else idtac)
      else idtac
      end
  | _ => idtac
  end.

(* facts guarded by a comparison of indices / ordinals, and disjunctive facts: decided by lia over the atoms;
   `full` also tries to refute the premise (pruning) *)
Ltac try_fire_i full H :=
  lazymatch type of H with
  | box (?A -> ?B) =>
      tryif is_sprem A then idtac else
      first [ let a := fresh "a" in
              assert (a : A) by (first [assumption | lia]);
              fire_with H a
            | lazymatch full with true => assert (~ A) by lia; clear H end
            | let nb := fresh "nb" in
              assert (nb : ~ B) by lia;
              let na := fresh "N" in assert (na : ~ A) by (intro; apply nb; apply H; assumption); clear H nb; norm_neg na; mark_fired
            | idtac ]
  | box (?A \/ ?B) =>
      first [ let a := fresh "a" in
              assert (a : ~ A) by lia;
              let H' := fresh "N" in assert (H' : B) by (destruct H as [H|H]; [exfalso; exact (a H) | exact H]); clear H a; norm_fact H'; mark_fired
            | let a := fresh "a" in
              assert (a : ~ B) by lia;
              let H' := fresh "N" in assert (H' : A) by (destruct H as [H|H]; [exact H | exfalso; exact (a H)]); clear H a; norm_fact H'; mark_fired
            | assert A by lia; clear H
            | assert B by lia; clear H
            | idtac ]
  | _ => idtac
  end.

Ltac pass_gen tac :=
  repeat match goal with H : box _ |- _ => revert H end;
  repeat (let H := fresh "B" in intro H; lazymatch type of H with box _ => first [ tac H | idtac ] end).

(* status propagation to a fixpoint *)
Ltac sat_s n :=
  pass_gen try_fire_s;
  lazymatch goal with
  | X : fired |- _ => clear X; lazymatch n with O => idtac | S ?n' => sat_s n' end
  | _ => idtac
  end.

Ltac fwd_loop n full :=
  sat_s 10%nat;
  pass_gen ltac:(try_fire_i full);
  lazymatch goal with
  | X : fired |- _ => clear X; lazymatch n with O => idtac | S ?n' => fwd_loop n' false end
  | _ => idtac
  end.
Ltac fwd := fwd_loop 6%nat true.

(* case analysis when propagation is stuck: first on a disjunctive fact, then on a premise that compares indices /
   ordinals (not a status code), last on a status premise; depth-limited *)
Ltac split_on H A k :=
  let a := fresh "a" in
  assert (A \/ ~ A) as [a|a] by lia;
  [ let H' := fresh "N" in pose proof (H a) as H'; clear H; norm_fact H'; k | clear H; k ].

Ltac closed := first [ lia | exfalso; lia ].

Ltac dpll n :=
  fwd;
  first [ closed
        | lazymatch n with
          | O => fail
          | S ?n' =>
              first [ match goal with
                      | H : box (_ \/ _) |- _ => destruct H as [H|H]; norm_fact H; dpll n'
                      end
                    | match goal with
                      | H : box (?A -> _) |- _ => tryif is_sprem A then fail else (split_on H A ltac:(dpll n'))
                      end
                    | match goal with
                      | H : box (?A -> _) |- _ => split_on H A ltac:(dpll n')
                      end ]
          end ].

(* refutation form: the negated goal joins the atoms *)
Ltac refute :=
  lazymatch goal with
  | |- False => idtac
  | |- ?G => let ng := fresh "ng" in assert (G \/ ~ G) as [ng|ng] by lia; [exact ng | exfalso; norm_neg ng]
  end.

Ltac finish := dpll 6%nat.

Ltac pf H := let N := fresh "N" in pose proof H as N; norm_fact N.

(* markers used to instantiate the invariant once per known transaction (pair) *)
Definition seen (j : N) (t : txn) := True.
Definition seen2 (j : N) (t : txn) (k : N) (u : txn) := True.

Ltac clear_marks :=
  repeat match goal with
         | X : seen _ _ |- _ => clear X
         | X : seen2 _ _ _ _ |- _ => clear X
         end.

Ltac for_each_tx g tac :=
  repeat match goal with
  | Hg : g ?j = Some ?t |- _ =>
      lazymatch goal with
      | _ : seen j t |- _ => fail
      | _ => idtac
      end;
      assert (seen j t) by exact I;
      tac j t Hg
  end;
  clear_marks.

Ltac for_each_pair g tac :=
  repeat match goal with
  | Hg : g ?j = Some ?t, Hk : g ?k = Some ?u |- _ =>
      lazymatch goal with
      | _ : seen2 j t k u |- _ => fail
      | _ => idtac
      end;
      assert (seen2 j t k u) by exact I;
      tac j t Hg k u Hk
  end;
  clear_marks.

Lemma same_tx (g : N -> option txn) j t k u : g j = Some t -> g k = Some u -> j = k ->
  cc t = cc u /\ ca t = ca u /\ rc t = rc u /\ ra t = ra u /\
  t_cord t = t_cord u /\ t_rord t = t_rord u /\ t_ridx t = t_ridx u.
Proof. intros H1 H2 E. subst k. rewrite H1 in H2. inversion H2; subst. repeat split; reflexivity. Qed.

(* the order of two indices, and the range of the status codes, in the shape of a conjunct (so that they are
   instantiated like one) *)
Lemma tricho (g : N -> option txn) j t k u : g j = Some t -> g k = Some u -> j < k \/ (j = k \/ k < j).
Proof. intros _ _. lia. Qed.
Lemma cc_le (g : N -> option txn) j t : g j = Some t -> cc t <= 5.
Proof. intros _. apply st_code_le. Qed.
Lemma ca_le (g : N -> option txn) j t : g j = Some t -> ca t <= 5.
Proof. intros _. apply st_code_le. Qed.

(* ---- what a conjunct follows from.
   The proof of one conjunct after a write names the facts it needs: conjuncts of the old invariant, a gate hypothesis
   of the lemma, same_tx / tricho / cc_le / ca_le.  A fact about every transaction (or pair of transactions) is
   instantiated with every one in sight, fact after fact in the order given; the forward chaining above does the rest.
   (The depth-limited search is sensitive to the order in which the facts enter the context: a list that works need not
   work when permuted.) *)
Ltac inst_fact q g :=
  lazymatch type of q with
  | forall j t k u, g j = Some t -> g k = Some u -> @?P j t k u =>
      for_each_pair g ltac:(fun j t Hg k u Hk => pf (q j t k u Hg Hk))
  | forall j t, g j = Some t -> @?P j t => for_each_tx g ltac:(fun j t Hg => pf (q j t Hg))
  | _ => pf q
  end.

(* a fact is given as the projection of one of the invariants Hs (one hypothesis or a tuple of them), or as a proof *)
Ltac resolve p Hs :=
  match Hs with
  | (?A, ?B) => match goal with _ => resolve p A | _ => resolve p B end
  | _ => constr:(p _ _ _ _ Hs)
  | _ => constr:(p _ _ _ Hs)
  end.

Ltac inst_facts ps Hs g :=
  lazymatch ps with
  | (?a, ?b) => inst_facts a Hs g; inst_facts b Hs g
  | tt => idtac
  | ?p => let q := match goal with _ => resolve p Hs | _ => p end in inst_fact q g
  end.

Ltac split_upd :=
  repeat match goal with
  | H : updf _ _ _ _ = Some _ |- _ => apply updf_inv in H; destruct H as [[? ?] | [? H]]; subst
  end.

Ltac getflds F :=
  unfold flds in F; injection F as Frb Fcc Fca Fcord Frc Fra Frord Fridx.

Ltac rwt t' :=
  try match goal with F : t_rb t' = _ |- _ => rewrite ?F in * end;
  try match goal with F : t_cc t' = _ |- _ => rewrite ?F in * end;
  try match goal with F : t_ca t' = _ |- _ => rewrite ?F in * end;
  try match goal with F : t_cord t' = _ |- _ => rewrite ?F in * end;
  try match goal with F : t_rc t' = _ |- _ => rewrite ?F in * end;
  try match goal with F : t_ra t' = _ |- _ => rewrite ?F in * end;
  try match goal with F : t_rord t' = _ |- _ => rewrite ?F in * end;
  try match goal with F : t_ridx t' = _ |- _ => rewrite ?F in * end;
  cbn [st_code oc] in *.

Ltac splits := repeat match goal with |- _ /\ _ => split end.

Ltac frame_eauto :=
  solve [eauto using s_dom, s1, s2, s3a, s3b, s3c, s4, s5, s7a, s7c, o1a, o1b, o2a, o2b, o3a, o3b, o4, a0, a0b, a1, a2, a3, a7, b1].

Ltac norm_ctx :=
  repeat match goal with
         | H : _ \/ _ |- _ => norm_fact H
         | H : _ /\ _ |- _ => norm_fact H
         end.

Ltac upd t' := split_upd; rwt t'.
Ltac prj := cbn [k_index k_ordinal k_revision k_target k_change] in *.

(* one conjunct of an invariant after a write.  `prep` normalises the goal (field rewriting / projections), `frame`
   closes a leaf that is literally an old conjunct; a conjunct all of whose leaves are old conjuncts or plain arithmetic
   is `unchanged`, the others follow `from` the named facts ps (`from_by` also takes `extra`, a case split that one
   conjunct needs before the search) *)
Ltac unchanged_by frame prep := solve [intros; prep; first [frame | lia]].
Ltac from_by frame prep Hs ps g extra :=
  intros; prep;
  first [ frame | solve [intros; lia] | (splits; refute; norm_ctx; inst_facts ps Hs g; extra; finish) ].

(* a check only: fails unless the goal is the conjunct p of the invariant being re-established *)
Ltac conj p := assert_succeeds (first [refine (p _ _ _ _ _) | refine (p _ _ _ _)]).

Ltac unchanged prep := unchanged_by ltac:(frame_eauto) prep.
Ltac from prep HS ps g := from_by ltac:(frame_eauto) prep HS ps g idtac.

(* the history part under the two kinds of writes (of a transaction, of the configuration) *)
Lemma order_ok_app_incompletes evs : forall h, order_ok h = true -> Forall (fun e => is_complete e = false) evs ->
  order_ok (h ++ evs) = true.
Proof.
  induction evs as [|e r IH]; intros h H F; [rewrite app_nil_r; exact H|].
  inversion F; subst. replace (h ++ e :: r) with ((h ++ [e]) ++ r) by (rewrite <- app_assoc; reflexivity).
  apply IH; [apply order_ok_app_incomplete; assumption | assumption].
Qed.

Lemma incomplete_not_bCC e : is_complete e = false -> bCC e = false.
Proof. intros H. unfold bCC. rewrite H. apply andb_false_r. Qed.
Lemma incomplete_not_bCA e : is_complete e = false -> bCA e = false.
Proof. intros H. unfold bCA. rewrite H. apply andb_false_r. Qed.

Lemma HInv_tx g cm ap h i t t' evs :
  HInv g cm ap h -> g i = Some t ->
  (cc t = 2 -> cc t' = 2 /\ t_cord t' = t_cord t) ->
  (cc t' = 2 \/ (cc t' = 1 /\ k_change cm = i) -> cc t = 2 \/ (cc t = 1 /\ k_change cm = i)) ->
  Forall (fun e => is_complete e = false) evs ->
  HInv (updf g i t') cm ap (h ++ evs).
Proof.
  intros [X1 X2 X3 X4] Hi K1 K2 F. constructor.
  - intros e He Hb. apply in_app_or in He. destruct He as [He|He]; [eauto|].
    rewrite Forall_forall in F. rewrite incomplete_not_bCC in Hb by (apply F; exact He). discriminate.
  - intros j u Hj Hc. apply in_or_app; left. apply updf_inv in Hj. destruct Hj as [[-> ->] | [Hne Hj]].
    + apply (X2 i t Hi). apply K2. exact Hc.
    + apply (X2 j u Hj Hc).
  - intros e He Hb. apply in_app_or in He. destruct He as [He|He].
    + destruct (X3 e He Hb) as [t0 [Ht0 [Hc Ho]]]. unfold updf. destruct (e_index e =? i) eqn:E.
      * apply N.eqb_eq in E. rewrite E in Ht0. rewrite Hi in Ht0. inversion Ht0; subst t0.
        exists t'. destruct (K1 Hc) as [Y1 Y2]. split; [reflexivity|]. split; [exact Y1 | rewrite Y2; exact Ho].
      * exists t0. auto.
    + rewrite Forall_forall in F. rewrite incomplete_not_bCA in Hb by (apply F; exact He). discriminate.
  - apply order_ok_app_incompletes; assumption.
Qed.

Lemma HInv_cfg g cm ap cm' ap' h evs :
  HInv g cm ap h ->
  k_change cm <= k_change cm' ->
  (forall j t, g j = Some t -> cc t = 1 -> k_change cm' = j -> k_change cm = j) ->
  k_ordinal ap <= k_ordinal ap' ->
  Forall (fun e => is_complete e = false) evs ->
  HInv g cm' ap' (h ++ evs).
Proof.
  intros [X1 X2 X3 X4] K1 K2 K3 F. constructor.
  - intros e He Hb. apply in_app_or in He. destruct He as [He|He]; [specialize (X1 e He Hb); lia|].
    rewrite Forall_forall in F. rewrite incomplete_not_bCC in Hb by (apply F; exact He). discriminate.
  - intros j u Hj Hc. apply in_or_app; left. apply (X2 j u Hj).
    destruct Hc as [Hc | [Hc1 Hc2]]; [left; exact Hc | right; split; [exact Hc1 | eapply K2; eauto]].
  - intros e He Hb. apply in_app_or in He. destruct He as [He|He].
    + destruct (X3 e He Hb) as [t0 [Ht0 [Hc Ho]]]. exists t0. split; [exact Ht0 | split; [exact Hc | lia]].
    + rewrite Forall_forall in F. rewrite incomplete_not_bCA in Hb by (apply F; exact He). discriminate.
  - apply order_ok_app_incompletes; assumption.
Qed.

(* two consequences of SInv, given to `from` as facts *)
Lemma no_change_apply_during_rollback_apply g n cm ap i t j t0 :
  SInv g n cm ap -> g i = Some t -> rc t = 2 -> ra t = 1 -> g j = Some t0 -> ca t0 = 1 -> False.
Proof.
  intros HS Hi G1 G2 Hj G3.
  pose proof (b1 _ _ _ _ HS i t Hi G2) as B1.
  pose proof (s5 _ _ _ _ HS i t Hi (or_intror G1)) as S5.
  assert (C0 : cc t0 = 2) by (apply (a0 _ _ _ _ HS j t0 Hj); lia).
  assert (R : t_ridx t < i) by (apply (s4 _ _ _ _ HS i t Hi); lia).
  pose proof (o3b _ _ _ _ HS i t j t0 Hi Hj G1 C0) as O1.
  pose proof (o3b _ _ _ _ HS i t i t Hi Hi G1 (proj2 (proj2 S5))) as O2.
  pose proof (a1 _ _ _ _ HS j t0 Hj G3) as A1.
  destruct A1 as [[D1 D2] | [D1 [D2 [D3 D4]]]]; [lia|].
  assert (L : j < i) by lia.
  pose proof (o1b _ _ _ _ HS j t0 i t Hj Hi C0 (proj2 (proj2 S5)) L) as O3.
  lia.
Qed.

(* while a change apply is in progress and the Applied cursor does not yet name it (by a1 the applied ordinal is then just
   below its ordinal), every committed change with a larger ordinal is still PENDING *)
Lemma later_applies_pending g n cm ap i t j t0 :
  SInv g n cm ap -> g i = Some t -> ca t = 1 -> ~ (k_ordinal ap = t_cord t /\ k_revision ap = i) ->
  g j = Some t0 -> cc t0 = 2 -> t_cord t < t_cord t0 -> ca t0 = 0.
Proof.
  intros HS Hi G1 G2 Hj C0 L.
  pose proof (a1 _ _ _ _ HS i t Hi G1) as A1.
  pose proof (a1 _ _ _ _ HS j t0 Hj) as A1'.
  pose proof (a2 _ _ _ _ HS j t0 Hj) as A2.
  pose proof (a3 _ _ _ _ HS j t0 Hj) as A3.
  pose proof (a0b _ _ _ _ HS j t0 Hj) as A0.
  pose proof (st_code_le (t_ca t0)) as R.
  assert (E : k_ordinal ap + 1 = t_cord t) by lia.
  assert (X : ca t0 = 0 \/ ca t0 = 1 \/ ca t0 = 2 \/ ca t0 = 3 \/ ca t0 = 4 \/ ca t0 = 5) by lia.
  destruct X as [X | [X | [X | [X | [X | X]]]]]; [exact X | | | | |]; exfalso.
  - specialize (A1' X). lia.
  - specialize (A3 X). lia.
  - specialize (A2 (or_introl X)). lia.
  - specialize (A0 X). lia.
  - specialize (A2 (or_intror X)). lia.
Qed.
