(* Proto3OrderCfg: the configuration-record writes of commitChange / commitRollback (the Committed cursor) that do not
   complete a commit preserve the frontier invariant (the two that do are in Proto3OrderCfgC.v). *)
From Coq Require Import List NArith Bool Arith Lia.
From OC Require Import Model.Proto3 Spec.Tla3 Proofs.Proto3Proofs Proofs.Proto3OrderBase.
Import ListNotations.
Open Scope N_scope.


(* commitChange PENDING: Committed.Target := i *)
Lemma cfg_C1 g n cm ap h i t :
  IA g n cm ap h -> g i = Some t ->
  cc t = 0 -> k_change cm + 1 = i -> k_target cm <> i -> k_index cm = k_target cm ->
  (forall j p, g j = Some p -> j = k_index cm /\ k_target cm = k_index cm -> 2 <= cc p) ->
  IA g n {| k_index := k_index cm; k_ordinal := k_ordinal cm; k_revision := k_revision cm; k_target := i; k_change := k_change cm |} ap
     (h ++ [ev PhChange StCommit i InProgress]).
Proof.
  intros [HS HH] Hi G1 G2 G3 G4 Gt. split.
  { constructor; try unchanged prj.
    - conj s3b; from prj HS (s3b, same_tx g, Gt) g.
    - conj s3c; from prj HS (s3c, same_tx g, Gt) g.
    - conj s5; from prj HS (s5, s4) g.
    - conj s7a; from prj HS (s1, s2, s3a) g.
    - conj s7c; from prj HS (s7c, same_tx g, s1, s2, Gt) g. }
  apply HInv_cfg with (cm := cm) (ap := ap); auto; try (cbn; lia); repeat constructor.
Qed.

(* commitChange IN_PROGRESS, validation failed (after the transaction write), and the FAILED catch-up:
   Committed.Index, Committed.Change := i *)
Lemma cfg_C5 g n cm ap h i t :
  IA g n cm ap h -> g i = Some t ->
  cc t = 5 -> k_change cm < i ->
  IA g n {| k_index := i; k_ordinal := k_ordinal cm; k_revision := k_revision cm; k_target := k_target cm; k_change := i |} ap
     (h ++ []).
Proof.
  intros [HS HH] Hi G1 G2. split.
  { constructor; try unchanged prj.
    - conj s2; from prj HS (s2, s_dom) g.
    - conj s3a; from prj HS (s3a, same_tx g) g.
    - conj s3b; from prj HS (s3b, same_tx g, s1, s2, s3a) g.
    - conj s3c; from prj HS (s3c, same_tx g, s3a, s3b) g.
    - conj s5; from prj HS (s5, s2, s3a, s3b, s4) g.
    - conj s7a; from prj HS (s2, s3a, s3b) g.
    - conj s7c; from prj HS (s3a, s3b) g.
    - conj o2a; from prj HS (o2a, same_tx g, s1, s2) g.
    - conj o2b; from prj HS (o2b, same_tx g) g. }
  apply HInv_cfg with (cm := cm) (ap := ap); auto; try (cbn; lia).
  cbn. intros j u Hj Hc E. subst j. rewrite Hi in Hj. inversion Hj; subst. lia.
Qed.

(* commitRollback PENDING: Committed.Target := Rollback.Index *)
Lemma cfg_R1 g n cm ap h i t :
  IA g n cm ap h -> g i = Some t ->
  rc t = 0 -> cc t = 2 -> k_revision cm = i -> k_target cm = i -> k_index cm = k_target cm ->
  IA g n {| k_index := k_index cm; k_ordinal := k_ordinal cm; k_revision := k_revision cm; k_target := t_ridx t; k_change := k_change cm |} ap
     (h ++ [ev PhRollback StCommit i InProgress]).
Proof.
  intros [HS HH] Hi G1 G2 G3 G4 G5. split.
  { constructor; try unchanged prj.
    - conj s3b; from prj HS (s3b, same_tx g) g.
    - conj s3c; from prj HS (s3c, same_tx g) g.
    - conj s5; from prj HS (s5, same_tx g) g.
    - conj s7c; from prj HS (s7c, same_tx g) g. }
  apply HInv_cfg with (cm := cm) (ap := ap); auto; try (cbn; lia); repeat constructor.
Qed.
