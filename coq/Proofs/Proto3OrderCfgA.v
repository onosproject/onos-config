(* Proto3OrderCfgA: the configuration-record writes of applyChange / applyRollback (the Applied cursor) that do not
   complete an apply preserve the frontier invariant. *)
From Coq Require Import List NArith Bool Arith Lia.
From OC Require Import Model.Proto3 Spec.Tla3 Proofs.Proto3Proofs Proofs.Proto3OrderBase.
Import ListNotations.
Open Scope N_scope.

Ltac hcfg cm ap := apply HInv_cfg with (cm := cm) (ap := ap); auto; try (cbn; lia); repeat constructor.

(* applyChange PENDING: Applied.Target := i *)
Lemma cfg_AC1 g n cm ap h i t :
  IA g n cm ap h -> g i = Some t ->
  cc t = 2 -> ca t = 0 -> k_ordinal ap + 1 = t_cord t -> k_target ap <> i ->
  (forall j p, g j = Some p -> j = k_index ap /\ k_target ap = k_index ap -> 2 <= ca p) ->
  IA g n cm {| k_index := k_index ap; k_ordinal := k_ordinal ap; k_revision := k_revision ap; k_target := i; k_change := k_change ap |}
     (h ++ [ev PhChange StApply i InProgress]).
Proof.
  intros [HS HH] Hi G1 G2 G3 G4 Gt. split.
  { constructor; try unchanged prj.
    - conj a1; from prj HS (o1b, a0, a1, Gt) g.
    - conj b1; from prj HS (o3a, o3b, b1, same_tx g, tricho g) g. }
  hcfg cm ap.
Qed.

(* applyRollback PENDING: Applied.Target := Rollback.Index *)
Lemma cfg_AR1 g n cm ap h i t :
  IA g n cm ap h -> g i = Some t ->
  rc t = 2 -> ra t = 0 -> k_ordinal ap + 1 = t_rord t -> ca t <> 0 -> ca t <> 1 ->
  (ca t = 3 \/ ca t = 5 -> t_cord t <= k_ordinal ap) ->
  IA g n cm {| k_index := k_index ap; k_ordinal := k_ordinal ap; k_revision := k_revision ap; k_target := t_ridx t; k_change := k_change ap |}
     (h ++ [ev PhRollback StApply i InProgress]).
Proof.
  intros [HS HH] Hi G1 G2 G3 G4 G5 G6. split.
  { constructor; try unchanged prj.
    - conj a1; from prj HS (a1, same_tx g, s1, s3a, s3b, s5, o1b, o3b, a0, a7) g.
    - conj b1; from prj HS (b1, s5) g. }
  hcfg cm ap.
Qed.
