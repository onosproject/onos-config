(* Proto3OrderCfgA2: the configuration-record writes of applyChange / applyRollback (the Applied cursor) that do not
   complete an apply preserve the frontier invariant. *)
From Coq Require Import List NArith Bool Arith Lia.
From OC Require Import Model.Proto3 Spec.Tla3 Proofs.Proto3Proofs Proofs.Proto3OrderBase.
Import ListNotations.
Open Scope N_scope.

Ltac hcfg cm ap := apply HInv_cfg with (cm := cm) (ap := ap); auto; try (cbn; lia); repeat constructor.

(* the Applied cursor skips a change whose apply FAILED or was ABORTED: index := i, ordinal := its ordinal, target := i *)
Lemma cfg_bump g n cm ap h i t ap' :
  IA g n cm ap h -> g i = Some t ->
  cc t = 2 -> ca t = 3 \/ ca t = 5 -> k_ordinal ap < t_cord t ->
  k_index ap' = i -> k_ordinal ap' = t_cord t -> k_revision ap' = k_revision ap -> k_target ap' = i ->
  IA g n cm ap' (h ++ []).
Proof.
  intros [HS HH] Hi G1 G2 G3 E1 E2 E3 E4. split.
  - constructor; try unchanged ltac:(rewrite ?E1, ?E2, ?E3, ?E4 in *).
    + conj a1; from ltac:(rewrite ?E1, ?E2, ?E3, ?E4 in *) HS (o1b, a0, a1, a2, a7, same_tx g) g.
    + conj a2; from ltac:(rewrite ?E1, ?E2, ?E3, ?E4 in *) HS (a2, same_tx g) g.
    + conj a3; from ltac:(rewrite ?E1, ?E2, ?E3, ?E4 in *) HS (a3, same_tx g) g.
    + conj a7; from ltac:(rewrite ?E1, ?E2, ?E3, ?E4 in *) HS (o1b, a0, same_tx g) g.
    + conj b1; from ltac:(rewrite ?E1, ?E2, ?E3, ?E4 in *) HS (o3b, b1) g.
  - apply HInv_cfg with (cm := cm) (ap := ap); auto; try lia.
Qed.

(* applyRollback IN_PROGRESS, refused by the device: index := i, ordinal := Rollback.Ordinal *)
Lemma cfg_AR3 g n cm ap h i t :
  IA g n cm ap h -> g i = Some t ->
  rc t = 2 -> ra t = 1 ->
  IA g n cm {| k_index := i; k_ordinal := t_rord t; k_revision := k_revision ap; k_target := k_target ap; k_change := k_change ap |}
     (h ++ []).
Proof.
  intros [HS HH] Hi G1 G2. split.
  - constructor; try unchanged prj.
    + conj a1; from prj HS (a1, same_tx g, (fun j t0 => no_change_apply_during_rollback_apply g n cm ap i t j t0 HS Hi G1 G2)) g.
    + conj a2; from prj HS (o3b, a0) g.
    + conj a3; from prj HS (o3b, a0) g.
    + conj a7; from prj HS o3b g.
    + conj b1; from prj HS (b1, same_tx g, s1, s4, s5) g.
  - pose proof (b1 _ _ _ _ HS i t Hi G2). hcfg cm ap.
Qed.
