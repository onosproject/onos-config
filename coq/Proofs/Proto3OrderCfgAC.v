(* Proto3OrderCfgAC: the two Applied-cursor writes that complete an apply (change apply, rollback apply) preserve the
   frontier invariant and append an ORDERED event to the history. *)
From Coq Require Import List NArith Bool Arith Lia.
From OC Require Import Model.Proto3 Spec.Tla3 Proofs.Proto3Proofs Proofs.Proto3OrderBase.
Import ListNotations.
Open Scope N_scope.


(* applyChange IN_PROGRESS, accepted by the device: index, revision := i, ordinal := Change.Ordinal;
   event (change, apply, i, COMPLETE) *)
Lemma cfg_AC4 g n cm ap h i t :
  IA g n cm ap h -> g i = Some t ->
  cc t = 2 -> ca t = 1 -> ~ (k_ordinal ap = t_cord t /\ k_revision ap = i) ->
  IA g n cm {| k_index := i; k_ordinal := t_cord t; k_revision := i; k_target := k_target ap; k_change := k_change ap |}
     (h ++ [ev PhChange StApply i Complete]).
Proof.
  intros [HS HH] Hi G1 G2 G3. split.
  { constructor; try unchanged prj.
    - conj a1; from prj HS (a1, same_tx g) g.
    - conj a2; from prj HS (a2, a1) g.
    - conj a3; from prj HS (a3, same_tx g, a1, (fun j t0 => later_applies_pending g n cm ap i t j t0 HS Hi G2 G3)) g.
    - conj a7; from prj HS (a7, same_tx g, (fun j t0 => later_applies_pending g n cm ap i t j t0 HS Hi G2 G3)) g.
    - conj b1; from prj HS (o3b, a1, b1, same_tx g) g. }
  assert (L : k_ordinal ap + 1 = t_cord t) by (pose proof (a1 _ _ _ _ HS i t Hi G2); lia).
  destruct HH as [X1 X2 X3 X4]. constructor; prj.
  - intros e He Hb. apply in_app_or in He. destruct He as [He|He]; [eauto|].
    destruct He as [<-|[]]. discriminate Hb.
  - intros j u Hj Hc. apply in_or_app. left. eauto.
  - intros e He Hb. apply in_app_or in He. destruct He as [He|He].
    + destruct (X3 e He Hb) as [t0 [Ht0 [Hc Ho]]]. exists t0. split; [exact Ht0 | split; [exact Hc | lia]].
    + destruct He as [<-|[]]. exists t. cbn. split; [exact Hi | split; [exact G1 | lia]].
  - apply order_app_ca; [exact X4|]. intros x Hx Hb.
    destruct (X3 x Hx Hb) as [t0 [Ht0 [Hc Ho]]].
    destruct (N.lt_trichotomy (e_index x) i) as [Hlt | [Heq | Hgt]]; [exact Hlt | exfalso | exfalso].
    + rewrite Heq in Ht0. rewrite Hi in Ht0. inversion Ht0; subst t0. lia.
    + pose proof (o1b _ _ _ _ HS i t (e_index x) t0 Hi Ht0 G1 Hc Hgt). lia.
Qed.

(* applyRollback IN_PROGRESS, accepted by the device: index := i, ordinal := Rollback.Ordinal, revision := Rollback.Index;
   event (rollback, apply, i, COMPLETE) *)
Lemma cfg_AR4 g n cm ap h i t :
  IA g n cm ap h -> g i = Some t ->
  rc t = 2 -> ra t = 1 ->
  IA g n cm {| k_index := i; k_ordinal := t_rord t; k_revision := t_ridx t; k_target := k_target ap; k_change := k_change ap |}
     (h ++ [ev PhRollback StApply i Complete]).
Proof.
  intros [HS HH] Hi G1 G2. split.
  { constructor; try unchanged prj.
    - conj a1; from prj HS (a1, same_tx g, (fun j t0 => no_change_apply_during_rollback_apply g n cm ap i t j t0 HS Hi G1 G2)) g.
    - conj a2; from prj HS (o3b, a0) g.
    - conj a3; from prj HS (o3b, a0) g.
    - conj a7; from prj HS o3b g.
    - conj b1; from prj HS (b1, same_tx g, s5) g. }
  pose proof (b1 _ _ _ _ HS i t Hi G2) as B1.
  pose proof (s5 _ _ _ _ HS i t Hi) as S5. pose proof (s1 _ _ _ _ HS) as S1.
  destruct HH as [X1 X2 X3 X4]. constructor; prj.
  - intros e He Hb. apply in_app_or in He. destruct He as [He|He]; [eauto|].
    destruct He as [<-|[]]. discriminate Hb.
  - intros j u Hj Hc. apply in_or_app. left. eauto.
  - intros e He Hb. apply in_app_or in He. destruct He as [He|He].
    + destruct (X3 e He Hb) as [t0 [Ht0 [Hc Ho]]]. exists t0. split; [exact Ht0 | split; [exact Hc | lia]].
    + destruct He as [<-|[]]. discriminate Hb.
  - apply order_app_ra; [exact X4 | apply (X2 i t Hi); lia |].
    intros x Hx Hb. destruct (X3 x Hx Hb) as [t0 [Ht0 [Hc Ho]]].
    pose proof (s3a _ _ _ _ HS _ _ Ht0). pose proof (s3b _ _ _ _ HS _ _ Ht0).
    destruct (N.le_gt_cases (e_index x) i) as [Hle|Hgt]; [exact Hle|exfalso].
    destruct (N.eq_dec (e_index x) (k_change cm + 1)); lia.
Qed.
