(* Proto3OrderCfgC: the two Committed-cursor writes that complete a commit (change commit, rollback commit) preserve
   the frontier invariant and append an ORDERED event to the history. *)
From Coq Require Import List NArith Bool Arith Lia.
From OC Require Import Model.Proto3 Spec.Tla3 Proofs.Proto3Proofs Proofs.Proto3OrderBase.
Import ListNotations.
Open Scope N_scope.


(* commitChange IN_PROGRESS, accepted: index, revision, change := i, ordinal + 1; event (change, commit, i, COMPLETE) *)
Lemma cfg_C4 g n cm ap h i t :
  IA g n cm ap h -> g i = Some t ->
  cc t = 1 -> k_change cm <> i ->
  IA g n {| k_index := i; k_ordinal := k_ordinal cm + 1; k_revision := i; k_target := k_target cm; k_change := i |} ap
     (h ++ [ev PhChange StCommit i Complete]).
Proof.
  intros [HS HH] Hi G1 G2. split.
  { constructor; try unchanged prj.
    - conj s2; from prj HS s_dom g.
    - conj s3a; from prj HS (s3a, same_tx g, s3c, s7c) g.
    - conj s3b; from prj HS (s3a, s3c) g.
    - conj s3c; from prj HS (s3c, same_tx g, s3a, s3b) g.
    - conj s5; from prj HS (s5, same_tx g, s3a, s3b, s3c, s4) g.
    - conj s7c; from prj HS (s3a, s3b, s3c) g.
    - conj o1a; from prj HS (o1a, same_tx g) g.
    - conj o2b; from prj HS (s7a, s7c, s_dom, o1a) g.
    - conj o3a; from prj HS (s3a, s3b, s3c, s4, s5) g.
    - conj o4; from prj HS (s3a, s3b, s3c, s4, s5) g. }
  assert (L : k_change cm < i).
  { pose proof (s3c _ _ _ _ HS i t Hi). lia. }
  destruct HH as [X1 X2 X3 X4]. constructor; prj.
  - intros e He Hb. apply in_app_or in He. destruct He as [He|He].
    + specialize (X1 e He Hb). lia.
    + destruct He as [<-|[]]. cbn. lia.
  - intros j u Hj Hc. apply in_or_app. destruct (N.eq_dec j i) as [->|Hne].
    + right. left. reflexivity.
    + left. apply (X2 j u Hj). lia.
  - intros e He Hb. apply in_app_or in He. destruct He as [He|He]; [eauto|].
    destruct He as [<-|[]]. discriminate Hb.
  - apply order_app_cc; [exact X4|]. intros x Hx Hb. specialize (X1 x Hx Hb). lia.
Qed.

(* commitRollback IN_PROGRESS: index := i, revision := Rollback.Index, ordinal + 1; event (rollback, commit, i, COMPLETE) *)
Lemma cfg_R2 g n cm ap h i t :
  IA g n cm ap h -> g i = Some t ->
  rc t = 1 -> k_revision cm = i ->
  IA g n {| k_index := i; k_ordinal := k_ordinal cm + 1; k_revision := t_ridx t; k_target := k_target cm; k_change := k_change cm |} ap
     (h ++ [ev PhRollback StCommit i Complete]).
Proof.
  intros [HS HH] Hi G1 G2. split.
  { constructor; try unchanged prj.
    - conj s1; from prj HS (s1, s5) g.
    - conj s2; from prj HS (s1, s4, s5, s_dom) g.
    - conj s3c; from prj HS (s3c, s5) g.
    - conj s5; from prj HS (s5, same_tx g) g.
    - conj s7a; from prj HS s5 g.
    - conj s7c; from prj HS (same_tx g, s3b, s5) g.
    - conj o1a; from prj HS (o1a, same_tx g) g.
    - conj o2b; from prj HS (o2b, same_tx g) g.
    - conj o3a; from prj HS (o3a, same_tx g, s1, s2, s5) g.
    - conj o4; from prj HS o1a g. }
  pose proof (s5 _ _ _ _ HS i t Hi) as S5. pose proof (s1 _ _ _ _ HS) as S1.
  destruct HH as [X1 X2 X3 X4]. constructor; prj.
  - intros e He Hb. apply in_app_or in He. destruct He as [He|He]; [eauto|].
    destruct He as [<-|[]]. discriminate Hb.
  - intros j u Hj Hc. apply in_or_app. left. eauto.
  - intros e He Hb. apply in_app_or in He. destruct He as [He|He]; [eauto|].
    destruct He as [<-|[]]. discriminate Hb.
  - apply order_app_rc; [exact X4 | apply (X2 i t Hi); lia |].
    intros x Hx Hb. specialize (X1 x Hx Hb). lia.
Qed.
