(* Proto3OrderStep: every Reconcile call of Model/Proto3.v, stopped after any number of its store writes, keeps the
   frontier invariant: each effect it issues is one of the write kinds of Proto3OrderTx/TxA/Cfg/CfgC/CfgA/CfgA2/CfgAC, with the
   kind's guards holding in the state the effect is applied to. *)
From Coq Require Import List NArith Bool Arith Lia.
From OC Require Import Model.Proto3 Spec.Tla3 Proofs.Proto3Proofs Proofs.Proto3OrderBase Proofs.Proto3OrderStepBase
  Proofs.Proto3OrderTx Proofs.Proto3OrderTxA Proofs.Proto3OrderCfg Proofs.Proto3OrderCfgC Proofs.Proto3OrderCfgA Proofs.Proto3OrderCfgA2
  Proofs.Proto3OrderCfgAC.
Import ListNotations.
Open Scope N_scope.

(* the reconciled transaction and the configuration record along a chain of effects *)
Record ST (w : world) (i : N) (t : txn) (c : config) : Prop :=
  { st_inv : Inv w; st_tx : get_tx w i = Some t; st_cfg : w_cfg w = Some c }.

Lemma ST_IA w i t c : ST w i t c -> IA (get_tx w) (nlen w) (c_cm c) (c_ap c) (w_hist w).
Proof. intros [H1 H2 H3]. apply Inv_cfg; assumption. Qed.

Definition stored (c' : config) (cv : vals) : config :=
  {| c_state := c_state c'; c_master := c_master c'; c_mterm := c_mterm c'; c_cm := c_cm c';
     c_inline := cv; c_ap := c_ap c'; c_apterm := c_apterm c' |}.

Lemma chain_cfg o w i t c c' cv av evs r :
  ST w i t c ->
  IA (get_tx w) (nlen w) (c_cm c') (c_ap c') (w_hist w ++ evs) ->
  (ST (apply_eff o w (EPutCfg c' cv av evs)) i t (stored c' cv) -> okchain o (apply_eff o w (EPutCfg c' cv av evs)) r) ->
  okchain o w (EPutCfg c' cv av evs :: r).
Proof.
  intros [H1 H2 H3] HA K. cbn [okchain].
  assert (HI : Inv (apply_eff o w (EPutCfg c' cv av evs))) by (apply put_cfg_inv; exact HA).
  split; [exact HI|]. apply K. constructor; [exact HI | exact H2 | reflexivity].
Qed.

Lemma chain_tx o w i t c t' evs r :
  ST w i t c ->
  IA (updf (get_tx w) i t') (nlen w) (c_cm c) (c_ap c) (w_hist w ++ evs) ->
  (ST (apply_eff o w (EPutTx i t' evs)) i t' c -> okchain o (apply_eff o w (EPutTx i t' evs)) r) ->
  okchain o w (EPutTx i t' evs :: r).
Proof.
  intros [H1 H2 H3] HA K. cbn [okchain].
  assert (HI : Inv (apply_eff o w (EPutTx i t' evs))).
  { apply (put_tx_inv o w i t t' evs H2). unfold cmc, apc. rewrite H3. exact HA. }
  split; [exact HI|]. apply K. constructor; [exact HI | apply (get_tx_put_tx_same o w i t t' evs H2) | exact H3].
Qed.

Lemma chain_dev o w i t c el req code r :
  ST w i t c ->
  (ST (apply_eff o w (EDev el req code)) i t c -> okchain o (apply_eff o w (EDev el req code)) r) ->
  okchain o w (EDev el req code :: r).
Proof.
  intros [H1 H2 H3] K. cbn [okchain].
  assert (HI : Inv (apply_eff o w (EDev el req code))) by (apply dev_inv; exact H1).
  split; [exact HI|]. apply K. constructor; [exact HI | rewrite get_tx_dev; exact H2 | rewrite cfg_dev; exact H3].
Qed.

Lemma chain_panic o w : Inv w -> okchain o w [EPanic].
Proof. intros H. cbn [okchain]. split; [apply (panic_inv o w H) | exact I]. Qed.

Lemma ST_IA_dev o w i t c el req code : ST (apply_eff o w (EDev el req code)) i t c ->
  IA (get_tx (apply_eff o w (EDev el req code))) (nlen (apply_eff o w (EDev el req code))) (c_cm c) (c_ap c)
     (w_hist (apply_eff o w (EDev el req code))).
Proof. apply ST_IA. Qed.

(* status equations in code form *)
Ltac codes :=
  repeat match goal with
         | E : t_cc _ = _ |- _ => apply (f_equal st_code) in E; cbn [st_code] in E
         | E : t_ca _ = _ |- _ => apply (f_equal st_code) in E; cbn [st_code] in E
         | E : t_rc _ = _ |- _ => apply (f_equal oc) in E; cbn [oc st_code] in E
         | E : t_ra _ = _ |- _ => apply (f_equal oc) in E; cbn [oc st_code] in E
         end.

Ltac prjs :=
  unfold stored, cfg_cm, cfg_ap, cfg_with, cur_with, set_cc, set_ca, set_rc, set_ra, tx_set_change, tx_set_rollback, flds;
  cbn [c_cm c_ap k_index k_ordinal k_revision k_target k_change
       t_rb t_cc t_ca t_cord t_rc t_ra t_rord t_ridx st_code oc].
Ltac prjs_in H :=
  unfold stored, cfg_cm, cfg_ap, cfg_with, cur_with, set_cc, set_ca, set_rc, set_ra, tx_set_change, tx_set_rollback in H;
  cbn [c_cm c_ap k_index k_ordinal k_revision k_target k_change
       t_rb t_cc t_ca t_cord t_rc t_ra t_rord t_ridx st_code oc] in H.
Ltac side := prjs; first [ eassumption | reflexivity | lia | (intros; lia) ].

(* the conjuncts of the invariant at the reconciled transaction, as plain hypotheses for lia *)
Ltac fact H := let X := fresh "F" in pose proof H as X; prjs_in X.
(* a conjunct whose status premise is known: keep its conclusion only *)
Ltac known := first [ assumption | reflexivity | (left; first [assumption | reflexivity]) | (right; first [assumption | reflexivity]) ].
Ltac fact_if H :=
  let X := fresh "F" in pose proof H as X; prjs_in X;
  first [ specialize (X ltac:(known)) | clear X ].
Ltac facts S t :=
  let HS := fresh "HS" in
  pose proof (proj1 (ST_IA _ _ _ _ S)) as HS;
  fact (s1 _ _ _ _ HS);
  fact (s3c _ _ _ _ HS _ t (st_tx _ _ _ _ S));
  fact_if (s5 _ _ _ _ HS _ t (st_tx _ _ _ _ S)); fact_if (a1 _ _ _ _ HS _ t (st_tx _ _ _ _ S));
  fact_if (a2 _ _ _ _ HS _ t (st_tx _ _ _ _ S)); fact_if (b1 _ _ _ _ HS _ t (st_tx _ _ _ _ S));
  fact (s4 _ _ _ _ HS _ t (st_tx _ _ _ _ S));
  clear HS.


(* one write: a configuration write carries its kind in the event it appends (a write without an event is tried against
   the three kinds that append none); a transaction write shows its kind in the fields it sets *)
Ltac use_cfg L S tx := eapply L with (t := tx); [apply (ST_IA _ _ _ _ S) | apply (st_tx _ _ _ _ S) | side .. ].
Ltac cfg_kind S t :=
  lazymatch goal with
  | |- IA _ _ _ _ (_ ++ [ev PhChange StCommit _ InProgress]) => use_cfg cfg_C1 S t
  | |- IA _ _ _ _ (_ ++ [ev PhChange StCommit _ Complete]) => use_cfg cfg_C4 S t
  | |- IA _ _ _ _ (_ ++ [ev PhRollback StCommit _ InProgress]) => use_cfg cfg_R1 S t
  | |- IA _ _ _ _ (_ ++ [ev PhRollback StCommit _ Complete]) => use_cfg cfg_R2 S t
  | |- IA _ _ _ _ (_ ++ [ev PhChange StApply _ InProgress]) => use_cfg cfg_AC1 S t
  | |- IA _ _ _ _ (_ ++ [ev PhChange StApply _ Complete]) => use_cfg cfg_AC4 S t
  | |- IA _ _ _ _ (_ ++ [ev PhRollback StApply _ InProgress]) => use_cfg cfg_AR1 S t
  | |- IA _ _ _ _ (_ ++ [ev PhRollback StApply _ Complete]) => use_cfg cfg_AR4 S t
  | |- IA _ _ _ _ (_ ++ []) => first [ use_cfg cfg_C5 S t | use_cfg cfg_bump S t | use_cfg cfg_AR3 S t ]
  end.

(* t' is the written record as the model builds it *)
Ltac tx_kind S tx t' :=
  lazymatch t' with
  | tx_set_rollback (set_cc _ InProgress) _ _ _ _ _ _ => use_cfg tx_C1' S tx
  | tx_set_change _ Complete _ _ _ _ => use_cfg tx_C2 S tx
  | tx_set_change _ Failed Canceled _ _ _ => use_cfg tx_C3 S tx
  | set_rc _ InProgress _ => use_cfg tx_R1' S tx
  | set_rc _ Complete _ => use_cfg tx_R3 S tx
  | set_ca _ InProgress _ => use_cfg tx_AC1' S tx
  | set_ca _ Aborted _ => use_cfg tx_abort S tx
  | set_ca _ Complete _ => use_cfg tx_AC2 S tx
  | set_ca _ Failed _ => use_cfg tx_AC3 S tx
  | set_ra _ InProgress _ => use_cfg tx_AR1' S tx
  | set_ra _ Complete _ => use_cfg tx_AR2 S tx
  | set_ra _ Failed _ => use_cfg tx_AR3 S tx
  end.

Ltac walk S t :=
  lazymatch goal with
  | |- okchain _ _ [] => exact I
  | |- okchain _ _ [EPanic] => apply chain_panic; apply (st_inv _ _ _ _ S)
  | |- okchain _ _ (EDev _ _ _ :: _) =>
      eapply chain_dev; [exact S|]; let S' := fresh "S" in intros S'; facts S' t; walk S' t
  | |- okchain _ _ (EPutCfg _ _ _ _ :: _) =>
      eapply chain_cfg; [exact S | prjs; cfg_kind S t |]; let S' := fresh "S" in intros S'; facts S' t; walk S' t
  | |- okchain _ _ (EPutTx _ ?t' _ :: _) =>
      eapply chain_tx; [exact S | prjs; tx_kind S t t' |]; let S' := fresh "S" in intros S'; facts S' t'; walk S' t'
  end.

Lemma commit_change_inv o w i t c r : ST w i t c ->
  commit_change o w i t c = Some r -> okchain o w (fst r).
Proof.
  intros S H.
  unfold commit_change in H. destruct (t_cc t) eqn:Ecc; try discriminate;
    revert H; break_match; intros H; inversion H; subst; clear H; cbn [fst]; unfold put_cfg; b2p; codes.
  all: try (pose proof (gate_commit_change_go _ _ ltac:(eassumption)) as Gt).
  all: facts S t; walk S t.
Qed.

Lemma commit_rollback_inv o w i t c r : ST w i t c ->
  commit_rollback o w i t c = Some r -> okchain o w (fst r).
Proof.
  intros S H.
  unfold commit_rollback in H. destruct (t_rc t) as [rcs|] eqn:Erc; [|discriminate].
  destruct rcs; try discriminate;
    revert H; break_match; intros H; inversion H; subst; clear H; cbn [fst]; unfold put_cfg; b2p; codes.
  all: try (match goal with G : gate_commit_rollback _ _ _ = GGo |- _ =>
              pose proof (gate_commit_rollback_go _ _ _ _ G (st_tx _ _ _ _ S) ltac:(lia)) as Gt end).
  all: facts S t; walk S t.
Qed.

Lemma apply_change_inv o w i t c r : ST w i t c ->
  apply_change o w i t c = Some r -> okchain o w (fst r).
Proof.
  intros S H.
  unfold apply_change in H. destruct (st_eqb (t_cc t) Complete) eqn:Ecc; cbn [negb] in H; [|discriminate].
  destruct (t_ca t) eqn:Eca; try discriminate;
    revert H; break_match; intros H; inversion H; subst; clear H; cbn [fst]; unfold put_cfg; b2p; codes.
  all: try (match goal with G : gate_apply_change _ _ = GGo |- _ => pose proof (gate_apply_change_go _ _ G) as Gt end).
  all: facts S t; walk S t.
Qed.

Lemma apply_rollback_inv o w i t c r : ST w i t c ->
  apply_rollback o w i t c = Some r -> okchain o w (fst r).
Proof.
  intros S H.
  unfold apply_rollback in H. destruct (t_rc t) as [rcs|] eqn:Erc; [|discriminate].
  destruct rcs; try discriminate.
  destruct (t_ra t) as [ras|] eqn:Era; [|discriminate].
  destruct ras; try discriminate;
    revert H; break_match; intros H; inversion H; subst; clear H; cbn [fst]; unfold put_cfg; b2p; codes.
  all: try (match goal with G : gate_abort _ _ = GGo |- _ => pose proof (gate_abort_go _ _ G) as Gt end).
  all: facts S t; walk S t.
Qed.

Lemma rec_tx_inv o w i : Inv w -> okchain o w (fst (rec_tx o w i)).
Proof.
  intros HI. unfold rec_tx.
  destruct (get_tx w i) as [t|] eqn:Et; [|exact I].
  destruct (w_cfg w) as [c|] eqn:Ec; [|exact I].
  assert (S : ST w i t c) by (constructor; assumption).
  destruct (t_rb t); unfold orelse.
  - destruct (commit_rollback o w i t c) as [r|] eqn:E1; [eapply commit_rollback_inv; eauto|].
    destruct (apply_rollback o w i t c) as [r|] eqn:E2; [eapply apply_rollback_inv; eauto | exact I].
  - destruct (commit_change o w i t c) as [r|] eqn:E1; [eapply commit_change_inv; eauto|].
    destruct (apply_change o w i t c) as [r|] eqn:E2; [eapply apply_change_inv; eauto | exact I].
Qed.

(* the configuration and mastership reconcilers: device requests and configuration writes that leave both cursors alone *)
Definition neutral (cm ap : cursor) (e : eff) : Prop :=
  match e with
  | EDev _ _ _ => True
  | EPutCfg c' _ _ [] => c_cm c' = cm /\ c_ap c' = ap
  | _ => False
  end.

Lemma neutral_chain o effs : forall w, Forall (neutral (cmc w) (apc w)) effs -> Inv w -> okchain o w effs.
Proof.
  induction effs as [|e r IH]; intros w F HI; [exact I|].
  inversion F as [|? ? He Fr]; subst. cbn [okchain].
  destruct e as [i t evs | c' cv av evs | el req code | ]; cbn in He; try contradiction.
  - destruct evs; [|contradiction]. destruct He as [E1 E2].
    assert (HI' : Inv (apply_eff o w (EPutCfg c' cv av []))).
    { apply put_cfg_inv. rewrite E1, E2, app_nil_r. exact HI. }
    split; [exact HI'|]. apply IH; [|exact HI'].
    replace (cmc (apply_eff o w (EPutCfg c' cv av []))) with (cmc w) by (symmetry; exact E1).
    replace (apc (apply_eff o w (EPutCfg c' cv av []))) with (apc w) by (symmetry; exact E2).
    exact Fr.
  - assert (HI' : Inv (apply_eff o w (EDev el req code))) by (apply dev_inv; exact HI).
    split; [exact HI'|]. apply IH; [|exact HI'].
    unfold cmc, apc. rewrite cfg_dev. exact Fr.
Qed.

Ltac neutrals := repeat (first [apply Forall_nil | apply Forall_cons]); unfold neutral, put_cfg, cfg_with; cbn [c_cm c_ap]; try exact I; try (split; reflexivity).

Lemma rec_cfg_neutral o w c : w_cfg w = Some c -> Forall (neutral (c_cm c) (c_ap c)) (fst (rec_cfg o w)).
Proof.
  intros Hc. unfold rec_cfg. rewrite Hc. break_match; cbn [fst]; neutrals.
  all: try (apply Forall_app; split; [apply Forall_forall; intros e He; apply in_map_iff in He; destruct He as [g0 [<- _]]; exact I | neutrals]).
Qed.

Lemma rec_master_neutral o w c : w_cfg w = Some c -> Forall (neutral (c_cm c) (c_ap c)) (fst (rec_master o w)).
Proof. intros Hc. unfold rec_master. rewrite Hc. break_match; cbn [fst]; neutrals. Qed.

Lemma rec_cfg_inv o w : Inv w -> okchain o w (fst (rec_cfg o w)).
Proof.
  intros HI. destruct (w_cfg w) as [c|] eqn:Hc.
  - apply neutral_chain; [|exact HI]. unfold cmc, apc. rewrite Hc. apply rec_cfg_neutral; exact Hc.
  - unfold rec_cfg. rewrite Hc. exact I.
Qed.

Lemma rec_master_inv o w : Inv w -> okchain o w (fst (rec_master o w)).
Proof.
  intros HI. destruct (w_cfg w) as [c|] eqn:Hc.
  - apply neutral_chain; [|exact HI]. unfold cmc, apc. rewrite Hc. apply rec_master_neutral; exact Hc.
  - unfold rec_master. rewrite Hc. exact I.
Qed.

Lemma get_tx_w0 j : get_tx w0 j = None.
Proof. unfold get_tx. cbn. destruct (j =? 0); [reflexivity | destruct (N.to_nat (j - 1)); reflexivity]. Qed.

Lemma Inv_w0 : Inv w0.
Proof.
  unfold Inv, IA. split.
  - constructor; intros;
      repeat match goal with H : get_tx w0 _ = Some _ |- _ => rewrite get_tx_w0 in H; discriminate H end;
      cbn in *; lia.
  - constructor; intros;
      repeat match goal with H : get_tx w0 _ = Some _ |- _ => rewrite get_tx_w0 in H; discriminate H end;
      cbn in *; try contradiction; reflexivity.
Qed.

Lemma step_inv w l : Inv w -> Inv (step w l).
Proof.
  intros HI. unfold step. destruct (w_panicked w); [exact HI|].
  destruct l.
  - (* create configuration *)
    destruct (w_cfg w) eqn:Hc; [exact HI|].
    unfold Inv, cmc, apc in *. rewrite Hc in HI. cbn. exact HI.
  - (* append *)
    change (upd w (w_txs w ++ [new_txn vs]) (w_cfg w) (w_pmap w) (w_target w) (w_rels w) (w_conns w) (w_dev w) (w_elect w))
      with (with_txs w (w_txs w ++ [new_txn vs]) (w_hist w)).
    unfold Inv.
    replace (nlen (with_txs w (w_txs w ++ [new_txn vs]) (w_hist w))) with (nlen w + 1)
      by (unfold nlen; cbn; rewrite app_length; cbn; lia).
    eapply IA_ext; [intros j; symmetry; apply get_tx_app|].
    apply tx_append; [exact HI | reflexivity].
  - (* rollback request *)
    destruct (get_tx w i) as [t|] eqn:Et; [|exact HI].
    match goal with |- Inv (upd w (set_nth ?n ?t' (w_txs w)) _ _ _ _ _ _ _) =>
      change (Inv (with_txs w (set_nth n t' (w_txs w)) (w_hist w))); set (tn := t') end.
    unfold Inv.
    replace (nlen (with_txs w (set_nth (N.to_nat (i - 1)) tn (w_txs w)) (w_hist w))) with (nlen w)
      by (unfold nlen; cbn; rewrite set_nth_length; reflexivity).
    eapply IA_ext; [intros j; symmetry; apply get_tx_set with (t := t); exact Et|].
    eapply tx_Rb with (t := t); [exact HI | exact Et | reflexivity].
  - apply run_effs_chain; [exact HI | apply rec_tx_inv; exact HI].
  - apply run_effs_chain; [exact HI | apply rec_cfg_inv; exact HI].
  - apply run_effs_chain; [exact HI | apply rec_master_inv; exact HI].
  - exact HI.
  - exact HI.
  - exact HI.
  - exact HI.
Qed.

Theorem Inv_reach : forall w, reach w -> Inv w.
Proof. apply (reach_ind_inv Inv); [exact Inv_w0 | intros w l; apply step_inv]. Qed.

Theorem order_reach : forall w, reach w -> order_ok (w_hist w) = true.
Proof. intros w H. exact (h_ord _ _ _ _ (proj2 (Inv_reach w H))). Qed.
