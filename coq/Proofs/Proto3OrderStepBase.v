(* Proto3OrderStepBase: from the abstract view back to worlds - what one effect of Model/Proto3.v does to the view, the
   prefix (crash) semantics of run_effs, and what the prevTransaction gates guarantee when they let a reconcile pass. *)
From Coq Require Import List NArith Bool Arith Lia.
From OC Require Import Model.Proto3 Spec.Tla3 Proofs.Proto3Proofs Proofs.Proto3OrderBase.
Import ListNotations.
Open Scope N_scope.

Lemma set_nth_length {A} n (x : A) l : length (set_nth n x l) = length l.
Proof. revert n; induction l as [|a l IH]; intros [|n]; cbn; auto. Qed.

Lemma put_tx_inv o w i t t' evs : get_tx w i = Some t ->
  IA (updf (get_tx w) i t') (nlen w) (cmc w) (apc w) (w_hist w ++ evs) -> Inv (apply_eff o w (EPutTx i t' evs)).
Proof.
  intros Hi H. unfold Inv.
  change (apply_eff o w (EPutTx i t' evs)) with (with_txs w (set_nth (N.to_nat (i - 1)) t' (w_txs w)) (w_hist w ++ evs)).
  replace (nlen (with_txs w (set_nth (N.to_nat (i - 1)) t' (w_txs w)) (w_hist w ++ evs))) with (nlen w)
    by (unfold nlen; cbn; rewrite set_nth_length; reflexivity).
  eapply IA_ext; [|exact H]. intros j. symmetry. apply get_tx_set with (t := t). exact Hi.
Qed.

Lemma put_cfg_inv o w c' cv av evs :
  IA (get_tx w) (nlen w) (c_cm c') (c_ap c') (w_hist w ++ evs) -> Inv (apply_eff o w (EPutCfg c' cv av evs)).
Proof. intros H. exact H. Qed.

Lemma dev_inv o w el req code : Inv w -> Inv (apply_eff o w (EDev el req code)).
Proof. intros H. unfold apply_eff. destruct (code =? 0); exact H. Qed.

Lemma panic_inv o w : Inv w -> Inv (apply_eff o w EPanic).
Proof. intros H. exact H. Qed.

Lemma get_tx_put_cfg o w c' cv av evs j : get_tx (apply_eff o w (EPutCfg c' cv av evs)) j = get_tx w j.
Proof. reflexivity. Qed.
Lemma get_tx_put_tx_same o w i t t' evs : get_tx w i = Some t -> get_tx (apply_eff o w (EPutTx i t' evs)) i = Some t'.
Proof.
  intros Hi.
  change (apply_eff o w (EPutTx i t' evs)) with (with_txs w (set_nth (N.to_nat (i - 1)) t' (w_txs w)) (w_hist w ++ evs)).
  rewrite (get_tx_set w i t t' _ i Hi). unfold updf. rewrite N.eqb_refl. reflexivity.
Qed.
Lemma get_tx_dev o w el req code j : get_tx (apply_eff o w (EDev el req code)) j = get_tx w j.
Proof. unfold apply_eff. destruct (code =? 0); reflexivity. Qed.
Lemma cfg_dev o w el req code : w_cfg (apply_eff o w (EDev el req code)) = w_cfg w.
Proof. unfold apply_eff. destruct (code =? 0); reflexivity. Qed.
Lemma hist_dev o w el req code : w_hist (apply_eff o w (EDev el req code)) = w_hist w.
Proof. unfold apply_eff. destruct (code =? 0); reflexivity. Qed.

(* every prefix of an effect list (what a crash leaves) keeps Inv if every effect does, each in the state it is applied to *)
Fixpoint okchain (o : oracle) (w : world) (effs : list eff) : Prop :=
  match effs with
  | [] => True
  | e :: r => Inv (apply_eff o w e) /\ okchain o (apply_eff o w e) r
  end.

Lemma run_effs_chain o effs : forall k w, Inv w -> okchain o w effs -> Inv (run_effs o k effs w).
Proof.
  induction effs as [|e r IH]; intros k w HI HC; cbn; [exact HI|].
  destruct HC as [H1 H2].
  destruct e as [i t evs | c cv av evs | el req code | ].
  - destruct k; [exact HI | apply IH; assumption].
  - destruct k; [exact HI | apply IH; assumption].
  - apply IH; assumption.
  - exact H1.
Qed.

Lemma Inv_cfg w c : w_cfg w = Some c -> Inv w -> IA (get_tx w) (nlen w) (c_cm c) (c_ap c) (w_hist w).
Proof. intros Hc H. unfold Inv, cmc, apc in H. rewrite Hc in H. exact H. Qed.

Lemma st_le_inprogress_false s : st_le_inprogress s = false -> 2 <= st_code s.
Proof. unfold st_le_inprogress. intros H. apply N.leb_gt in H. lia. Qed.
Lemma st_lt_complete_false s : st_lt_complete s = false -> 2 <= st_code s.
Proof. unfold st_lt_complete. intros H. apply N.ltb_ge in H. exact H. Qed.
Lemma st_eqb_code a b : st_eqb a b = true -> st_code a = st_code b.
Proof. unfold st_eqb. apply N.eqb_eq. Qed.

Lemma gate_commit_change_go w cm : gate_commit_change w cm = GGo ->
  forall j p, get_tx w j = Some p -> j = k_index cm /\ k_target cm = k_index cm -> 2 <= cc p.
Proof.
  intros G j p Hj [-> E]. unfold gate_commit_change in G. rewrite Hj in G.
  rewrite E, N.eqb_refl in G. destruct (st_le_inprogress (t_cc p)) eqn:S; [discriminate|].
  apply st_le_inprogress_false; exact S.
Qed.

Lemma gate_apply_change_go w ap : gate_apply_change w ap = GGo ->
  forall j p, get_tx w j = Some p -> j = k_index ap /\ k_target ap = k_index ap -> 2 <= ca p.
Proof.
  intros G j p Hj [-> E]. unfold gate_apply_change in G. rewrite Hj in G.
  rewrite E, N.eqb_refl in G. destruct (st_le_inprogress (t_ca p)) eqn:S; [discriminate|].
  apply st_le_inprogress_false; exact S.
Qed.

Lemma gate_abort_go w ap : gate_abort w ap = GGo ->
  forall j p, get_tx w j = Some p -> j = k_index ap /\ k_target ap = k_index ap -> 2 <= ca p.
Proof.
  intros G j p Hj [-> E]. unfold gate_abort in G. rewrite Hj in G.
  rewrite E, N.eqb_refl in G. destruct (st_lt_complete (t_ca p)) eqn:S; [discriminate|].
  apply st_lt_complete_false; exact S.
Qed.

Lemma gate_commit_rollback_go w i t cm : gate_commit_rollback w i cm = GGo ->
  get_tx w i = Some t -> k_index cm = i -> cc t = 2.
Proof.
  intros G Hi E. unfold gate_commit_rollback in G. rewrite E, Hi, N.eqb_refl in G.
  destruct (st_eqb (t_cc t) Complete) eqn:S; [|discriminate].
  apply st_eqb_code in S. exact S.
Qed.

Lemma is_pred_true a b : is_pred a b = true -> a + 1 = b.
Proof.
  unfold is_pred. intros H. apply andb_prop in H. destruct H as [H1 H2].
  apply negb_true_iff in H1. apply N.eqb_neq in H1. apply N.eqb_eq in H2. lia.
Qed.

Ltac b2p :=
  repeat match goal with
         | H : negb _ = true |- _ => apply negb_true_iff in H
         | H : negb _ = false |- _ => apply negb_false_iff in H
         | H : _ && _ = true |- _ => apply andb_prop in H; destruct H
         | H : _ && _ = false |- _ => apply andb_false_iff in H; destruct H
         | H : is_pred _ _ = true |- _ => apply is_pred_true in H
         | H : (_ =? _) = true |- _ => apply N.eqb_eq in H
         | H : (_ =? _) = false |- _ => apply N.eqb_neq in H
         | H : (_ <? _) = true |- _ => apply N.ltb_lt in H
         | H : (_ <? _) = false |- _ => apply N.ltb_ge in H
         | H : st_eqb _ _ = true |- _ => apply st_eqb_code in H; cbn [st_code] in H
         end.
