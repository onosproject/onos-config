(* Proto3OrderThm: what Order (spec/Config.tla) says about a reachable history, in plain terms, derived from
   order_reach (Proto3OrderStep) and from the frontier invariant. *)
From Coq Require Import List NArith Bool Arith Lia.
From OC Require Import Model.Proto3 Spec.Tla3 Proofs.Proto3Proofs Proofs.Proto3OrderBase Proofs.Proto3OrderStep.
Import ListNotations.
Open Scope N_scope.

Lemma order_from_split b h1 e r : order_from b (h1 ++ e :: r) = true -> event_ordered (b ++ h1) e = true.
Proof.
  revert b; induction h1 as [|x h1 IH]; intros b H; cbn in H.
  - rewrite app_nil_r. apply andb_prop in H. tauto.
  - apply andb_prop in H. destruct H as [_ H]. apply IH in H. rewrite <- app_assoc in H. exact H.
Qed.

Lemma order_ok_split h1 e r : order_ok (h1 ++ e :: r) = true -> event_ordered h1 e = true.
Proof. unfold order_ok. intros H. apply order_from_split in H. exact H. Qed.

Lemma existsb_false_all_iff {A} (f : A -> bool) l : existsb f l = false <-> (forall x, In x l -> f x = false).
Proof.
  split; [|apply existsb_false_all].
  induction l as [|a l IH]; intros H x Hx; [destruct Hx|]. cbn in H. apply orb_false_iff in H. destruct H as [H1 H2].
  destruct Hx as [<-|Hx]; [exact H1 | apply IH; assumption].
Qed.

Definition is_ev (ph : phase) (p : stage) (e : event) : bool :=
  phase_eqb (e_phase e) ph && stage_eqb (e_stage e) p && is_complete e.

Lemma phase_eqb_true a b : phase_eqb a b = true -> a = b.
Proof. destruct a, b; cbn; intros; try discriminate; reflexivity. Qed.
Lemma stage_eqb_true a b : stage_eqb a b = true -> a = b.
Proof. destruct a, b; cbn; intros; try discriminate; reflexivity. Qed.

Lemma ordered_change_event p before e x :
  event_ordered before e = true -> is_ev PhChange p e = true -> In x before -> is_ev PhChange p x = true ->
  e_index x < e_index e.
Proof.
  intros H He Hx Hxe. unfold is_ev in He. apply andb_prop in He. destruct He as [He Hc]. apply andb_prop in He. destruct He as [Hp Hs].
  apply phase_eqb_true in Hp. apply stage_eqb_true in Hs.
  unfold event_ordered in H. rewrite Hc in H. cbn [negb orb] in H.
  assert (R1 : ordered_rollback StCommit before e = false) by (unfold ordered_rollback; rewrite Hp; reflexivity).
  assert (R2 : ordered_rollback StApply before e = false) by (unfold ordered_rollback; rewrite Hp; reflexivity).
  rewrite R1, R2, !orb_false_r in H.
  assert (St : forall q, ordered_change q before e = true -> q = p).
  { intros q Hq. unfold ordered_change in Hq. apply andb_prop in Hq. destruct Hq as [Hq _].
    apply andb_prop in Hq. destruct Hq as [Hq _]. apply andb_prop in Hq. destruct Hq as [_ Hq].
    apply stage_eqb_true in Hq. congruence. }
  assert (K : ordered_change p before e = true).
  { apply orb_prop in H. destruct H as [H|H]; [rewrite <- (St _ H); exact H | rewrite <- (St _ H); exact H]. }
  unfold ordered_change in K. apply andb_prop in K. destruct K as [_ K]. apply negb_true_iff in K.
  assert (Q := proj1 (existsb_false_all_iff _ _) K x Hx). cbn in Q.
  unfold is_ev in Hxe. rewrite Hxe in Q. cbn in Q. apply N.leb_gt in Q. exact Q.
Qed.

(* change commits complete in log-index order, change applies complete in log-index order (= ordinal order, below) *)
Theorem changes_in_log_order_reach : forall w, reach w ->
  forall p h1 e1 h2 e2 h3, w_hist w = h1 ++ e1 :: h2 ++ e2 :: h3 ->
  is_ev PhChange p e1 = true -> is_ev PhChange p e2 = true -> e_index e1 < e_index e2.
Proof.
  intros w Hw p h1 e1 h2 e2 h3 E H1 H2. pose proof (order_reach w Hw) as O. rewrite E in O.
  replace (h1 ++ e1 :: h2 ++ e2 :: h3) with ((h1 ++ e1 :: h2) ++ e2 :: h3) in O by (rewrite <- app_assoc; reflexivity).
  apply order_ok_split in O.
  eapply ordered_change_event; [exact O | exact H2 | | exact H1].
  apply in_or_app. right. left. reflexivity.
Qed.

(* the ordinal a change receives at commit (which sequences the applies) grows with the log index *)
Theorem ordinals_follow_log_order_reach : forall w, reach w ->
  forall j t k u, get_tx w j = Some t -> get_tx w k = Some u -> t_cc t = Complete -> t_cc u = Complete -> j < k ->
  t_cord t < t_cord u.
Proof.
  intros w Hw j t k u Hj Hk Ct Cu L. pose proof (proj1 (Inv_reach w Hw)) as HS.
  apply (o1b _ _ _ _ HS j t k u Hj Hk); [rewrite Ct; reflexivity | rewrite Cu; reflexivity | exact L].
Qed.

(* a completed rollback (commit or apply) is an ordered rollback of spec/Config.tla: its change was completed before it and
   every completed change of that stage with a larger index before it has been followed by a rollback event of that stage *)
Theorem rollbacks_reverse_reach : forall w, reach w ->
  forall p h1 e h2, w_hist w = h1 ++ e :: h2 -> is_ev PhRollback p e = true -> ordered_rollback p h1 e = true.
Proof.
  intros w Hw p h1 e h2 E He. pose proof (order_reach w Hw) as O. rewrite E in O. apply order_ok_split in O.
  unfold is_ev in He. apply andb_prop in He. destruct He as [He Hc]. apply andb_prop in He. destruct He as [Hp Hs].
  apply phase_eqb_true in Hp. apply stage_eqb_true in Hs.
  unfold event_ordered in O. rewrite Hc in O. cbn [negb orb] in O.
  assert (C : forall q, ordered_change q h1 e = false) by (intros q; unfold ordered_change; rewrite Hp; reflexivity).
  rewrite !C in O. cbn [orb] in O.
  assert (St : forall q, ordered_rollback q h1 e = true -> q = p).
  { intros q Hq. unfold ordered_rollback in Hq. apply andb_prop in Hq. destruct Hq as [Hq _].
    apply andb_prop in Hq. destruct Hq as [Hq _]. apply andb_prop in Hq. destruct Hq as [Hq _].
    apply andb_prop in Hq. destruct Hq as [_ Hq]. apply stage_eqb_true in Hq. congruence. }
  apply orb_prop in O. destruct O as [O|O]; rewrite <- (St _ O); exact O.
Qed.

(* what "ordered rollback" gives, spelled out *)
Lemma unrolled_later_false_inv p idx l : unrolled_later p idx l = false ->
  forall l1 x l2, l = l1 ++ x :: l2 -> is_ev PhChange p x = true -> idx < e_index x ->
  exists k, In k l2 /\ e_phase k = PhRollback /\ e_stage k = p /\ e_index k = e_index x.
Proof.
  induction l as [|y r IH]; intros H l1 x l2 E Hx L; [destruct l1; discriminate|].
  cbn in H. apply orb_false_iff in H. destruct H as [H1 H2].
  destruct l1 as [|z l1]; cbn in E; inversion E; subst.
  - unfold is_ev in Hx. rewrite Hx in H1. apply N.ltb_lt in L. rewrite L in H1. cbn in H1.
    apply negb_false_iff in H1. apply existsb_exists in H1. destruct H1 as [k [Hk Q]].
    apply andb_prop in Q. destruct Q as [Q Q3]. apply andb_prop in Q. destruct Q as [Q1 Q2].
    exists k. split; [exact Hk|]. split; [apply phase_eqb_true; exact Q1|]. split; [apply stage_eqb_true; exact Q2 | apply N.eqb_eq; exact Q3].
  - eapply IH; eauto.
Qed.

Theorem rollbacks_reverse_explicit_reach : forall w, reach w ->
  forall p h1 e h2, w_hist w = h1 ++ e :: h2 -> is_ev PhRollback p e = true ->
  (exists x, In x h1 /\ e_phase x = PhChange /\ is_complete x = true /\ e_index x = e_index e) /\
  (forall l1 x l2, h1 = l1 ++ x :: l2 -> is_ev PhChange p x = true -> e_index e < e_index x ->
     exists k, In k l2 /\ e_phase k = PhRollback /\ e_stage k = p /\ e_index k = e_index x).
Proof.
  intros w Hw p h1 e h2 E He. pose proof (rollbacks_reverse_reach w Hw p h1 e h2 E He) as R.
  unfold ordered_rollback in R. apply andb_prop in R. destruct R as [R R2]. apply andb_prop in R. destruct R as [_ R1].
  split.
  - apply existsb_exists in R1. destruct R1 as [x [Hx Q]].
    apply andb_prop in Q. destruct Q as [Q Q3]. apply andb_prop in Q. destruct Q as [Q1 Q2].
    exists x. split; [exact Hx|]. split; [apply phase_eqb_true; exact Q1|]. split; [exact Q2 | apply N.eqb_eq; exact Q3].
  - apply negb_true_iff in R2. apply unrolled_later_false_inv. exact R2.
Qed.
