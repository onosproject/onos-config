(* Proto3OrderTx: every kind of transaction-record write of the v3 reconcilers (Model/Proto3.v) preserves the frontier
   invariant IA of Proto3OrderBase.  One lemma per kind; the guards are the conditions under which the reconciler
   issues the write, evaluated on the state the write is applied to (so a write that follows a configuration write
   of the same Reconcile call, or that is replayed after a crash, is the same kind). *)
From Coq Require Import List NArith Bool Arith Lia.
From OC Require Import Model.Proto3 Spec.Tla3 Proofs.Proto3Proofs Proofs.Proto3OrderBase.
Import ListNotations.
Open Scope N_scope.

Ltac tx_hinv HH Hi t' :=
  eapply HInv_tx; [exact HH | exact Hi | rwt t'; try lia; auto
                  | rwt t'; try lia; auto
                  | repeat constructor ].

(* commitChange PENDING -> IN_PROGRESS (Committed.Target already names the transaction) *)
Lemma tx_C1' g n cm ap h i t t' :
  IA g n cm ap h -> g i = Some t ->
  cc t = 0 -> k_change cm + 1 = i -> k_target cm = i ->
  flds t' = (t_rb t, InProgress, t_ca t, t_cord t, t_rc t, t_ra t, t_rord t, k_revision cm) ->
  IA (updf g i t') n cm ap (h ++ []).
Proof.
  intros [HS HH] Hi G1 G2 G3 F. getflds F. split.
  { constructor; try unchanged ltac:(upd t').
    - conj s4; from ltac:(upd t') HS (s4, same_tx g, s1, s2, s3a) g.
    - conj s5; from ltac:(upd t') HS (s5, same_tx g) g.
    - conj a0; from ltac:(upd t') HS (a0, same_tx g, s1, s2, s3a) g.
    - conj a0b; from ltac:(upd t') HS (a0b, same_tx g) g.
    - conj b1; from ltac:(upd t') HS (b1, s3c, s5) g. }
  tx_hinv HH Hi t'.
Qed.

(* commitChange IN_PROGRESS -> COMPLETE once Committed.Change names the transaction *)
Lemma tx_C2 g n cm ap h i t t' :
  IA g n cm ap h -> g i = Some t ->
  cc t = 1 -> k_change cm = i ->
  flds t' = (t_rb t, Complete, t_ca t, k_ordinal cm, t_rc t, t_ra t, t_rord t, t_ridx t) ->
  IA (updf g i t') n cm ap (h ++ []).
Proof.
  intros [HS HH] Hi G1 G2 F. getflds F. split.
  { constructor; try unchanged ltac:(upd t').
    - conj s4; from ltac:(upd t') HS s4 g.
    - conj s5; from ltac:(upd t') HS (s5, same_tx g) g.
    - conj s7c; from ltac:(upd t') HS (s7c, same_tx g) g.
    - conj o1a; from ltac:(upd t') HS (o2a, o2b, o3a, o3b) g.
    - conj o1b; from ltac:(upd t') HS (s3a, s3b) g.
    - conj o3b; from ltac:(upd t') HS (s1, s5, s7a) g.
    - conj o4; from ltac:(upd t') HS (s3a, s3b, s3c, s4, s5) g.
    - conj a0b; from ltac:(upd t') HS (a0b, same_tx g) g.
    - conj a1; from ltac:(upd t') HS a0 g.
    - conj a2; from ltac:(upd t') HS (a0, a0b, a1) g.
    - conj a3; from ltac:(upd t') HS a0 g.
    - conj a7; from ltac:(upd t') HS (a0, a0b) g. }
  tx_hinv HH Hi t'.
Qed.

(* commitChange IN_PROGRESS -> FAILED (validation) *)
Lemma tx_C3 g n cm ap h i t t' :
  IA g n cm ap h -> g i = Some t ->
  cc t = 1 -> k_change cm <> i ->
  flds t' = (t_rb t, Failed, Canceled, t_cord t, t_rc t, t_ra t, t_rord t, t_ridx t) ->
  IA (updf g i t') n cm ap (h ++ [ev PhChange StCommit i Failed]).
Proof.
  intros [HS HH] Hi G1 G2 F. getflds F. split.
  { constructor; try unchanged ltac:(upd t').
    - conj s3a; from ltac:(upd t') HS (s3a, same_tx g, s1, s2, s3b) g.
    - conj s3b; from ltac:(upd t') HS (s3b, same_tx g) g.
    - conj s4; from ltac:(upd t') HS (s4, same_tx g) g.
    - conj s5; from ltac:(upd t') HS (s5, same_tx g) g.
    - conj s7c; from ltac:(upd t') HS (s7c, same_tx g) g. }
  tx_hinv HH Hi t'.
Qed.

(* commitRollback PENDING -> IN_PROGRESS (Committed.Target already names the rollback index) *)
Lemma tx_R1' g n cm ap h i t t' :
  IA g n cm ap h -> g i = Some t ->
  rc t = 0 -> k_revision cm = i -> k_target cm = t_ridx t ->
  flds t' = (t_rb t, t_cc t, t_ca t, t_cord t, Some InProgress, t_ra t, t_rord t, t_ridx t) ->
  IA (updf g i t') n cm ap (h ++ []).
Proof.
  intros [HS HH] Hi G1 G2 G3 F. getflds F. split.
  { constructor; try unchanged ltac:(upd t').
    - conj s5; from ltac:(upd t') HS (s1, s2, s3a, s3c, s4, s7a, s7c) g.
    - conj b1; from ltac:(upd t') HS (a3, a7, b1) g. }
  tx_hinv HH Hi t'.
Qed.

(* commitRollback IN_PROGRESS -> COMPLETE once the committed revision has moved off the transaction *)
Lemma tx_R3 g n cm ap h i t t' :
  IA g n cm ap h -> g i = Some t ->
  rc t = 1 -> k_revision cm <> i ->
  flds t' = (t_rb t, t_cc t, t_ca t, t_cord t, Some Complete, t_ra t, k_ordinal cm, t_ridx t) ->
  IA (updf g i t') n cm ap (h ++ []).
Proof.
  intros [HS HH] Hi G1 G2 F. getflds F. split.
  { constructor; try unchanged ltac:(upd t').
    - conj b1; from ltac:(upd t') HS (b1, s7c) g. }
  tx_hinv HH Hi t'.
Qed.

(* RollbackChange request: phase := ROLLBACK, both rollback phases PENDING *)
Lemma tx_Rb g n cm ap h i t t' :
  IA g n cm ap h -> g i = Some t ->
  flds t' = (true, t_cc t, t_ca t, t_cord t, Some Pending, Some Pending, t_rord t, t_ridx t) ->
  IA (updf g i t') n cm ap h.
Proof.
  intros [HS HH] Hi F. getflds F. split.
  { constructor; try unchanged ltac:(upd t'). }
  rewrite <- (app_nil_r h). tx_hinv HH Hi t'.
Qed.

(* AppendChange: a new transaction with every phase PENDING at the end of the log *)
Lemma tx_append g n cm ap h t' :
  IA g n cm ap h ->
  flds t' = (false, Pending, Pending, 0, None, None, 0, 0) ->
  IA (fun j => if j =? n + 1 then Some t' else g j) (n + 1) cm ap h.
Proof.
  intros [HS HH] F. getflds F. change (fun j => if j =? n + 1 then Some t' else g j) with (updf g (n + 1) t').
  split.
  - constructor; try unchanged ltac:(upd t').
    + conj s_dom; from ltac:(upd t') HS (s_dom, same_tx g) g.
    + conj s2; from ltac:(upd t') HS (s2, same_tx g) g.
    + conj s3c; from ltac:(upd t') HS s2 g.
    + conj s7c; from ltac:(upd t') HS (s1, s2) g.
  - destruct HH as [X1 X2 X3 X4]. constructor; auto.
    + intros j u Hj Hc. apply updf_inv in Hj. destruct Hj as [[-> ->] | [Hne Hj]]; [|eauto].
      rewrite Fcc in Hc. cbn in Hc. lia.
    + intros e He Hb. destruct (X3 e He Hb) as [t0 [Ht0 [Hc Ho]]]. exists t0. split; [|auto].
      unfold updf. destruct (e_index e =? n + 1) eqn:E; [|exact Ht0].
      apply N.eqb_eq in E. pose proof (s_dom _ _ _ _ HS _ _ Ht0). lia.
Qed.
