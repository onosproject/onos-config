(* Proto3OrderTxA: the transaction-record writes of applyChange / applyRollback preserve the frontier invariant. *)
From Coq Require Import List NArith Bool Arith Lia.
From OC Require Import Model.Proto3 Spec.Tla3 Proofs.Proto3Proofs Proofs.Proto3OrderBase.
Import ListNotations.
Open Scope N_scope.

Ltac tx_hinv HH Hi t' :=
  eapply HInv_tx; [exact HH | exact Hi | rwt t'; try lia; auto | rwt t'; try lia; auto | repeat constructor ].

(* applyChange PENDING -> IN_PROGRESS (Applied.Target already names the transaction) *)
Lemma tx_AC1' g n cm ap h i t t' :
  IA g n cm ap h -> g i = Some t ->
  cc t = 2 -> ca t = 0 -> k_ordinal ap + 1 = t_cord t -> k_target ap = i ->
  flds t' = (t_rb t, t_cc t, InProgress, t_cord t, t_rc t, t_ra t, t_rord t, t_ridx t) ->
  IA (updf g i t') n cm ap (h ++ []).
Proof.
  intros [HS HH] Hi G1 G2 G3 G4 F. getflds F. split.
  { constructor; try unchanged ltac:(upd t').
    - conj a7; from ltac:(upd t') HS a1 g. }
  tx_hinv HH Hi t'.
Qed.

(* applyChange PENDING -> ABORTED (an earlier change failed: Applied.Revision < Rollback.Index), and
   applyRollback's PENDING -> ABORTED of a change that was never applied *)
Lemma tx_abort g n cm ap h i t t' :
  IA g n cm ap h -> g i = Some t ->
  cc t = 2 -> ca t = 0 -> k_ordinal ap + 1 = t_cord t -> k_target ap <> i ->
  (forall j p, g j = Some p -> j = k_index ap /\ k_target ap = k_index ap -> 2 <= ca p) ->
  flds t' = (t_rb t, t_cc t, Aborted, t_cord t, t_rc t, t_ra t, t_rord t, t_ridx t) ->
  IA (updf g i t') n cm ap (h ++ [ev PhChange StApply i Aborted]).
Proof.
  intros [HS HH] Hi G1 G2 G3 G4 Gt F. getflds F.
  split.
  { constructor; try unchanged ltac:(upd t').
    - conj a7; from ltac:(upd t') HS (a7, same_tx g, a1, Gt) g. }
  tx_hinv HH Hi t'.
Qed.

(* applyChange IN_PROGRESS -> COMPLETE once the applied cursor names the transaction *)
Lemma tx_AC2 g n cm ap h i t t' :
  IA g n cm ap h -> g i = Some t ->
  cc t = 2 -> ca t = 1 -> k_ordinal ap = t_cord t -> k_revision ap = i ->
  flds t' = (t_rb t, t_cc t, Complete, t_cord t, t_rc t, t_ra t, t_rord t, t_ridx t) ->
  IA (updf g i t') n cm ap (h ++ []).
Proof.
  intros [HS HH] Hi G1 G2 G3 G4 F. getflds F. split.
  { constructor; try unchanged ltac:(upd t'). }
  tx_hinv HH Hi t'.
Qed.

(* applyChange IN_PROGRESS -> FAILED (the device refused), applyRollback's IN_PROGRESS -> FAILED of the change *)
Lemma tx_AC3 g n cm ap h i t t' :
  IA g n cm ap h -> g i = Some t ->
  cc t = 2 -> ca t = 1 -> ~ (k_ordinal ap = t_cord t /\ k_revision ap = i) ->
  flds t' = (t_rb t, t_cc t, Failed, t_cord t, t_rc t, t_ra t, t_rord t, t_ridx t) ->
  IA (updf g i t') n cm ap (h ++ [ev PhChange StApply i Failed]).
Proof.
  intros [HS HH] Hi G1 G2 G3 F. getflds F. split.
  { constructor; try unchanged ltac:(upd t').
    - conj a2; from ltac:(upd t') HS (a0, a1) g.
    - conj a7; from ltac:(upd t') HS a7 g. }
  tx_hinv HH Hi t'.
Qed.

(* applyRollback PENDING -> IN_PROGRESS (Applied.Target already names the rollback index) *)
Lemma tx_AR1' g n cm ap h i t t' :
  IA g n cm ap h -> g i = Some t ->
  rc t = 2 -> ra t = 0 -> k_ordinal ap + 1 = t_rord t -> k_target ap = t_ridx t ->
  flds t' = (t_rb t, t_cc t, t_ca t, t_cord t, t_rc t, Some InProgress, t_rord t, t_ridx t) ->
  IA (updf g i t') n cm ap (h ++ []).
Proof.
  intros [HS HH] Hi G1 G2 G3 G4 F. getflds F. split.
  { constructor; try unchanged ltac:(upd t'). }
  tx_hinv HH Hi t'.
Qed.

(* applyRollback IN_PROGRESS -> COMPLETE / FAILED *)
Lemma tx_AR_done g n cm ap h i t t' s evs :
  IA g n cm ap h -> g i = Some t ->
  ra t = 1 -> st_code s <> 1 -> Forall (fun e => is_complete e = false) evs ->
  flds t' = (t_rb t, t_cc t, t_ca t, t_cord t, t_rc t, Some s, t_rord t, t_ridx t) ->
  IA (updf g i t') n cm ap (h ++ evs).
Proof.
  intros [HS HH] Hi G1 G2 Fe F. getflds F. split.
  { constructor; try unchanged ltac:(upd t'). }
  eapply HInv_tx; [exact HH | exact Hi | rwt t'; try lia; auto | rwt t'; try lia; auto | exact Fe ].
Qed.

Lemma tx_AR2 g n cm ap h i t t' :
  IA g n cm ap h -> g i = Some t -> ra t = 1 ->
  flds t' = (t_rb t, t_cc t, t_ca t, t_cord t, t_rc t, Some Complete, t_rord t, t_ridx t) ->
  IA (updf g i t') n cm ap (h ++ []).
Proof. intros HA Hi G F. eapply tx_AR_done with (s := Complete); eauto. cbn; lia. Qed.

Lemma tx_AR3 g n cm ap h i t t' :
  IA g n cm ap h -> g i = Some t -> ra t = 1 ->
  flds t' = (t_rb t, t_cc t, t_ca t, t_cord t, t_rc t, Some Failed, t_rord t, t_ridx t) ->
  IA (updf g i t') n cm ap (h ++ [ev PhRollback StApply i Failed]).
Proof. intros HA Hi G F. eapply tx_AR_done with (s := Failed); eauto. cbn; lia. Qed.
