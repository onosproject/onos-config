(* Proofs about Model/Proto3.v: two facts that hold along every label sequence and at every crash point - commit precedes
   apply in every reachable world, and a step moves the committed ordinal by 0 or 1. *)
From Coq Require Import List NArith Bool Arith Lia.
From OC Require Import Model.Proto3 Spec.Tla3.
Import ListNotations.
Open Scope N_scope.

Definition reach (w : world) : Prop := exists ls, w = run ls.

Lemma reach_ind_inv (I : world -> Prop) :
  I w0 -> (forall w l, I w -> I (step w l)) -> forall w, reach w -> I w.
Proof.
  intros H0 Hs w [ls ->]. unfold run.
  assert (G : forall ks w1, I w1 -> I (fold_left step ks w1)).
  { intros ks; induction ks as [|l ks IH]; intros w1 H1; cbn; [exact H1 | apply IH, Hs, H1]. }
  apply G, H0.
Qed.

Ltac break_match :=
  repeat match goal with
         | |- context [match ?x with _ => _ end] => destruct x eqn:?
         | |- context [if ?x then _ else _] => destruct x eqn:?
         end.

(* each phase is committed before it is applied (state form): a transaction whose change apply is or was in
   progress on the device (IN_PROGRESS, COMPLETE, FAILED) has its change commit COMPLETE; a transaction whose
   rollback apply has left PENDING has its rollback commit COMPLETE. *)
Definition cba (t : txn) : Prop :=
  (st_in (t_ca t) [InProgress; Complete; Failed] = true -> t_cc t = Complete) /\
  (match t_ra t with Some s => st_in s [InProgress; Complete; Aborted; Failed] = true | None => False end -> t_rc t = Some Complete).

Definition cba_eff (e : eff) : Prop := match e with EPutTx _ t _ => cba t | _ => True end.

Lemma st_eqb_complete s : st_eqb s Complete = true -> s = Complete.
Proof. destruct s; cbn; intros H; try discriminate; reflexivity. Qed.

Ltac fin H1 H2 :=
  unfold cba; cbn; split;
  [ first [ exact H1
          | intros X; first [ discriminate X | assumption
                            | apply H1; first [ assumption | match goal with E : t_ca _ = _ |- _ => rewrite E; reflexivity end ] ] ]
  | first [ exact H2
          | intros X; first [ discriminate X | reflexivity | assumption
                            | match goal with E : t_rc _ = Some Complete |- _ => exact E end
                            | apply H2; match goal with E : t_ra _ = _ |- _ => rewrite E; reflexivity end ] ] ].

Ltac effs := cbn [fst]; repeat (first [apply Forall_nil | apply Forall_cons]); unfold cba_eff, put_cfg; try exact I.
Ltac each_eff H1 H2 := effs; try (fin H1 H2).

Lemma cba_commit_change o w i t c r : cba t -> commit_change o w i t c = Some r -> Forall cba_eff (fst r).
Proof.
  intros [H1 H2] H. unfold commit_change in H.
  destruct (t_cc t) eqn:Ecc; revert H; break_match; intros H; inversion H; subst; each_eff H1 H2.
  all: unfold cba; cbn; split;
    [intros X; first [discriminate X | reflexivity | (pose proof (H1 X) as Y; first [discriminate Y | exact Y | congruence])] | exact H2].
Qed.

Lemma cba_apply_change o w i t c r : cba t -> apply_change o w i t c = Some r -> Forall cba_eff (fst r).
Proof.
  intros [H1 H2] H. unfold apply_change in H.
  destruct (st_eqb (t_cc t) Complete) eqn:Ecc; cbn in H; [|discriminate].
  apply st_eqb_complete in Ecc.
  revert H; break_match; intros H; inversion H; subst; effs; unfold cba; cbn;
    (split; [intros _; exact Ecc | exact H2]).
Qed.

Lemma cba_commit_rollback o w i t c r : cba t -> commit_rollback o w i t c = Some r -> Forall cba_eff (fst r).
Proof.
  intros [H1 H2] H. unfold commit_rollback in H.
  destruct (t_rc t) as [rc|] eqn:Erc; [|discriminate].
  destruct rc; revert H; break_match; intros H; inversion H; subst; effs; unfold cba; cbn;
    (split; [exact H1 | intros X; first [reflexivity | (pose proof (H2 X) as Y; first [discriminate Y | congruence])]]).
Qed.

Lemma cba_apply_rollback o w i t c r : cba t -> apply_rollback o w i t c = Some r -> Forall cba_eff (fst r).
Proof.
  intros [H1 H2] H. unfold apply_rollback in H.
  destruct (t_rc t) as [rc|] eqn:Erc; [|discriminate].
  destruct rc; try discriminate.
  destruct (t_ra t) as [ra|] eqn:Era; [|discriminate].
  destruct ra; try discriminate;
    revert H; break_match; intros H; inversion H; subst; effs; unfold cba; cbn;
    rewrite ?Era; cbn;
    (split;
     [ first [ exact H1
             | intros X; first [ discriminate X
                               | (apply H1; match goal with E : t_ca t = _ |- _ => rewrite E; reflexivity end)
                               | (match goal with E : t_ca t = _ |- _ => rewrite E in X end;
                                  first [ discriminate X | apply H1; reflexivity ]) ] ]
     | intros _; first [ exact Erc | reflexivity ] ]).
Qed.


Definition Inv_cba (w : world) : Prop := Forall cba (w_txs w).

Lemma set_nth_Forall {A} (P : A -> Prop) n x l : Forall P l -> P x -> Forall P (set_nth n x l).
Proof.
  revert n; induction l as [|y l IH]; intros n Hl Hx; [destruct n; constructor|].
  inversion Hl; subst. destruct n; cbn; constructor; auto.
Qed.

Lemma get_tx_In w i t : get_tx w i = Some t -> In t (w_txs w).
Proof. unfold get_tx. destruct (i =? 0); [discriminate|]. apply nth_error_In. Qed.

Lemma cba_rec_tx o w i : Inv_cba w -> Forall cba_eff (fst (rec_tx o w i)).
Proof.
  intros HI. unfold rec_tx.
  destruct (get_tx w i) as [t|] eqn:Et; [|constructor].
  destruct (w_cfg w) as [c|]; [|constructor].
  assert (Ht : cba t) by (eapply Forall_forall; [exact HI | eapply get_tx_In; exact Et]).
  destruct (t_rb t); unfold orelse.
  - destruct (commit_rollback o w i t c) eqn:E1; [eapply cba_commit_rollback; eauto|].
    destruct (apply_rollback o w i t c) eqn:E2; [eapply cba_apply_rollback; eauto | constructor].
  - destruct (commit_change o w i t c) eqn:E1; [eapply cba_commit_change; eauto|].
    destruct (apply_change o w i t c) eqn:E2; [eapply cba_apply_change; eauto | constructor].
Qed.

Lemma cba_rec_cfg o w : Forall cba_eff (fst (rec_cfg o w)).
Proof.
  unfold rec_cfg. break_match; effs.
  all: try (apply Forall_app; split; [apply Forall_forall; intros e He; apply in_map_iff in He; destruct He as [g [<- _]]; exact I | effs]).
Qed.

Lemma cba_rec_master o w : Forall cba_eff (fst (rec_master o w)).
Proof. unfold rec_master. break_match; effs. Qed.

Lemma cba_run_effs o effs : forall k w, Inv_cba w -> Forall cba_eff effs -> Inv_cba (run_effs o k effs w).
Proof.
  induction effs as [|e effs IH]; intros k w HI HF; cbn; [exact HI|].
  inversion HF as [|? ? He HF']; subst.
  destruct e as [i t evs | c cv av evs | el req code | ].
  - destruct k; [exact HI|]. apply IH; [|exact HF']. unfold Inv_cba; cbn. apply set_nth_Forall; assumption.
  - destruct k; [exact HI|]. apply IH; [|exact HF']. exact HI.
  - apply IH; [|exact HF']. unfold apply_eff. destruct (code =? 0); exact HI.
  - exact HI.
Qed.

Lemma cba_new vs : cba (new_txn vs).
Proof. unfold cba; cbn; split; intros X; [discriminate X | destruct X]. Qed.

Lemma cba_step w l : Inv_cba w -> Inv_cba (step w l).
Proof.
  intros HI. unfold step. destruct (w_panicked w); [exact HI|].
  destruct l; cbn.
  - destruct (w_cfg w); exact HI.
  - unfold Inv_cba; cbn. apply Forall_app; split; [exact HI | repeat constructor; apply cba_new].
  - destruct (get_tx w i) as [t|] eqn:Et; [|exact HI].
    unfold Inv_cba; cbn. apply set_nth_Forall; [exact HI|].
    assert (Ht : cba t) by (eapply Forall_forall; [exact HI | eapply get_tx_In; exact Et]).
    destruct Ht as [H1 H2]. unfold cba; cbn. split; [exact H1 | intros X; discriminate X].
  - apply cba_run_effs; [exact HI | apply cba_rec_tx; exact HI].
  - apply cba_run_effs; [exact HI | apply cba_rec_cfg].
  - apply cba_run_effs; [exact HI | apply cba_rec_master].
  - exact HI.
  - exact HI.
  - exact HI.
  - exact HI.
Qed.

Theorem commit_before_apply_reach : forall w, reach w -> Forall cba (w_txs w).
Proof. apply (reach_ind_inv Inv_cba); [constructor | intros w l; apply cba_step]. Qed.

(* the committed ordinal (which sequences applies) never decreases, whatever happens, and a step moves it by
   at most one *)
Definition ord_eff (c : config) (e : eff) : Prop :=
  match e with
  | EPutCfg c' _ _ _ => k_ordinal (c_cm c) <= k_ordinal (c_cm c') <= k_ordinal (c_cm c) + 1
  | _ => True
  end.

Ltac oeffs := cbn [fst]; repeat (first [apply Forall_nil | apply Forall_cons]); unfold ord_eff, put_cfg; cbn; try exact I; try lia.

Ltac ord_fun f := intros H; unfold f in H; revert H; break_match; intros H; inversion H; subst; oeffs.
Lemma ord_commit_change o w i t c r : commit_change o w i t c = Some r -> Forall (ord_eff c) (fst r).
Proof. ord_fun commit_change. Qed.
Lemma ord_apply_change o w i t c r : apply_change o w i t c = Some r -> Forall (ord_eff c) (fst r).
Proof. ord_fun apply_change. Qed.
Lemma ord_commit_rollback o w i t c r : commit_rollback o w i t c = Some r -> Forall (ord_eff c) (fst r).
Proof. ord_fun commit_rollback. Qed.
Lemma ord_apply_rollback o w i t c r : apply_rollback o w i t c = Some r -> Forall (ord_eff c) (fst r).
Proof. ord_fun apply_rollback. Qed.

Lemma ord_rec_tx o w i c : w_cfg w = Some c -> Forall (ord_eff c) (fst (rec_tx o w i)).
Proof.
  intros Hc. unfold rec_tx. rewrite Hc.
  destruct (get_tx w i) as [t|]; [|constructor].
  destruct (t_rb t); unfold orelse.
  - destruct (commit_rollback o w i t c) eqn:E1; [eapply ord_commit_rollback; eauto|].
    destruct (apply_rollback o w i t c) eqn:E2; [eapply ord_apply_rollback; eauto | constructor].
  - destruct (commit_change o w i t c) eqn:E1; [eapply ord_commit_change; eauto|].
    destruct (apply_change o w i t c) eqn:E2; [eapply ord_apply_change; eauto | constructor].
Qed.

Lemma ord_rec_cfg o w c : w_cfg w = Some c -> Forall (ord_eff c) (fst (rec_cfg o w)).
Proof.
  intros Hc. unfold rec_cfg. rewrite Hc. break_match; oeffs.
  all: try (apply Forall_app; split; [apply Forall_forall; intros e He; apply in_map_iff in He; destruct He as [g [<- _]]; exact I | oeffs]).
Qed.

Lemma ord_rec_master o w c : w_cfg w = Some c -> Forall (ord_eff c) (fst (rec_master o w)).
Proof. intros Hc. unfold rec_master. rewrite Hc. break_match; oeffs. Qed.

Definition ord_between (c : config) (w : world) : Prop :=
  exists c', w_cfg w = Some c' /\ k_ordinal (c_cm c) <= k_ordinal (c_cm c') <= k_ordinal (c_cm c) + 1.

Lemma ord_run_effs o c effs : forall k w, ord_between c w -> Forall (ord_eff c) effs -> ord_between c (run_effs o k effs w).
Proof.
  induction effs as [|e effs IH]; intros k w HI HF; cbn; [exact HI|].
  inversion HF as [|? ? He HF']; subst.
  destruct e as [i t evs | c1 cv av evs | el req code | ].
  - destruct k; [exact HI|]. apply IH; [|exact HF']. exact HI.
  - destruct k; [exact HI|]. apply IH; [|exact HF']. eexists; split; [reflexivity|]. cbn. exact He.
  - apply IH; [|exact HF']. unfold apply_eff. destruct (code =? 0); exact HI.
  - exact HI.
Qed.

Theorem committed_ordinal_step : forall w l c c',
  w_cfg w = Some c -> w_cfg (step w l) = Some c' ->
  k_ordinal (c_cm c) <= k_ordinal (c_cm c') <= k_ordinal (c_cm c) + 1.
Proof.
  intros w l c c' Hc Hc'.
  assert (G : ord_between c (step w l)).
  { assert (B : ord_between c w) by (exists c; split; [exact Hc | lia]).
    unfold step. destruct (w_panicked w); [exact B|].
    destruct l; cbn; try exact B.
    - rewrite Hc. exact B.
    - destruct (get_tx w i); exact B.
    - apply ord_run_effs; [exact B | apply ord_rec_tx; exact Hc].
    - apply ord_run_effs; [exact B | apply ord_rec_cfg; exact Hc].
    - apply ord_run_effs; [exact B | apply ord_rec_master; exact Hc]. }
  destruct G as [c2 [E2 L2]]. rewrite E2 in Hc'. inversion Hc'; subst. exact L2.
Qed.
