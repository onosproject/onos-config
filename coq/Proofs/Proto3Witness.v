(* Refutation witnesses (vm_compute on the faithful model; each one is reproduced on the real reconcilers and
   stores, see corpus/c20.tsv) and a bounded exhaustive exploration of the model. *)
From Coq Require Import List NArith Bool Arith Lia.
From OC Require Import Model.Proto3 Spec.Tla3 Proofs.Proto3Proofs.
Import ListNotations.
Open Scope N_scope.

Definition pa : path := [1].          (* /a *)
Definition pab : path := [1; 2].      (* /a/b *)
Definition pd : path := [4].          (* /d *)
Definition leaf (p : path) (v idx : N) : path * pval := (p, {| pv_path := p; pv_val := v; pv_del := false; pv_idx := idx |}).
Definition tomb (p : path) (idx : N) : path * pval := (p, {| pv_path := p; pv_val := 0; pv_del := true; pv_idx := idx |}).
Definition o1 : oracle := {| o_verdict := VAccept; o_code := 0; o_last := None; o_master := 1; o_alloc := false |}.
Definition R (i : N) : label := LRecTx i 99 o1.
Definition healthy (init : vals) : list label :=
  [LCreateCfg init; LTarget true false; LRel 1 true true; LConn 1 true; LRecMaster 99 o1; LRecCfg 99 o1; LRecCfg 99 o1].
(* a change needs four reconciles: commit PENDING -> IN_PROGRESS -> COMPLETE, apply PENDING -> IN_PROGRESS -> COMPLETE *)
Definition full (i : N) : list label := [R i; R i; R i; R i].

Definition o_dev_refuse : oracle := {| o_verdict := VAccept; o_code := 3; o_last := None; o_master := 1; o_alloc := false |}.

(* F-20a: the first accepted change of a configuration created without values panics (nil map) *)
Definition ls_nil : list label := healthy [] ++ [LAppend [leaf pa 1 1]; R 1; R 1].
Lemma nil_values_panic : w_panicked (run ls_nil) = true.
Proof. vm_compute. reflexivity. Qed.

(* F-20b: a change to a path that had an initial value at Create: committed, but Committed.Values (as read) still shows
   the created value *)
Definition ls_alias : list label := healthy [leaf pa 0 0] ++ [LAppend [leaf pa 1 1]] ++ full 1.
Lemma alias_refutes_committed : consistency_committed_ok (run ls_alias) = false.
Proof. vm_compute. reflexivity. Qed.
Lemma alias_history_is_ordered : order_ok (w_hist (run ls_alias)) = true.
Proof. vm_compute. reflexivity. Qed.

(* F-20c: the rollback values of change 2 are read through the shadowed view; after 1 and 2 are applied and 2 is rolled
   back, the applied configuration holds the created value, not 1's *)
Definition ls_alias_rb : list label :=
  healthy [leaf pa 0 0] ++ [LAppend [leaf pa 1 1]; R 1; R 1; LAppend [leaf pa 2 2]; R 2; R 2; R 1; R 1; R 2; R 2;
                            LRollback 2; R 2; R 2; R 2; R 2].
Lemma alias_rollback_refutes_applied : consistency_applied_ok (run ls_alias_rb) = false.
Proof. vm_compute. reflexivity. Qed.

(* F-20d: the store's loop variable: the entry written for /a/b holds the value of /d *)
Definition pac : path := [1; 3].      (* /a/c *)
Definition o_lv : oracle := {| o_verdict := VAccept; o_code := 0; o_last := Some (snd (leaf pac 1 1)); o_master := 1; o_alloc := false |}.
Definition ls_loopvar : list label :=
  healthy [leaf pd 0 0] ++ [LAppend [leaf pab 1 1; leaf pac 1 1]; R 1; R 1; R 1; LRecTx 1 99 o_lv].
Lemma loop_variable_refutes_applied : consistency_applied_ok (run ls_loopvar) = false.
Proof. vm_compute. reflexivity. Qed.

(* F-20e: after a completed rollback nothing is ever committed again: transaction 2 is PENDING and no reconcile of
   any transaction, under any oracle, has an effect *)
Definition ls_wedge : list label :=
  healthy [leaf pd 0 0] ++ [LAppend [leaf pa 1 1]] ++ full 1 ++ [LRollback 1] ++ full 1 ++ [LAppend [leaf pa 2 2]].
Lemma wedge_not_terminal : all_terminal (run ls_wedge) = false.
Proof. vm_compute. reflexivity. Qed.
Lemma wedge_tx1_done : forall o, fst (rec_tx o (run ls_wedge) 1) = [].
Proof. intros o. vm_compute. reflexivity. Qed.
Lemma wedge_tx2_stuck : forall o, fst (rec_tx o (run ls_wedge) 2) = [].
Proof. intros o. vm_compute. reflexivity. Qed.
Lemma wedge_no_other_tx : forall o i, 2 < i -> fst (rec_tx o (run ls_wedge) i) = [].
Proof.
  intros o i Hi. unfold rec_tx.
  replace (get_tx (run ls_wedge) i) with (@None txn); [reflexivity|].
  unfold get_tx. destruct (i =? 0) eqn:E; [reflexivity|].
  symmetry. apply nth_error_None.
  replace (w_txs (run ls_wedge)) with (w_txs (run ls_wedge)) by reflexivity.
  assert (L : length (w_txs (run ls_wedge)) = 2%nat) by (vm_compute; reflexivity).
  rewrite L. lia.
Qed.

(* F-20f: change 1 committed and applied, change 2 rejected by the model plugin, rollback of 1 requested: stuck *)
Definition o_rej : oracle := {| o_verdict := VReject; o_code := 0; o_last := None; o_master := 1; o_alloc := false |}.
Definition ls_behind : list label :=
  healthy [leaf pd 0 0] ++ [LAppend [leaf pa 1 1]] ++ full 1 ++ [LAppend [leaf pa 2 2]; R 2; LRecTx 2 99 o_rej; LRollback 1].
Lemma behind_failed_stuck : forall o, fst (rec_tx o (run ls_behind) 1) = [] /\ fst (rec_tx o (run ls_behind) 2) = [].
Proof. intros o. split; vm_compute; reflexivity. Qed.
Lemma behind_failed_not_terminal : all_terminal (run ls_behind) = false.
Proof. vm_compute. reflexivity. Qed.

(* F-20h: a leaf re-created below an applied tomb-stone is not stored *)
Definition ls_tomb : list label :=
  healthy [leaf pab 0 0] ++ [LAppend [tomb pa 1]] ++ full 1 ++ [LAppend [leaf pab 2 2]] ++ full 2.
Lemma tombstone_refutes_applied : consistency_applied_ok (run ls_tomb) = false.
Proof. vm_compute. reflexivity. Qed.

(* F-20g: the device refuses change 1 (/a/b); change 2 (/d) is aborted; rolling 2 back sets Applied.Revision to 1 although
   change 1 never reached the applied values or the device *)
Definition ls_unapplied : list label :=
  healthy [leaf pd 0 0] ++ [LAppend [leaf pab 1 1]; R 1; R 1; R 1; LRecTx 1 99 o_dev_refuse;
                            LAppend [leaf [26] 2 2]; R 2; R 2; R 2; LRollback 2; R 2; R 2; R 2; R 2].
Lemma unapplied_refutes_applied : consistency_applied_ok (run ls_unapplied) = false.
Proof. vm_compute. reflexivity. Qed.

(* a non-trivial history inside every guard: two changes to different values of a path applied one after the other,
   with a crash between the configuration and the transaction write of every step, satisfies everything *)
Definition Rk (i : N) : list label := [LRecTx i 1 o1; R i].
Definition ls_good : list label :=
  healthy [leaf pd 0 0] ++ [LAppend [leaf pa 1 1]] ++ Rk 1 ++ Rk 1 ++ Rk 1 ++ Rk 1 ++ [LAppend [leaf pa 2 2]] ++ Rk 2 ++ Rk 2 ++ Rk 2 ++ Rk 2.
Lemma good_history : let w := run ls_good in
  safety_ok w && failed_blocks_later_ok w && all_terminal w && negb (w_panicked w) = true.
Proof. vm_compute. reflexivity. Qed.

(* ------------------------------------------------------------------------------------------------
   bounded exhaustive exploration (what TLC does for spec/Config.tla, on the transcription of the code):
   from a healthy single-path configuration, EVERY sequence of up to `depth` labels drawn from
   append / rollback of the committed revision / reconcile of transaction 1..2 (complete, stopped after the first
   store write, plugin rejects, device refuses) keeps Order, commit-before-apply, the blocking rule and both sides
   of Consistency, without a panic. *)
Definition o_dev : oracle := {| o_verdict := VAccept; o_code := 3; o_last := None; o_master := 1; o_alloc := false |}.
Definition alphabet (w : world) : list label :=
  let n := N.of_nat (length (w_txs w)) in
  (if n <? 2 then [LAppend [leaf pa (n + 1) (n + 1)]] else []) ++
  (match w_cfg w with
   | Some c => match get_tx w (k_revision (c_cm c)) with
               | Some t => if negb (t_rb t) && st_eqb (t_cc t) Complete then [LRollback (k_revision (c_cm c))] else []
               | None => []
               end
   | None => []
   end) ++
  flat_map (fun i => if i <=? n then [R i; LRecTx i 1 o1; LRecTx i 99 o_rej; LRecTx i 99 o_dev] else []) [1; 2].

Definition node_ok (w : world) : bool :=
  safety_ok w && failed_blocks_later_ok w &&
  negb (w_panicked w).

Fixpoint explore (depth : nat) (w : world) : bool :=
  node_ok w &&
  match depth with
  | O => true
  | S d => forallb (fun l => explore d (step w l)) (alphabet w)
  end.

Definition w_healthy : world := run (healthy [leaf pd 0 0]).

Lemma bounded_exploration : explore 7 w_healthy = true.
Proof. vm_compute. reflexivity. Qed.
