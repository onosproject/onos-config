(* tree.PrunePathMap(values, true) keeps every entry that has no tombstone among its boundary ancestors. *)
From Coq Require Import List NArith Bool Permutation.
From OC Require Import Base.Bytes Model.Merge Proofs.MergeProofs Proofs.TextPathProofs.
Import ListNotations.
Open Scope N_scope.

Definition kept (p : str) (values : cfgmap) : bool := map_has p (prune_path_map values true).

Lemma fold_set_has l : forall acc p,
  map_has p (fold_left (fun acc pv => map_set (pv_path pv) pv acc) l acc)
  = map_has p acc || existsb (fun pv => eqb_str p (pv_path pv)) l.
Proof.
  induction l as [|x l IH]; intros acc p; cbn [fold_left existsb]; [rewrite orb_false_r; reflexivity|].
  rewrite IH. unfold map_has. rewrite map_get_set.
  destruct (eqb_str p (pv_path x)); cbn; [rewrite orb_true_r; reflexivity|].
  reflexivity.
Qed.

Lemma mem_str_in s l : mem_str s l = true <-> In s l.
Proof.
  unfold mem_str. rewrite existsb_exists. split.
  - intros [x [HI E]]. apply eqb_str_eq in E. subst. exact HI.
  - intros HI. exists s. split; [exact HI | apply eqb_str_refl].
Qed.

(* a tombstone key of the map *)
Definition tomb (values : cfgmap) (t : str) : Prop := exists e, In (t, e) values /\ pv_deleted e = true.

Lemma dels_tomb values t : keys_ok values ->
  (In t (map pv_path (filter pv_deleted (isort pv_leb (map snd values)))) <-> tomb values t).
Proof.
  intros KO. rewrite in_map_iff. split.
  - intros [e [<- HI]]. apply filter_In in HI. destruct HI as [HI De]. apply isort_in, in_map_iff in HI.
    destruct HI as [[k e'] [E HI]]. cbn in E. subst e'. exists e. split; [|exact De]. rewrite <- (KO _ _ HI). exact HI.
  - intros [e [HI De]]. exists e. split; [symmetry; exact (KO _ _ HI)|]. apply filter_In. split; [|exact De].
    apply isort_in, in_map_iff. exists (t, e). auto.
Qed.

Lemma is_below_deleted_elim values p :
  keys_ok values -> (forall t, tomb values t -> proper t) ->
  is_below_deleted p (map pv_path (filter pv_deleted (isort pv_leb (map snd values)))) = true ->
  exists t, tomb values t /\ In t (boundary_ancestors p).
Proof.
  intros KO PR H. pose proof (fun a => proj1 (dels_tomb values a KO)) as HD.
  unfold is_below_deleted in H. destruct (map pv_path _) as [|d0 D'] eqn:ED; [discriminate|]. rewrite <- ED in *.
  apply orb_true_iff in H. destruct H as [H|H].
  - exfalso. apply andb_true_iff in H. destruct H as [_ H]. apply orb_true_iff in H.
    destruct H as [H|H]; apply mem_str_in in H; apply HD in H; apply PR in H; destruct H as [H1 H2]; congruence.
  - destruct p as [|c0 rest]; [discriminate|].
    apply existsb_exists in H. destruct H as [a [HI HM]]. apply mem_str_in in HM.
    exists a. split; [apply HD; exact HM|]. unfold boundary_ancestors. rewrite <- in_rev. exact HI.
Qed.

Lemma is_below_deleted_intro values p t :
  keys_ok values -> tomb values t -> In t (boundary_ancestors p) ->
  is_below_deleted p (map pv_path (filter pv_deleted (isort pv_leb (map snd values)))) = true.
Proof.
  intros KO HT HA. apply (dels_tomb values t KO) in HT.
  unfold is_below_deleted. destruct (map pv_path _) as [|d0 D'] eqn:ED; [destruct HT|]. rewrite <- ED in *.
  apply orb_true_iff. right. destruct p as [|c0 rest]; [destruct HA|].
  apply existsb_exists. exists t. split; [unfold boundary_ancestors in HA; rewrite <- in_rev in HA; exact HA|].
  apply mem_str_in. exact HT.
Qed.

Lemma kept_intro values p pv :
  keys_ok values -> (forall t, tomb values t -> proper t) ->
  In (p, pv) values ->
  (forall t, tomb values t -> ~ In t (boundary_ancestors p)) ->
  kept p values = true.
Proof.
  intros KO PR HI HN. unfold kept, prune_path_map. rewrite fold_set_has. cbn [map_has map_get orb].
  apply existsb_exists. exists pv. split; [|rewrite (KO _ _ HI); apply eqb_str_refl].
  unfold prune_path_values. apply filter_In. split.
  - apply (Permutation_in _ (isort_perm pv_leb (map snd values))). apply in_map_iff. exists (p, pv). auto.
  - rewrite orb_true_r, andb_true_r. apply negb_true_iff.
    destruct (is_below_deleted (pv_path pv) _) eqn:E; [|reflexivity]. exfalso.
    destruct (is_below_deleted_elim values (pv_path pv) KO PR E) as [t [Ht HA]].
    rewrite <- (KO _ _ HI) in HA. exact (HN t Ht HA).
Qed.

Lemma kept_elim values p t :
  keys_ok values -> kept p values = true -> tomb values t -> ~ In t (boundary_ancestors p).
Proof.
  intros KO K HT HA. unfold kept, prune_path_map in K. rewrite fold_set_has in K. cbn [map_has map_get orb] in K.
  apply existsb_exists in K. destruct K as [pv [HI E]]. apply eqb_str_eq in E. subst p.
  unfold prune_path_values in HI. apply filter_In in HI. destruct HI as [_ H].
  apply andb_true_iff in H. destruct H as [H _]. apply negb_true_iff in H.
  rewrite (is_below_deleted_intro values (pv_path pv) t KO HT HA) in H. discriminate.
Qed.
