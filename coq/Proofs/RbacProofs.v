(* (C14) Proofs about Model/Rbac.v: who may change configuration, and what a list request shows. *)
From Coq Require Import List NArith Bool.
From OC Require Import Base.Bytes Model.Rbac.
Import ListNotations.
Open Scope N_scope.

(* the property's wording: "at least one of the caller's groups is exactly one of the configured
   administrator groups" - groups are the ';'-separated non-empty pieces of the groups claim,
   administrator groups the ','-separated pieces of ADMINGROUPS *)
Definition caller_groups (groups : str) : list str := split_on c_semi groups.
Definition admin_groups (admin : str) : list str := split_on c_comma admin.

Definition permitted (admin groups : str) : Prop :=
  exists g, In g (caller_groups groups) /\ g <> [] /\ In g (admin_groups admin).

Lemma nonempty_true s : nonempty s = true <-> s <> [].
Proof. unfold nonempty. rewrite negb_true_iff. apply eqb_str_neq. Qed.

Lemma temporary_evaluate_spec admin groups :
  temporary_evaluate admin groups = true <-> permitted admin groups.
Proof.
  unfold temporary_evaluate, permitted, caller_groups, admin_groups.
  rewrite existsb_exists. split.
  - intros [g [Hin Hg]]. apply andb_true_iff in Hg as [Hne Hex].
    apply existsb_exists in Hex as [ag [Hag Heq]]. apply eqb_str_eq in Heq; subst ag.
    exists g. split; [exact Hin|]. split; [apply nonempty_true; exact Hne | exact Hag].
  - intros [g [Hin [Hne Hag]]]. exists g. split; [exact Hin|].
    apply andb_true_iff. split; [apply nonempty_true; exact Hne|].
    apply existsb_exists. exists g. split; [exact Hag | apply eqb_str_refl].
Qed.

(* a request with identity metadata passes the gate iff permitted *)
Lemma set_gate_identity admin m :
  has_identity m = true -> (set_gate admin m = true <-> permitted admin (md_groups m)).
Proof. unfold set_gate. intros ->. apply temporary_evaluate_spec. Qed.

(* callers with no groups are refused *)
Lemma no_groups_refused admin m :
  has_identity m = true -> md_groups m = [] -> set_gate admin m = false.
Proof.
  intros Hid Hg. unfold set_gate. rewrite Hid, Hg. reflexivity.
Qed.

(* the empty group never matches, whatever ADMINGROUPS is (even empty / unset) *)
Lemma only_empty_groups_refused admin groups :
  Forall (fun g => g = []) (caller_groups groups) -> temporary_evaluate admin groups = false.
Proof.
  intros H. apply not_true_iff_false. intros E.
  apply temporary_evaluate_spec in E as [g [Hin [Hne _]]].
  rewrite Forall_forall in H. elim Hne. apply H. exact Hin.
Qed.

(* groups that merely resemble an administrator group are refused: if no caller group
   equals an administrator group, nothing passes - substrings and superstrings included *)
Lemma resemblance_refused admin groups :
  (forall g, In g (caller_groups groups) -> ~ In g (admin_groups admin)) ->
  temporary_evaluate admin groups = false.
Proof.
  intros H. apply not_true_iff_false. intros E.
  apply temporary_evaluate_spec in E as [g [Hin [_ Hag]]]. exact (H g Hin Hag).
Qed.

(* listing: exactly the targets named by one of the caller's groups, or all for the ROC admin *)
Lemma report_targets_spec oidc override groups targets t :
  In t (report_targets oidc override groups targets) <->
  In t targets /\ (oidc = true -> In t groups \/ In (roc_group override) groups).
Proof.
  unfold report_targets. destruct oidc.
  - rewrite filter_In. split.
    + intros [Ht Hex]. split; [exact Ht|]. intros _.
      apply existsb_exists in Hex as [g [Hg Hor]]. apply orb_true_iff in Hor as [E|E];
        apply eqb_str_eq in E; subst; auto.
    + intros [Ht H]. split; [exact Ht|]. apply existsb_exists.
      destruct (H eq_refl) as [Hin|Hin].
      * exists t. split; [exact Hin|]. rewrite eqb_str_refl. reflexivity.
      * exists (roc_group override). split; [exact Hin|]. rewrite eqb_str_refl. apply orb_true_r.
  - split; [intros H; split; [exact H | discriminate] | intros [H _]; exact H].
Qed.

Lemma report_targets_order oidc override groups targets :
  exists keep, report_targets oidc override groups targets = filter keep targets.
Proof.
  unfold report_targets. destruct oidc; [eexists; reflexivity|].
  exists (fun _ => true). induction targets as [|t ts IH]; cbn; [reflexivity | f_equal; exact IH].
Qed.

(* non-vacuity: concrete requests meet the hypotheses on both sides *)
Example ex_admin : set_gate (B "AetherROCAdmin,EnterpriseAdmin")
                     {| md_name := B "alice"; md_pref := []; md_groups := B "users;EnterpriseAdmin" |} = true.
Proof. vm_compute. reflexivity. Qed.
Example ex_substring : set_gate (B "AetherROCAdmin,EnterpriseAdmin")
                     {| md_name := B "bob"; md_pref := []; md_groups := B "Admin;ROC;AetherROCAdmin2" |} = false.
Proof. vm_compute. reflexivity. Qed.
Example ex_nogroups : set_gate (B "AetherROCAdmin,EnterpriseAdmin")
                     {| md_name := B "bob"; md_pref := []; md_groups := [] |} = false.
Proof. vm_compute. reflexivity. Qed.
Example ex_anonymous : set_gate (B "AetherROCAdmin") {| md_name := []; md_pref := []; md_groups := [] |} = true.
Proof. vm_compute. reflexivity. Qed.
Example ex_list : report_targets true [] [B "t2"; B "x"] [B "t1"; B "t2"; B "t3"] = [B "t2"].
Proof. vm_compute. reflexivity. Qed.
