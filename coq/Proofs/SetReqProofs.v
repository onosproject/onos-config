(* Proofs about Model/SetReq.v: what an accepted gNMI Set has checked, and what it logs. *)
From Coq Require Import List NArith ZArith Bool Lia.
From OC Require Import Base.Bytes Model.PathModel Model.SetReq.
Import ListNotations.
Open Scope N_scope.

Lemma bind_ok {A B} (x : outcome A) (f : A -> outcome B) b :
  bind x f = Ok b -> exists a, x = Ok a /\ f a = Ok b.
Proof. destruct x as [a| |]; cbn; intros H; try discriminate. exists a; auto. Qed.

Lemma eqb_str_false_neq a b : eqb_str a b = false -> a <> b.
Proof. apply eqb_str_neq. Qed.

Lemma aget_aset {V} (m : list (str * V)) k v k2 :
  aget (aset m k v) k2 = if eqb_str k k2 then Some v else aget m k2.
Proof.
  induction m as [|[k' v'] m IH]; cbn; [reflexivity|].
  destruct (eqb_str k' k) eqn:E; cbn.
  - apply eqb_str_eq in E. subst k'. destruct (eqb_str k k2); reflexivity.
  - rewrite IH. destruct (eqb_str k' k2) eqn:E2; [|reflexivity].
    apply eqb_str_eq in E2. subst k'. rewrite eqb_str_sym, E. reflexivity.
Qed.

Lemma aset_length {V} (m : list (str * V)) k v : (List.length (aset m k v) <= S (List.length m))%nat.
Proof.
  induction m as [|[k' v'] m IH]; cbn; [lia|].
  destruct (eqb_str k' k); cbn; lia.
Qed.

(* a map after one assignment per key of rs, the value being a function of the key *)
Lemma fold_aset_keys {V} (f : str -> V) rs : forall m p,
  aget (fold_left (fun m p => aset m p (f p)) rs m) p =
  if existsb (eqb_str p) rs then Some (f p) else aget m p.
Proof.
  induction rs as [|r rs IH]; intros m p; cbn; [reflexivity|].
  rewrite IH, aget_aset, (eqb_str_sym p r).
  destruct (eqb_str r p) eqn:E; [|reflexivity].
  apply eqb_str_eq in E. subst r. destruct (existsb (eqb_str p) rs); reflexivity.
Qed.

Lemma fold_aset_keys_length {V} (f : str -> V) rs : forall m,
  (List.length (fold_left (fun m p => aset m p (f p)) rs m) <= List.length m + List.length rs)%nat.
Proof.
  induction rs as [|r rs IH]; intros m; cbn; [lia|].
  specialize (IH (aset m r (f r))). pose proof (aset_length m r (f r)). lia.
Qed.

Lemma json_or_not (v : gval) : (exists doc, v = VJson doc) \/ (forall doc, v <> VJson doc).
Proof. destruct v; try (right; discriminate). left. eexists. reflexivity. Qed.

Lemma run_ops_app cfg orc prefix s l1 l2 :
  run_ops cfg orc prefix s (l1 ++ l2) = bind (run_ops cfg orc prefix s l1) (fun s' => run_ops cfg orc prefix s' l2).
Proof.
  revert s; induction l1 as [|o l1 IH]; intros s; cbn; [reflexivity|].
  destruct (step_op cfg orc prefix s o) as [s'| |]; cbn; [apply IH | reflexivity | reflexivity].
Qed.

Definition ops_of (req : request) : list rop :=
  map RDel (r_delete req) ++ map RUpd (r_replace req) ++ map RUpd (r_update req).

(* the effective target of an operation: the prefix target when there is one *)
Definition etgt (prefix : gpath) (o : rop) : str := effective_target (rop_target o) (p_target prefix).

Lemma prefix_target_overrides prefix o : p_target prefix <> [] -> etgt prefix o = p_target prefix.
Proof. unfold etgt, effective_target. destruct (p_target prefix); [contradiction | reflexivity]. Qed.

Lemma no_prefix_target prefix o : p_target prefix = [] -> etgt prefix o = rop_target o.
Proof. unfold etgt, effective_target. intros ->. reflexivity. Qed.

Lemma effective_path_with_prefix prefix p :
  str_path prefix <> [c_slash] -> effective_path prefix p = str_path prefix ++ str_path p.
Proof.
  unfold effective_path. intros NE. destruct (eqb_str (str_path prefix) [c_slash]) eqn:E; [|reflexivity].
  apply eqb_str_eq in E. contradiction.
Qed.

Lemma effective_path_without_prefix prefix p :
  str_path prefix = [c_slash] -> effective_path prefix p = str_path p.
Proof. unfold effective_path. intros ->. reflexivity. Qed.

Section Spec.
  Context (cfg : server_cfg) (orc : pv_oracle) (prefix : gpath) (over0 : list (str * (str * str))).

  (* target resolution as documented: the topo entity must exist and be Configurable; its type/version come
     from the request's overrides when it names the target, else from the aspect; the model plugin of that
     type/version must be registered *)
  Definition resolve_target (id : str) : outcome plugin :=
    match topo_get (sc_topo cfg) id with
    | None => Err CNotFound
    | Some e =>
      match te_cfg e with
      | None => Err CInternal
      | Some cv =>
        let tv := match aget over0 id with Some tv => tv | None => cv end in
        match get_plugin (sc_plugins cfg) (fst tv) (snd tv) with
        | None => Err CNotFound
        | Some pl => Ok pl
        end
      end
    end.

  (* where a delete lands: the effective path, or the list entry when a key leaf of it is named *)
  Definition del_landing (pl : plugin) (p : gpath) : outcome str := delete_landing (pl_rw pl) prefix p.

  (* what a single (non-JSON) update must satisfy *)
  Definition upd_checked (pl : plugin) (u : update) : outcome (str * tval) :=
    let path := effective_path prefix (u_path u) in
    match find_path_from_model path (pl_rw pl) true with
    | FoundExact e =>
      match to_native (u_val u) with
      | None => Err CInternal
      | Some tv => if check_key_value path e (tv_str tv) then Ok (path, tv) else Err CInvalid
      end
    | NotInModel => Err CInvalid
    | _ => Err CInternal
    end.

  Inductive fop := FDel (p : str) | FUpd (p : str) (v : tval).

  (* the flat operations one request operation stands for *)
  Definition flat_op (pl : plugin) (o : rop) : outcome (list fop) :=
    match o with
    | RDel p => bind (del_landing pl p) (fun q => Ok [FDel q])
    | RUpd u =>
      match u_val u with
      | VJson doc =>
        match orc pl (json_base_path (effective_path prefix (u_path u))) doc with
        | None => Err CInternal
        | Some pvs => Ok (map (fun pv => FUpd (fst pv) (snd pv)) pvs)
        end
      | _ => bind (upd_checked pl u) (fun pv => Ok [FUpd (fst pv) (snd pv)])
      end
    end.

  (* the operation passes: its target resolves and its path/value pass the model checks *)
  Definition op_passes (o : rop) : Prop :=
    exists pl fl, resolve_target (etgt prefix o) = Ok pl /\ flat_op pl o = Ok fl.

  (* flat operations addressed to target id, in request order *)
  Definition flat_for (id : str) (l : list rop) : list fop :=
    flat_map (fun o => if eqb_str (etgt prefix o) id
                       then match resolve_target id with
                            | Ok pl => match flat_op pl o with Ok fl => fl | _ => [] end
                            | _ => []
                            end
                       else []) l.

  Definition dels_of (l : list fop) : list str :=
    flat_map (fun f => match f with FDel p => [p] | _ => [] end) l.

  Definition last_upd (l : list fop) (p : str) : option tval :=
    fold_left (fun acc f => match f with FUpd q v => if eqb_str q p then Some v else acc | _ => acc end) l None.

  (* last-writer rules of one request: a delete of the path wins over every update of that path (wherever
     it stands in the request); among updates (replace list first, then update list) the last one wins *)
  Definition last_writer (l : list fop) (p : str) : option change :=
    if existsb (eqb_str p) (dels_of l) then Some (if is_path_valid p then CDel else CNil)
    else option_map CUpd (last_upd l p).

  (* the overrides as getTargetInfo has extended them choose the same type/version as the request's own *)
  Definition over_inv (over : list (str * (str * str))) : Prop :=
    forall id e cv, topo_get (sc_topo cfg) id = Some e -> te_cfg e = Some cv ->
      match aget over id with Some tv => tv | None => cv end = match aget over0 id with Some tv => tv | None => cv end.

  (* the info kept for target id after the operations h *)
  Definition info_ok (h : list rop) (id : str) (ti : tinfo) : Prop :=
    resolve_target id = Ok (ti_plugin ti) /\
    ti_removes ti = dels_of (flat_for id h) /\
    (forall p, aget (ti_updates ti) p = last_upd (flat_for id h) p).

  Definition inv (h : list rop) (s : rstate) : Prop :=
    over_inv (s_over s) /\
    (forall id, aget (s_targets s) id = None <-> (forall o, In o h -> etgt prefix o <> id)) /\
    (forall id ti, aget (s_targets s) id = Some ti -> info_ok h id ti) /\
    (forall o, In o h -> op_passes o).

  Lemma flat_for_app id h l : flat_for id (h ++ l) = flat_for id h ++ flat_for id l.
  Proof. unfold flat_for. apply flat_map_app. Qed.

  Lemma flat_for_other id h o : etgt prefix o <> id -> flat_for id (h ++ [o]) = flat_for id h.
  Proof.
    intros NE. apply eqb_str_neq in NE. rewrite flat_for_app. cbn. rewrite NE. cbn. rewrite app_nil_r. reflexivity.
  Qed.

  Lemma flat_for_same h o pl fl :
    resolve_target (etgt prefix o) = Ok pl -> flat_op pl o = Ok fl ->
    flat_for (etgt prefix o) (h ++ [o]) = flat_for (etgt prefix o) h ++ fl.
  Proof.
    intros R F. rewrite flat_for_app. cbn. rewrite eqb_str_refl, R, F, app_nil_r. reflexivity.
  Qed.

  Lemma flat_for_none id h : (forall o, In o h -> etgt prefix o <> id) -> flat_for id h = [].
  Proof.
    induction h as [|o h IH]; intros H; cbn; [reflexivity|].
    rewrite (proj2 (eqb_str_neq _ _) (H o (or_introl eq_refl))). cbn.
    apply IH. intros o' Ho'. apply H. right. exact Ho'.
  Qed.

  Lemma dels_of_app a b : dels_of (a ++ b) = dels_of a ++ dels_of b.
  Proof. unfold dels_of. apply flat_map_app. Qed.

  Lemma dels_of_upds pvs : dels_of (map (fun pv : str * tval => FUpd (fst pv) (snd pv)) pvs) = [].
  Proof. induction pvs as [|pv pvs IH]; cbn; [reflexivity | exact IH]. Qed.

  (* what one flat operation does to the update recorded for path p *)
  Definition upd_step (p : str) (acc : option tval) (f : fop) : option tval :=
    match f with FUpd q v => if eqb_str q p then Some v else acc | _ => acc end.

  Lemma last_upd_app a b p : last_upd (a ++ b) p = fold_left (upd_step p) b (last_upd a p).
  Proof. apply fold_left_app. Qed.

  Lemma fold_aset_upds pvs : forall (m : list (str * tval)) p,
    aget (fold_left (fun m pv => aset m (fst pv) (snd pv)) pvs m) p =
    fold_left (upd_step p) (map (fun pv : str * tval => FUpd (fst pv) (snd pv)) pvs) (aget m p).
  Proof.
    induction pvs as [|[q v] pvs IH]; intros m p; cbn; [reflexivity|].
    rewrite IH, aget_aset. reflexivity.
  Qed.

  (* getTargetInfo: a cached target is returned as it is; a new one is resolved as documented *)
  Lemma get_target_info_spec h s ot pt id s1 :
    inv h s -> get_target_info cfg s ot pt = Ok (id, s1) ->
    id = effective_target ot pt /\ over_inv (s_over s1) /\
    exists ti, aget (s_targets s1) id = Some ti /\ info_ok h id ti /\
               (forall id', id <> id' -> aget (s_targets s1) id' = aget (s_targets s) id').
  Proof.
    intros (OI & DOM & TI & _) G. unfold get_target_info in G.
    set (i := effective_target ot pt) in *.
    destruct (aget (s_targets s) i) as [ti|] eqn:Ecache.
    - injection G as <- <-. split; [reflexivity|]. split; [exact OI|].
      exists ti. split; [exact Ecache|]. split; [exact (TI i ti Ecache) | reflexivity].
    - destruct (topo_get (sc_topo cfg) i) as [e|] eqn:Et; [|discriminate].
      destruct (te_cfg e) as [[cty cver]|] eqn:Ec; [|discriminate].
      (* whichever way type and version are chosen, they are those of resolve_target *)
      assert (T : exists ty ver over',
                (ty, ver) = match aget over0 i with Some tv => tv | None => (cty, cver) end /\ over_inv over' /\
                match get_plugin (sc_plugins cfg) ty ver with
                | None => Err CNotFound
                | Some pl => Ok (i, mkSt (aset (s_targets s) i (mkTi pl [] [])) over')
                end = Ok (id, s1)).
      { pose proof (OI i e _ Et Ec) as Same.
        destruct (aget (s_over s) i) as [[oty over]|] eqn:Eo.
        - exists oty, over, (s_over s). auto.
        - exists cty, cver, (aset (s_over s) i (cty, cver)). split; [exact Same|]. split; [|exact G].
          intros id' e' cv' Et' Ec'. rewrite aget_aset. destruct (eqb_str i id') eqn:E; [|exact (OI _ _ _ Et' Ec')].
          apply eqb_str_eq in E. subst id'. rewrite Et in Et'. injection Et' as <-. rewrite Ec in Ec'. injection Ec' as <-.
          exact Same. }
      destruct T as (ty & ver & over' & Etv & OI' & G').
      destruct (get_plugin (sc_plugins cfg) ty ver) as [pl|] eqn:GP; [|discriminate].
      injection G' as <- <-. split; [reflexivity|]. split; [exact OI'|].
      exists (mkTi pl [] []). cbn. rewrite aget_aset, eqb_str_refl. split; [reflexivity|]. split.
      + unfold info_ok. rewrite (flat_for_none i h) by (apply DOM; exact Ecache). split; [|cbn; auto].
        unfold resolve_target. rewrite Et, Ec, <- Etv. cbn. rewrite GP. reflexivity.
      + intros id' NE. apply eqb_str_neq in NE. rewrite aget_aset, NE. reflexivity.
  Qed.

  (* an update whose value is not JSON is checked by upd_checked and stands for the one flat update it yields *)
  Lemma flat_op_scalar pl u :
    (forall doc, u_val u <> VJson doc) ->
    flat_op pl (RUpd u) = bind (upd_checked pl u) (fun pv => Ok [FUpd (fst pv) (snd pv)]).
  Proof. unfold flat_op. destruct (u_val u) as [| | | | |doc|]; intros NJ; [..|destruct (NJ doc eq_refl)|]; reflexivity. Qed.

  Lemma do_update_scalar u ti :
    (forall doc, u_val u <> VJson doc) ->
    do_update orc prefix u ti =
    bind (upd_checked (ti_plugin ti) u)
         (fun pv => Ok (mkTi (ti_plugin ti) (aset (ti_updates ti) (fst pv) (snd pv)) (ti_removes ti))).
  Proof.
    unfold do_update, upd_checked. destruct (u_val u) as [| | | | |doc|]; intros NJ.
    6: destruct (NJ doc eq_refl).
    all: destruct (find_path_from_model _ _ true); try reflexivity.
    all: cbn [to_native]; destruct (check_key_value _ _ _); reflexivity.
  Qed.

  (* doDelete / doUpdateOrReplace against the per-operation specification *)
  Lemma do_op_spec o ti ti' :
    match o with RDel p => do_delete prefix p ti | RUpd u => do_update orc prefix u ti end = Ok ti' ->
    exists fl, flat_op (ti_plugin ti) o = Ok fl /\ ti_plugin ti' = ti_plugin ti /\
               ti_removes ti' = ti_removes ti ++ dels_of fl /\
               forall p, aget (ti_updates ti') p = fold_left (upd_step p) fl (aget (ti_updates ti) p).
  Proof.
    destruct o as [p|u]; intros D.
    - unfold do_delete in D. apply bind_ok in D. destruct D as (q & L & [= <-]).
      exists [FDel q]. unfold flat_op, del_landing. rewrite L. repeat split.
    - destruct (json_or_not (u_val u)) as [[doc EV]|NJ].
      + unfold do_update in D. unfold flat_op. rewrite EV in *.
        destruct (orc (ti_plugin ti) _ doc) as [pvs|]; [|discriminate]. injection D as <-.
        eexists. split; [reflexivity|]. cbn. rewrite dels_of_upds, app_nil_r. repeat split.
        intros p. apply fold_aset_upds.
      + rewrite do_update_scalar in D by exact NJ. rewrite flat_op_scalar by exact NJ.
        apply bind_ok in D. destruct D as ([path tv] & C & [= <-]). rewrite C.
        exists [FUpd path tv]. cbn. rewrite app_nil_r. repeat split.
        intros p. rewrite aget_aset. reflexivity.
  Qed.

  Lemma step_inv h s o s' : inv h s -> step_op cfg orc prefix s o = Ok s' -> inv (h ++ [o]) s'.
  Proof.
    intros I S. unfold step_op in S.
    apply bind_ok in S. destruct S as ([id s1] & G & S).
    destruct (get_target_info_spec _ _ _ _ _ _ I G) as (Eid & OI1 & ti & Eti & (RT & HR & HU) & Others).
    destruct I as (_ & DOM & TI & ADM).
    rewrite Eti in S. apply bind_ok in S. destruct S as (ti' & D & [= <-]).
    fold (etgt prefix o) in Eid. subst id.
    destruct (do_op_spec _ _ _ D) as (fl & F & P' & R' & U').
    split; [exact OI1|]. cbn [s_targets]. split; [|split].
    - intros id. rewrite aget_aset. destruct (eqb_str (etgt prefix o) id) eqn:E.
      + apply eqb_str_eq in E. split; [discriminate|].
        intros N. exfalso. apply (N o); [apply in_or_app; right; left; reflexivity | exact E].
      + apply eqb_str_neq in E. rewrite (Others _ E), DOM. split; intros N o' Ho'.
        * apply in_app_or in Ho'. destruct Ho' as [Ho'|[<-|[]]]; [apply N; exact Ho' | exact E].
        * apply N. apply in_or_app. left. exact Ho'.
    - intros id ti0. rewrite aget_aset. unfold info_ok. destruct (eqb_str (etgt prefix o) id) eqn:E.
      + apply eqb_str_eq in E. subst id. intros [= <-]. split; [rewrite P'; exact RT|].
        rewrite (flat_for_same h o _ fl RT F). split.
        * rewrite dels_of_app, R', HR. reflexivity.
        * intros p. rewrite last_upd_app, U', HU. reflexivity.
      + apply eqb_str_neq in E. rewrite (Others _ E), (flat_for_other _ _ _ E). apply TI.
    - intros o' Ho'. apply in_app_or in Ho'. destruct Ho' as [Ho'|[<-|[]]]; [apply ADM; exact Ho'|].
      exists (ti_plugin ti), fl. auto.
  Qed.

  Lemma run_inv l : forall h s s', inv h s -> run_ops cfg orc prefix s l = Ok s' -> inv (h ++ l) s'.
  Proof.
    induction l as [|o l IH]; intros h s s' I R; cbn in R.
    - injection R as <-. rewrite app_nil_r. exact I.
    - apply bind_ok in R. destruct R as (s1 & S & R).
      replace (h ++ o :: l) with ((h ++ [o]) ++ l) by (rewrite <- app_assoc; reflexivity).
      eapply IH; [|exact R]. eapply step_inv; eauto.
  Qed.

  (* the loops start from no target and the request's overrides *)
  Corollary run_ops_inv l s : run_ops cfg orc prefix (mkSt [] over0) l = Ok s -> inv l s.
  Proof.
    apply (run_inv l []). repeat split; cbn; auto; try discriminate; try contradiction.
  Qed.

End Spec.

Lemma aget_map_upd (us : list (str * tval)) p :
  aget (map (fun pv => (fst pv, CUpd (snd pv))) us) p = option_map CUpd (aget us p).
Proof.
  induction us as [|[q v] us IH]; cbn; [reflexivity|].
  destruct (eqb_str q p); [reflexivity | exact IH].
Qed.

(* computeChange succeeds: a remove wins over the update of the same path, one change per path at most,
   and the repaired code has seen only valid remove paths *)
Lemma compute_change_ok strict ti ch :
  compute_change strict ti = Ok ch ->
  (forall p, aget ch p = if existsb (eqb_str p) (ti_removes ti) then Some (if is_path_valid p then CDel else CNil)
                         else option_map CUpd (aget (ti_updates ti) p)) /\
  (List.length ch <= List.length (ti_updates ti) + List.length (ti_removes ti))%nat /\
  (strict = true -> forallb is_path_valid (ti_removes ti) = true).
Proof.
  unfold compute_change. destruct (forallb _ (ti_updates ti)); [|discriminate].
  destruct (strict && _) eqn:S; [discriminate|]. intros [= <-]. split; [|split].
  - intros p. rewrite fold_aset_keys, aget_map_upd. reflexivity.
  - rewrite fold_aset_keys_length, map_length. reflexivity.
  - intros ->. apply negb_false_iff. exact S.
Qed.

Lemma compute_changes_spec strict ts : forall chs,
  compute_changes strict ts = Ok chs ->
  (forall id, aget chs id = None <-> aget ts id = None) /\
  (forall id ch, aget chs id = Some ch -> exists ti, aget ts id = Some ti /\ compute_change strict ti = Ok ch).
Proof.
  induction ts as [|[k ti] ts IH]; intros chs H; cbn in H.
  - injection H as <-. split; [intros id; split; reflexivity | discriminate].
  - apply bind_ok in H. destruct H as (ch & C & H). apply bind_ok in H. destruct H as (rest & R & [= <-]).
    destruct (IH rest R) as (N & S). split; intros id; cbn; destruct (eqb_str k id).
    + split; discriminate.
    + apply N.
    + intros ch0 [= <-]. exists ti. auto.
    + apply S.
Qed.

(* what CheckKeyValue has checked: every index value of the path obeys IndexAllowedChars, and a list-key leaf
   carries the value its own list entry gives that key *)
Lemma check_key_value_true path e v :
  check_key_value path e v = true ->
  (forall n w, In (n, w) (extract_index_names path) -> index_value_ok w = true) /\
  (extract_index_names path <> [] -> rw_is_key e = true ->
   exists n w, In (n, w) (extract_index_names (after_last_slash (get_parent_path path))) /\ n = rw_attr e /\ w = v).
Proof.
  unfold check_key_value. destruct (extract_index_names path) as [|nv l] eqn:EI.
  - intros _. split; [intros n w [] | intros NE; destruct (NE eq_refl)].
  - destruct (forallb _ (nv :: l)) eqn:FA; [|discriminate]. cbn [negb]. intros H. split.
    + intros n w IN. exact (proj1 (forallb_forall _ _) FA _ IN).
    + intros _ K. rewrite K in H. apply existsb_exists in H. destruct H as ([n w] & IN & EQ).
      apply andb_true_iff in EQ. destruct EQ as (E1 & E2). apply eqb_str_eq in E1. apply eqb_str_eq in E2.
      exists n, w. auto.
Qed.

(* the non-exact search accepts only the index-free text of a model path or of an ancestor of one by whole
   elements (fix 2e764cc; /sys/su is no ancestor of /sys/sub) *)
Lemma found_prefix_whole_elements path rw :
  find_path_from_model path rw false = FoundPrefix ->
  exists e, In e rw /\
    (remove_path_indices (rw_path e) = delete_search_key path \/
     exists r, remove_path_indices (rw_path e) = trim_slash (delete_search_key path) ++ [c_slash] ++ r).
Proof.
  unfold find_path_from_model. destruct (rw_lookup rw (anonymize_path_indices path)); [discriminate|].
  destruct (existsb _ rw) eqn:E; [|discriminate]. intros _.
  apply existsb_exists in E. destruct E as (e & IN & A). exists e. split; [exact IN|].
  unfold ancestor_or_self in A. apply orb_true_iff in A. destruct A as [A|A].
  - left. apply eqb_str_eq. exact A.
  - right. apply prefixb_spec in A. destruct A as (r & ->). exists r. rewrite <- app_assoc. reflexivity.
Qed.

Lemma set_resolve_ok strict cfg orc req t :
  set_resolve strict cfg orc req = Ok t ->
  exists over0 s,
    get_overrides (r_ext req) = Ok over0 /\
    (1 <= List.length (ops_of req))%nat /\
    inv cfg orc (r_prefix req) over0 (ops_of req) s /\
    limit_ok (sc_limit cfg) (s_targets s) = true /\
    compute_changes strict (s_targets s) = Ok (tx_changes t).
Proof.
  unfold set_resolve. intros H.
  apply bind_ok in H. destruct H as (over0 & O & H).
  apply bind_ok in H. destruct H as (_ & _ & H).
  destruct (Nat.ltb _ 1) eqn:N; [discriminate|]. apply PeanoNat.Nat.ltb_ge in N.
  apply bind_ok in H. destruct H as (s1 & R1 & H).
  apply bind_ok in H. destruct H as (s2 & R2 & H).
  apply bind_ok in H. destruct H as (s3 & R3 & H).
  destruct (limit_ok (sc_limit cfg) (s_targets s3)) eqn:L; [|discriminate].
  apply bind_ok in H. destruct H as (chs & C & [= <-]).
  exists over0, s3. split; [exact O|]. split; [|split; [|split; assumption]].
  - unfold ops_of. rewrite !app_length, !map_length. lia.
  - apply run_ops_inv. unfold ops_of. rewrite run_ops_app, R1. cbn. rewrite run_ops_app, R2. exact R3.
Qed.

(* (1) everything an accepted Set contains was checked: every operation's effective target resolves and every
   path/value passed the model checks, whatever the position of the operation in the request *)
Theorem accepted_all_checked strict cfg orc req t :
  set_resolve strict cfg orc req = Ok t ->
  exists over0, get_overrides (r_ext req) = Ok over0 /\
    forall o, In o (ops_of req) -> op_passes cfg orc (r_prefix req) over0 o.
Proof.
  intros H. destruct (set_resolve_ok _ _ _ _ _ H) as (over0 & s & O & _ & (_ & _ & _ & A) & _).
  exists over0. split; assumption.
Qed.

(* the same with the request's overrides already known *)
Lemma accepted_op_passes {strict cfg orc req t over0 o} :
  set_resolve strict cfg orc req = Ok t -> get_overrides (r_ext req) = Ok over0 -> In o (ops_of req) ->
  op_passes cfg orc (r_prefix req) over0 o.
Proof.
  intros H O I. destruct (accepted_all_checked _ _ _ _ _ H) as (ov & O' & A).
  rewrite O in O'. injection O' as <-. exact (A o I).
Qed.

(* ... and with the plugin of the operation's target known as well *)
Lemma accepted_op_flat {strict cfg orc req t over0 o pl} :
  set_resolve strict cfg orc req = Ok t -> get_overrides (r_ext req) = Ok over0 -> In o (ops_of req) ->
  resolve_target cfg over0 (etgt (r_prefix req) o) = Ok pl ->
  exists fl, flat_op orc (r_prefix req) pl o = Ok fl.
Proof.
  intros H O I R. destruct (accepted_op_passes H O I) as (pl' & fl & R' & F).
  rewrite R in R'. injection R' as <-. exists fl. exact F.
Qed.

(* an accepted update that is not JSON names a read-write path of its target's model, its value converts, and
   CheckKeyValue has passed *)
Lemma accepted_update_checked {strict cfg orc req t over0 u pl} :
  set_resolve strict cfg orc req = Ok t -> get_overrides (r_ext req) = Ok over0 -> In (RUpd u) (ops_of req) ->
  (forall d, u_val u <> VJson d) ->
  resolve_target cfg over0 (etgt (r_prefix req) (RUpd u)) = Ok pl ->
  exists e tv, rw_lookup (pl_rw pl) (anonymize_path_indices (effective_path (r_prefix req) (u_path u))) = Some e /\
               to_native (u_val u) = Some tv /\
               check_key_value (effective_path (r_prefix req) (u_path u)) e (tv_str tv) = true.
Proof.
  intros H O I NJ R. destruct (accepted_op_flat H O I R) as (fl & F).
  rewrite flat_op_scalar in F by exact NJ. apply bind_ok in F. destruct F as (pv & C & _).
  unfold upd_checked, find_path_from_model in C.
  destruct (rw_lookup _ _) as [e|]; [|discriminate]. destruct (to_native _) as [tv|]; [|discriminate].
  destruct (check_key_value _ e _) eqn:CK; [|discriminate]. exists e, tv. auto.
Qed.

(* every delete of an accepted Set names a model path of its target (list keys anonymised) or an ancestor of
   one by whole elements *)
Theorem accepted_delete_in_model strict cfg orc req t over0 p pl :
  set_resolve strict cfg orc req = Ok t -> get_overrides (r_ext req) = Ok over0 -> In (RDel p) (ops_of req) ->
  resolve_target cfg over0 (etgt (r_prefix req) (RDel p)) = Ok pl ->
  let path := effective_path (r_prefix req) p in
  (exists e, rw_lookup (pl_rw pl) (anonymize_path_indices path) = Some e) \/
  (exists e, In e (pl_rw pl) /\
     (remove_path_indices (rw_path e) = delete_search_key path \/
      exists r, remove_path_indices (rw_path e) = trim_slash (delete_search_key path) ++ [c_slash] ++ r)).
Proof.
  intros H O I R path. destruct (accepted_op_flat H O I R) as (fl & F).
  cbn in F. unfold del_landing, delete_landing in F. fold path in F.
  destruct (find_path_from_model path (pl_rw pl) false) as [e| | |] eqn:FP; try discriminate.
  - left. unfold find_path_from_model in FP. destruct (rw_lookup (pl_rw pl) (anonymize_path_indices path)) as [e'|]; [exists e'; reflexivity|].
    destruct (existsb _ _); discriminate.
  - right. apply found_prefix_whole_elements. exact FP.
Qed.

(* refusal causes, each stated for a request that may contain any number of other, valid operations *)

Corollary refused_unresolvable_target strict cfg orc req over0 o :
  get_overrides (r_ext req) = Ok over0 -> In o (ops_of req) ->
  (forall pl, resolve_target cfg over0 (etgt (r_prefix req) o) <> Ok pl) ->
  forall t, set_resolve strict cfg orc req <> Ok t.
Proof.
  intros O I N t H. destruct (accepted_op_passes H O I) as (pl & _ & R & _). exact (N pl R).
Qed.

Corollary refused_unknown_entity strict cfg orc req over0 o :
  get_overrides (r_ext req) = Ok over0 -> In o (ops_of req) ->
  topo_get (sc_topo cfg) (etgt (r_prefix req) o) = None ->
  forall t, set_resolve strict cfg orc req <> Ok t.
Proof.
  intros O I N. eapply refused_unresolvable_target; eauto.
  intros pl. unfold resolve_target. rewrite N. discriminate.
Qed.

Corollary refused_not_configurable strict cfg orc req over0 o e :
  get_overrides (r_ext req) = Ok over0 -> In o (ops_of req) ->
  topo_get (sc_topo cfg) (etgt (r_prefix req) o) = Some e -> te_cfg e = None ->
  forall t, set_resolve strict cfg orc req <> Ok t.
Proof.
  intros O I E N. eapply refused_unresolvable_target; eauto.
  intros pl. unfold resolve_target. rewrite E, N. discriminate.
Qed.

Corollary refused_unknown_model strict cfg orc req over0 o e cv :
  get_overrides (r_ext req) = Ok over0 -> In o (ops_of req) ->
  topo_get (sc_topo cfg) (etgt (r_prefix req) o) = Some e -> te_cfg e = Some cv ->
  (let tv := match aget over0 (etgt (r_prefix req) o) with Some tv => tv | None => cv end in
   get_plugin (sc_plugins cfg) (fst tv) (snd tv) = None) ->
  forall t, set_resolve strict cfg orc req <> Ok t.
Proof.
  intros O I E C N. eapply refused_unresolvable_target; eauto.
  intros pl. unfold resolve_target. rewrite E, C. cbn in N. rewrite N. discriminate.
Qed.

(* an update (not JSON) whose effective path, list keys anonymised, is not a read-write path of the target's model *)
Corollary refused_update_not_writable strict cfg orc req over0 u pl :
  get_overrides (r_ext req) = Ok over0 -> In (RUpd u) (ops_of req) ->
  (forall d, u_val u <> VJson d) ->
  resolve_target cfg over0 (etgt (r_prefix req) (RUpd u)) = Ok pl ->
  rw_lookup (pl_rw pl) (anonymize_path_indices (effective_path (r_prefix req) (u_path u))) = None ->
  forall t, set_resolve strict cfg orc req <> Ok t.
Proof.
  intros O I NJ R NW t H. destruct (accepted_update_checked H O I NJ R) as (e & _ & L & _).
  rewrite NW in L. discriminate.
Qed.

(* a delete whose effective path is neither a model path nor a leading part of one *)
Corollary refused_delete_not_in_model strict cfg orc req over0 p pl :
  get_overrides (r_ext req) = Ok over0 -> In (RDel p) (ops_of req) ->
  resolve_target cfg over0 (etgt (r_prefix req) (RDel p)) = Ok pl ->
  find_path_from_model (effective_path (r_prefix req) p) (pl_rw pl) false = NotInModel ->
  forall t, set_resolve strict cfg orc req <> Ok t.
Proof.
  intros O I R NW t H. destruct (accepted_op_flat H O I R) as (fl & F).
  cbn in F. unfold del_landing, delete_landing in F. rewrite NW in F. discriminate.
Qed.

(* a delete of a subtree (not an exact model path) with an index value outside [a-zA-Z0-9*._-] (fix a2a122e) *)
Corollary refused_delete_bad_index_value strict cfg orc req over0 p pl n v :
  get_overrides (r_ext req) = Ok over0 -> In (RDel p) (ops_of req) ->
  resolve_target cfg over0 (etgt (r_prefix req) (RDel p)) = Ok pl ->
  find_path_from_model (effective_path (r_prefix req) p) (pl_rw pl) false = FoundPrefix ->
  In (n, v) (extract_index_names (effective_path (r_prefix req) p)) -> index_value_ok v = false ->
  forall t, set_resolve strict cfg orc req <> Ok t.
Proof.
  intros O I R FP IN BAD t H. destruct (accepted_op_flat H O I R) as (fl & F).
  cbn in F. unfold del_landing, delete_landing in F. rewrite FP in F. cbn [bind] in F.
  destruct (forallb _ _) eqn:FA; [|discriminate].
  rewrite forallb_forall in FA. apply FA in IN. cbn in IN. congruence.
Qed.

(* a list-key leaf whose value is not the value of that key in the path of its own list entry *)
Corollary refused_key_contradiction strict cfg orc req over0 u pl e tv :
  get_overrides (r_ext req) = Ok over0 -> In (RUpd u) (ops_of req) ->
  resolve_target cfg over0 (etgt (r_prefix req) (RUpd u)) = Ok pl ->
  let path := effective_path (r_prefix req) (u_path u) in
  rw_lookup (pl_rw pl) (anonymize_path_indices path) = Some e -> rw_is_key e = true ->
  to_native (u_val u) = Some tv ->
  extract_index_names path <> [] ->
  (forall n v, In (n, v) (extract_index_names (after_last_slash (get_parent_path path))) -> n = rw_attr e -> v <> tv_str tv) ->
  forall t, set_resolve strict cfg orc req <> Ok t.
Proof.
  intros O I R path L K TN NE C t H.
  assert (NJ : forall d, u_val u <> VJson d) by (intros d EV; rewrite EV in TN; discriminate).
  destruct (accepted_update_checked H O I NJ R) as (e' & tv' & L' & TN' & CK). fold path in L', CK.
  rewrite L in L'. injection L' as <-. rewrite TN in TN'. injection TN' as <-.
  destruct (proj2 (check_key_value_true _ _ _ CK) NE K) as (n & v & IN & EN & EV).
  exact (C n v IN EN EV).
Qed.

(* an index value with a character outside [a-zA-Z0-9*._-] in the path of a (non-JSON) update *)
Corollary refused_bad_index_value strict cfg orc req over0 u pl n v :
  get_overrides (r_ext req) = Ok over0 -> In (RUpd u) (ops_of req) ->
  (forall d, u_val u <> VJson d) ->
  resolve_target cfg over0 (etgt (r_prefix req) (RUpd u)) = Ok pl ->
  In (n, v) (extract_index_names (effective_path (r_prefix req) (u_path u))) -> index_value_ok v = false ->
  forall t, set_resolve strict cfg orc req <> Ok t.
Proof.
  intros O I NJ R IN BAD t H. destruct (accepted_update_checked H O I NJ R) as (e & tv & _ & _ & CK).
  rewrite (proj1 (check_key_value_true _ _ _ CK) n v IN) in BAD. discriminate.
Qed.

Theorem refused_malformed_overrides strict cfg orc req ov :
  first_overrides (r_ext req) = Some (false, ov) -> set_resolve strict cfg orc req = Err CInvalid.
Proof. intros H. unfold set_resolve, get_overrides. rewrite H. reflexivity. Qed.

Theorem refused_malformed_strategy strict cfg orc req :
  first_strategy (r_ext req) = Some false -> forall t, set_resolve strict cfg orc req <> Ok t.
Proof.
  intros H t. unfold set_resolve. destruct (get_overrides (r_ext req)); cbn; try discriminate.
  unfold get_strategy. rewrite H. discriminate.
Qed.

Theorem refused_no_operations strict cfg orc req :
  r_delete req = [] -> r_replace req = [] -> r_update req = [] -> forall t, set_resolve strict cfg orc req <> Ok t.
Proof.
  intros D R U t H. destruct (set_resolve_ok _ _ _ _ _ H) as (_ & _ & _ & N & _).
  unfold ops_of in N. rewrite D, R, U in N. cbn in N. lia.
Qed.

(* (2) what is logged: exactly the named targets, and per target exactly the last-writer result of the
   flat operations addressed to it *)
Theorem lands_exactly strict cfg orc req t :
  set_resolve strict cfg orc req = Ok t ->
  exists over0, get_overrides (r_ext req) = Ok over0 /\
    (forall id, aget (tx_changes t) id = None <-> (forall o, In o (ops_of req) -> etgt (r_prefix req) o <> id)) /\
    (forall id ch, aget (tx_changes t) id = Some ch ->
       forall p, aget ch p = last_writer (flat_for cfg orc (r_prefix req) over0 id (ops_of req)) p).
Proof.
  intros H. destruct (set_resolve_ok _ _ _ _ _ H) as (over0 & s & O & _ & (_ & DOM & TI & _) & _ & C).
  exists over0. split; [exact O|].
  destruct (compute_changes_spec _ _ _ C) as (N & S). split.
  - intros id. rewrite N. apply DOM.
  - intros id ch G p. destruct (S id ch G) as (ti & Eti & CC).
    destruct (TI id ti Eti) as (_ & HR & HU).
    rewrite (proj1 (compute_change_ok _ _ _ CC) p). unfold last_writer. rewrite <- HR, <- HU. reflexivity.
Qed.

(* a logged change is nil only for a remove of a path that is not a valid path text *)
Lemma no_nil_change (dels : list str) (u : option tval) p :
  (forall q, In q dels -> is_path_valid q = true) ->
  (if existsb (eqb_str p) dels then Some (if is_path_valid p then CDel else CNil) else option_map CUpd u) <> Some CNil.
Proof.
  intros V. destruct (existsb (eqb_str p) dels) eqn:E.
  - apply existsb_exists in E. destruct E as (q & IN & EQ). apply eqb_str_eq in EQ. subst q.
    rewrite (V p IN). discriminate.
  - destruct u; discriminate.
Qed.

(* no nil change is ever logged by the repaired computeChange *)
Theorem repaired_no_nil_change cfg orc req t :
  set_resolve true cfg orc req = Ok t ->
  forall id ch p, aget (tx_changes t) id = Some ch -> aget ch p <> Some CNil.
Proof.
  intros H id ch p G. destruct (set_resolve_ok _ _ _ _ _ H) as (over0 & s & _ & _ & _ & _ & C).
  destruct (compute_changes_spec _ _ _ C) as (_ & S). destruct (S id ch G) as (ti & _ & CC).
  destruct (compute_change_ok _ _ _ CC) as (A & _ & V).
  rewrite A. apply no_nil_change. apply forallb_forall. apply V. reflexivity.
Qed.

(* the code as it is: the same under the explicit guard that every delete lands on a valid path text *)
Theorem unrepaired_no_nil_change_partial cfg orc req t over0 :
  set_resolve false cfg orc req = Ok t -> get_overrides (r_ext req) = Ok over0 ->
  (forall id q, In q (dels_of (flat_for cfg orc (r_prefix req) over0 id (ops_of req))) -> is_path_valid q = true) ->
  forall id ch p, aget (tx_changes t) id = Some ch -> aget ch p <> Some CNil.
Proof.
  intros H O V id ch p G. destruct (lands_exactly _ _ _ _ _ H) as (ov & O' & _ & L).
  rewrite O in O'. injection O' as <-. rewrite (L id ch G p). apply no_nil_change. exact (V id).
Qed.

(* (3) size limit, for any limit: a positive limit allows one target and at most `limit` logged changes *)
Theorem limit_respected strict cfg orc req t :
  set_resolve strict cfg orc req = Ok t -> (0 < sc_limit cfg)%Z ->
  exists id ch, tx_changes t = [(id, ch)] /\ (Z.of_nat (List.length ch) <= sc_limit cfg)%Z.
Proof.
  intros H P. destruct (set_resolve_ok _ _ _ _ _ H) as (over0 & s & _ & _ & _ & L & C).
  unfold limit_ok in L. apply Z.ltb_lt in P. rewrite P in L.
  destruct (s_targets s) as [|[id ti] [|x ts]] eqn:ET; try discriminate.
  cbn in C. apply bind_ok in C. destruct C as (ch & CC & C). cbn in C. injection C as C.
  exists id, ch. split; [symmetry; exact C|].
  apply Z.leb_le in L. pose proof (proj1 (proj2 (compute_change_ok _ _ _ CC))). lia.
Qed.

Corollary refused_two_targets_under_limit strict cfg orc req o1 o2 :
  (0 < sc_limit cfg)%Z -> In o1 (ops_of req) -> In o2 (ops_of req) ->
  etgt (r_prefix req) o1 <> etgt (r_prefix req) o2 ->
  forall t, set_resolve strict cfg orc req <> Ok t.
Proof.
  intros P I1 I2 NE t H. destruct (limit_respected _ _ _ _ _ H P) as (id & ch & E & _).
  destruct (lands_exactly _ _ _ _ _ H) as (ov & _ & DOM & _).
  (* the one logged target is the target of every operation *)
  assert (A : forall o, In o (ops_of req) -> etgt (r_prefix req) o = id).
  { intros o I. symmetry. apply eqb_str_eq. apply not_false_is_true. intros X.
    apply (proj1 (DOM (etgt (r_prefix req) o))) with (o := o); [|exact I | reflexivity].
    rewrite E. cbn. rewrite X. reflexivity. }
  rewrite (A o1 I1), (A o2 I2) in NE. contradiction.
Qed.

(* (4) refused => no store effect *)
Theorem refused_no_effect strict cfg orc req :
  (forall t, set_resolve strict cfg orc req <> Ok t) -> set_effects strict cfg orc req = [].
Proof.
  unfold set_effects. intros H. destruct (set_resolve strict cfg orc req) as [t| |]; [exfalso; exact (H t eq_refl) | reflexivity | reflexivity].
Qed.

Theorem effect_iff_resolved strict cfg orc req t :
  In (Create t) (set_effects strict cfg orc req) <-> set_resolve strict cfg orc req = Ok t.
Proof.
  unfold set_effects. destruct (set_resolve strict cfg orc req) as [t'| |]; cbn; split; intros H; try contradiction; try discriminate.
  - destruct H as [[= ->]|[]]. reflexivity.
  - injection H as ->. left. reflexivity.
Qed.
