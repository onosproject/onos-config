(* Concrete instances (vm_compute) for Model/SetReq.v: a non-trivial accepted request, one refusal per cause
   inside otherwise valid requests, and the witnesses of the two findings of property C13. *)
From Coq Require Import List NArith ZArith Bool.
From OC Require Import Base.Bytes Model.PathModel Model.SetReq Proofs.SetReqProofs.
Import ListNotations.
Open Scope N_scope.

Definition rw (p : str) (k : bool) (a : str) : rw_entry := mkRw p 1 k a.

Definition ex_plugin : plugin :=
  mkPlugin (B "devicesim") (B "1.0.0")
    [ rw (B "/sys/name") false (B "name"); rw (B "/sys/sub/leaf") false (B "leaf"); rw (B "/sys/subx") false (B "subx");
      rw (B "/ifs/if[name=*]/name") true (B "name"); rw (B "/ifs/if[name=*]/descr") false (B "descr");
      rw (B "/acl/rule[dir=*][id=*]/id") true (B "id"); rw (B "/acl/rule[dir=*][id=*]/action") false (B "action") ].

Definition ex_plugin2 : plugin := mkPlugin (B "Stratum") (B "1.0") [ rw (B "/st/leaf") false (B "leaf") ].

Definition ex_cfg (limit : Z) : server_cfg :=
  mkCfg [ mkEnt (B "t1") (Some (B "devicesim", B "1.0.0")); mkEnt (B "t2") (Some (B "devicesim", B "1.0.0"));
          mkEnt (B "t4") (Some (B "stratum", B "1.0")); mkEnt (B "t5") (Some (B "nomodel", B "9")); mkEnt (B "t6") None ]
        [ ex_plugin; ex_plugin2 ] limit.

Definition no_json : pv_oracle := fun _ _ _ => None.
(* a plugin answering every document with one leaf "descr" below the base path *)
Definition one_leaf : pv_oracle := fun _ base _ => Some [ (base ++ B "/descr", mkTv 1 (B "from-json")) ].

Definition el (n : str) : elem := mkElem n [].
Definition elk (n : str) (ks : list (str * str)) : elem := mkElem n ks.
Definition path (t : str) (es : list elem) : gpath := mkPath t es [].
Definition supd (t : str) (es : list elem) (v : str) : update := mkUpd (path t es) (VStr v).

(* prefix with target t1 and element /ifs; the operations name t2 and t4, which the prefix target overrides;
   a delete of a list-key leaf, a replace and two updates of the same leaf, a JSON update, a key leaf agreeing with its entry *)
Definition ex_req : request :=
  mkReq (path (B "t1") [el (B "ifs")])
        [ path (B "t2") [elk (B "if") [(B "name", B "eth9")]; el (B "name")] ]
        [ supd (B "t4") [elk (B "if") [(B "name", B "eth0")]; el (B "descr")] (B "first") ]
        [ supd (B "") [elk (B "if") [(B "name", B "eth0")]; el (B "descr")] (B "second");
          supd (B "t2") [elk (B "if") [(B "name", B "eth1")]; el (B "name")] (B "eth1");
          mkUpd (path (B "t2") [elk (B "if") [(B "name", B "eth2")]]) (VJson (B "{}")) ]
        [ ExtOther; ExtStrategy true ].

Example accepted_example :
  set_resolve false (ex_cfg 0) one_leaf ex_req =
  Ok (mkTx [ (B "t1", [ (B "/ifs/if[name=eth0]/descr", CUpd (mkTv 1 (B "second")));
                        (B "/ifs/if[name=eth1]/name", CUpd (mkTv 1 (B "eth1")));
                        (B "/ifs/if[name=eth2]/descr", CUpd (mkTv 1 (B "from-json")));
                        (B "/ifs/if[name=eth9]", CDel) ]) ]
           [ (B "t1", (B "devicesim", B "1.0.0")) ]).
Proof. vm_compute. reflexivity. Qed.

Example accepted_example_repaired : set_resolve true (ex_cfg 0) one_leaf ex_req = set_resolve false (ex_cfg 0) one_leaf ex_req.
Proof. vm_compute. reflexivity. Qed.

(* the size limit counts the updated paths and the removes of the single target: 4 for the 5 operations of ex_req *)
Example limit_example : set_resolve false (ex_cfg 4) one_leaf ex_req <> Err CInvalid /\
                        set_resolve false (ex_cfg 3) one_leaf ex_req = Err CInvalid.
Proof. split; vm_compute; [discriminate | reflexivity]. Qed.

(* one invalid operation among valid ones *)
Definition with_update (u : update) : request :=
  mkReq (path [] []) [ path (B "t1") [el (B "sys"); el (B "sub")] ]
        [ supd (B "t2") [el (B "sys"); el (B "name")] (B "x") ] [ u; supd (B "t1") [el (B "sys"); el (B "subx")] (B "y") ] [].

Example refused_examples :
  set_resolve false (ex_cfg 0) no_json (with_update (supd (B "ghost") [el (B "sys"); el (B "name")] (B "v"))) = Err CNotFound /\
  set_resolve false (ex_cfg 0) no_json (with_update (supd (B "t6") [el (B "sys"); el (B "name")] (B "v"))) = Err CInternal /\
  set_resolve false (ex_cfg 0) no_json (with_update (supd (B "t5") [el (B "sys"); el (B "name")] (B "v"))) = Err CNotFound /\
  set_resolve false (ex_cfg 0) no_json (with_update (supd (B "t1") [el (B "sys"); el (B "nope")] (B "v"))) = Err CInternal /\
  set_resolve false (ex_cfg 0) no_json (with_update (supd (B "t1") [elk (B "if") [(B "name", B "eth0")]; el (B "name")] (B "v"))) = Err CInternal /\
  set_resolve false (ex_cfg 0) no_json
     (with_update (supd (B "t1") [el (B "ifs"); elk (B "if") [(B "name", B "eth0")]; el (B "name")] (B "eth1"))) = Err CInvalid /\
  set_resolve false (ex_cfg 0) no_json
     (with_update (supd (B "t1") [el (B "ifs"); elk (B "if") [(B "name", B "eth0")]; el (B "name")] (B "eth0"))) <> Err CInvalid /\
  set_resolve false (ex_cfg 0) no_json (mkReq (path [] []) [] [] [] [ExtStrategy true]) = Err CInvalid /\
  set_resolve false (ex_cfg 1) no_json (with_update (supd (B "t1") [el (B "sys"); el (B "name")] (B "v"))) = Err CInvalid.
Proof. repeat split; vm_compute; try reflexivity; discriminate. Qed.

(* ---------------- finding F-C13a: a delete whose effective path is not a valid path text *)

(* prefix /sys, delete of the empty path on t1: the effective path is "/sys/" *)
Definition nil_req : request := mkReq (path [] [el (B "sys")]) [ path (B "t1") [] ] [] [] [ExtStrategy true].

Lemma nil_change_logged :
  set_resolve false (ex_cfg 0) no_json nil_req =
  Ok (mkTx [ (B "t1", [ (B "/sys/", CNil) ]) ] [ (B "t1", (B "devicesim", B "1.0.0")) ]).
Proof. vm_compute. reflexivity. Qed.

Lemma lands_as_delete_refuted :
  exists cfg orc req t id ch p,
    set_resolve false cfg orc req = Ok t /\ aget (tx_changes t) id = Some ch /\ aget ch p = Some CNil /\ response_panics t = true.
Proof.
  exists (ex_cfg 0), no_json, nil_req. eexists. exists (B "t1"). eexists. exists (B "/sys/").
  rewrite nil_change_logged. vm_compute. repeat split; reflexivity.
Qed.

Lemma nil_change_repaired : set_resolve true (ex_cfg 0) no_json nil_req = Err CInvalid.
Proof. vm_compute. reflexivity. Qed.

(* ---------------- finding F-C13b (fixed by 2e764cc): a delete naming only a leading part of an element name *)

Definition partial_req (es : list elem) : request := mkReq (path [] []) [ path (B "t1") es ] [] [] [].

(* regression: /sys/su, /sy and /ifs/if[name=x]/desc are no nodes of the model and no ancestors of one by whole
   elements - refused; the genuine ancestors /sys, /sys/sub and the list entry /ifs/if[name=x] are accepted *)
Example partial_name_delete_refused :
  set_resolve false (ex_cfg 0) no_json (partial_req [el (B "sys"); el (B "su")]) = Err CInvalid /\
  set_resolve false (ex_cfg 0) no_json (partial_req [el (B "sy")]) = Err CInvalid /\
  set_resolve false (ex_cfg 0) no_json (partial_req [el (B "ifs"); elk (B "if") [(B "name", B "x")]; el (B "desc")]) = Err CInvalid /\
  set_resolve false (ex_cfg 0) no_json (partial_req [el (B "sys")]) =
    Ok (mkTx [ (B "t1", [ (B "/sys", CDel) ]) ] [ (B "t1", (B "devicesim", B "1.0.0")) ]) /\
  set_resolve false (ex_cfg 0) no_json (partial_req [el (B "sys"); el (B "sub")]) =
    Ok (mkTx [ (B "t1", [ (B "/sys/sub", CDel) ]) ] [ (B "t1", (B "devicesim", B "1.0.0")) ]) /\
  set_resolve false (ex_cfg 0) no_json (partial_req [el (B "ifs"); elk (B "if") [(B "name", B "x")]]) =
    Ok (mkTx [ (B "t1", [ (B "/ifs/if[name=x]", CDel) ]) ] [ (B "t1", (B "devicesim", B "1.0.0")) ]).
Proof. repeat split; vm_compute; reflexivity. Qed.

(* ---------------- GNMI_SET_SIZE_LIMIT parsing *)
Example parse_limit_examples :
  parse_limit (B "5") = 5%Z /\ parse_limit (B "") = 0%Z /\ parse_limit (B "abc") = 0%Z /\ parse_limit (B "-3") = (-3)%Z /\
  parse_limit (B "+3") = 3%Z /\ parse_limit (B "1 ") = 0%Z /\ parse_limit (B "99999999999999999999") = max_int64 /\
  parse_limit (B "38221585393358015642 ") = max_int64.
Proof. repeat split; vm_compute; reflexivity. Qed.

(* a limit that is not positive never refuses *)
Lemma limit_off cfg ts : (sc_limit cfg <= 0)%Z -> limit_ok (sc_limit cfg) ts = true.
Proof. intros H. apply Z.ltb_ge in H. unfold limit_ok. rewrite H. reflexivity. Qed.

(* ---------------- a list nested in a list, both keyed by a leaf named id: the key leaf of the inner entry must
   carry the inner entry's key; the same-named key of the enclosing entry does not count (fix 7b08917) *)
Definition nested_plugin : plugin :=
  mkPlugin (B "devicesim") (B "1.0.0")
    [ rw (B "/cont/outer[id=*]/id") true (B "id"); rw (B "/cont/outer[id=*]/inner[id=*]/id") true (B "id");
      rw (B "/cont/outer[id=*]/inner[id=*]/val") false (B "val") ].
Definition nested_cfg : server_cfg := mkCfg [ mkEnt (B "t1") (Some (B "devicesim", B "1.0.0")) ] [ nested_plugin ] 0.
Definition nested_req (v : str) : request :=
  mkReq (path (B "t1") [el (B "cont")]) [] []
        [ supd (B "") [elk (B "outer") [(B "id", B "a")]; elk (B "inner") [(B "id", B "b")]; el (B "val")] (B "x");
          supd (B "") [elk (B "outer") [(B "id", B "a")]; elk (B "inner") [(B "id", B "b")]; el (B "id")] v ] [].

Example nested_key_examples :
  set_resolve false nested_cfg no_json (nested_req (B "a")) = Err CInvalid /\
  set_resolve false nested_cfg no_json (nested_req (B "c")) = Err CInvalid /\
  (exists t, set_resolve false nested_cfg no_json (nested_req (B "b")) = Ok t).
Proof. repeat split; try (vm_compute; reflexivity). eexists. vm_compute. reflexivity. Qed.

(* ---------------- type/version overrides never make an unresolvable target acceptable: the entity must exist and be
   Configurable whatever the extension says (the overrides only choose the model plugin) *)
Definition override_req (t : str) : request :=
  mkReq (path [] []) [] []
        [ supd (B "t1") [el (B "sys"); el (B "name")] (B "x"); supd t [el (B "sys"); el (B "name")] (B "y") ]
        [ ExtOverrides true [ (t, (B "devicesim", B "1.0.0")) ] ].

Example override_examples :
  set_resolve false (ex_cfg 0) no_json (override_req (B "ghost")) = Err CNotFound /\
  set_resolve false (ex_cfg 0) no_json (override_req (B "t6")) = Err CInternal /\
  (exists t, set_resolve false (ex_cfg 0) no_json (override_req (B "t5")) = Ok t) /\
  set_resolve false (ex_cfg 0) no_json (mkReq (path (B "ghost") []) [] [] [ supd (B "t1") [el (B "sys"); el (B "name")] (B "x") ]
                                              [ ExtOverrides true [ (B "ghost", (B "devicesim", B "1.0.0")) ] ]) = Err CNotFound.
Proof. repeat split; try (vm_compute; reflexivity). eexists. vm_compute. reflexivity. Qed.

(* ---------------- the effective path is the prefix followed by the path whichever field carries them: a prefix (or path)
   given in the deprecated gNMI 0.3 `element` form resolves exactly as the same text given as `elem` *)
Definition element_req : request :=
  mkReq (mkPath (B "t1") [] [B "ifs"; B "if[name=eth0]"]) [ mkPath [] [] [B "name"] ] []
        [ supd (B "") [el (B "descr")] (B "d") ] [].

Example element_prefix_example :
  set_resolve false (ex_cfg 0) no_json element_req =
  set_resolve false (ex_cfg 0) no_json
    (mkReq (path (B "t1") [el (B "ifs"); elk (B "if") [(B "name", B "eth0")]]) [ path [] [el (B "name")] ] []
           [ supd (B "") [el (B "descr")] (B "d") ] []) /\
  set_resolve false (ex_cfg 0) no_json element_req =
  Ok (mkTx [ (B "t1", [ (B "/ifs/if[name=eth0]/descr", CUpd (mkTv 1 (B "d"))); (B "/ifs/if[name=eth0]", CDel) ]) ]
           [ (B "t1", (B "devicesim", B "1.0.0")) ]).
Proof. split; vm_compute; reflexivity. Qed.
