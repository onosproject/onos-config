(* The configuration store's write (Model/CfgStore.v store_write, repaired version) keeps the keys distinct; with the
   entries of StoreProofs.v this is what a commit needs to re-establish the hypotheses of commit_store_refines
   (CommitPreserve.v). *)
From Coq Require Import List NArith Bool.
From OC Require Import Base.Bytes Model.Merge Model.CfgStore Proofs.MergeProofs Proofs.TextPathProofs Proofs.PruneProofs
     Proofs.StoreProofs Proofs.CommitProofs.
Import ListNotations.
Open Scope N_scope.

Lemma clear_nodup M V pv acc : nodup acc -> nodup (clear_deleted_ancestors M V pv acc).
Proof.
  unfold clear_deleted_ancestors. destruct (pv_deleted pv); [auto|]. revert acc.
  induction (boundary_ancestors (pv_path pv)) as [|a l IH]; intros acc H; cbn [fold_left]; [exact H|].
  apply IH. destruct (map_has a V); [exact H|]. destruct (map_get a M) as [e|]; [|exact H].
  destruct (pv_deleted e); [apply nodup_map_del|]; exact H.
Qed.

Lemma store_step_nodup M P V acc pv : nodup acc -> nodup (store_step M P V acc pv).
Proof.
  intros H. pose proof (clear_nodup M V pv _ (nodup_map_set (pv_path pv) pv acc H)) as HS. unfold store_step.
  destruct (map_get (pv_path pv) M) as [e|]; [|destruct (map_has (pv_path pv) P); assumption].
  destruct (negb (map_has (pv_path pv) P)); [apply nodup_map_del; exact H|].
  destruct (negb (pv_index pv =? pv_index e)); assumption.
Qed.

Lemma store_write_nodup M V : nodup M -> nodup (store_write M V).
Proof.
  unfold store_write. generalize (map snd V) as l. generalize M at 1 3 as acc. intros acc l. revert acc.
  induction l as [|x l IH]; intros acc H; cbn [fold_left]; [exact H|]. apply IH, store_step_nodup, H.
Qed.

Theorem store_write_full M V : keys_ok V -> nodup V ->
  (nodup M -> nodup (store_write M V)) /\
  (forall q pv, map_get q V = Some pv -> map_get q (store_write M V) = entry_after M V pv) /\
  (forall q, map_get q V = None -> map_get q (store_write M V) = map_get q M \/ map_get q (store_write M V) = None) /\
  (forall p pv, map_get p V = Some pv -> written M V pv = true -> pv_deleted pv = false ->
                forall t, In t (boundary_ancestors p) -> old_tomb M V t -> map_get t (store_write M V) = None).
Proof.
  intros KO ND. destruct (store_write_entries M V KO ND) as [W2 [W3 W4]].
  split; [apply store_write_nodup|]. split; [exact W2|]. split; [|exact W4].
  intros q G. destruct (W3 q G) as [H|[H _]]; auto.
Qed.
