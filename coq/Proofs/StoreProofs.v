(* The configuration store's write (Model/CfgStore.v store_write, repaired version) entry by entry: which value every
   key holds afterwards, and that the tombstones above a written live value are gone; and the same write seen through
   the live leaves. *)
From Coq Require Import List NArith Bool.
From OC Require Import Base.Bytes Model.Merge Model.CfgStore Proofs.MergeProofs Proofs.TextPathProofs Proofs.PruneProofs.
Import ListNotations.
Open Scope N_scope.

Section Store.
  Context (M V : cfgmap).

  (* what the write decides for one value of V *)
  Definition decision (pv : path_value) : option str :=
    match map_get (pv_path pv) M with
    | None => if kept (pv_path pv) V then live_of pv else None
    | Some e => if negb (kept (pv_path pv) V) then None
                else if negb (pv_index pv =? pv_index e) then live_of pv else live_of e
    end.

  (* keys outside V are only ever removed *)
  Definition outside_ok (acc : cfgmap) : Prop :=
    forall k, map_has k V = false -> map_get k acc = map_get k M \/ map_get k acc = None.

  Definition clr_step (a : cfgmap) (anc : str) : cfgmap :=
    if map_has anc V then a else
    match map_get anc M with
    | Some e => if pv_deleted e then map_del anc a else a
    | None => a
    end.

  (* a tombstone of the stored map that the new values do not name *)
  Definition old_tomb (t : str) : Prop :=
    map_has t V = false /\ exists e, map_get t M = Some e /\ pv_deleted e = true.

  (* q holds what it held, or it was such a tombstone and has been removed *)
  Definition same_or_dropped (r acc : cfgmap) (q : str) : Prop :=
    map_get q r = map_get q acc \/ (map_get q r = None /\ old_tomb q).

  Lemma sod_refl acc q : same_or_dropped acc acc q.
  Proof. left. reflexivity. Qed.

  Lemma sod_trans r1 r2 r3 q : same_or_dropped r2 r1 q -> same_or_dropped r3 r2 q -> same_or_dropped r3 r1 q.
  Proof.
    intros [A|[A A']] [B|[B B']].
    - left. congruence.
    - right. auto.
    - right. split; [congruence | exact A'].
    - right. auto.
  Qed.

  Lemma clr_step_sod acc a q : same_or_dropped (clr_step acc a) acc q.
  Proof.
    unfold clr_step. destruct (map_has a V) eqn:HV; [apply sod_refl|].
    destruct (map_get a M) as [e|] eqn:GM; [|apply sod_refl]. destruct (pv_deleted e) eqn:De; [|apply sod_refl].
    unfold same_or_dropped. rewrite map_get_del. deq q a; [right | left; reflexivity].
    split; [reflexivity|]. split; [exact HV|]. exists e. auto.
  Qed.

  Lemma clr_fold_full ancs : forall acc,
    let r := fold_left clr_step ancs acc in
    (forall q, same_or_dropped r acc q) /\
    (forall t, In t ancs -> old_tomb t -> map_get t r = None).
  Proof.
    induction ancs as [|a ancs IH]; intros acc; cbn [fold_left].
    - split; [intros q; apply sod_refl | intros t []].
    - destruct (IH (clr_step acc a)) as [R2 R3]. split.
      + intros q. apply (sod_trans acc (clr_step acc a)); [apply clr_step_sod | apply R2].
      + intros t [<-|HI] OT; [|apply R3; assumption].
        assert (E : map_get a (clr_step acc a) = None).
        { unfold clr_step. destruct OT as [HV [e [GM De]]]. rewrite HV, GM, De. rewrite map_get_del, eqb_str_refl. reflexivity. }
        destruct (R2 a) as [H|[H _]]; [congruence | exact H].
  Qed.

  Lemma clear_full pv acc :
    let r := clear_deleted_ancestors M V pv acc in
    (forall q, same_or_dropped r acc q) /\
    (pv_deleted pv = false -> forall t, In t (boundary_ancestors (pv_path pv)) -> old_tomb t -> map_get t r = None).
  Proof.
    unfold clear_deleted_ancestors. destruct (pv_deleted pv).
    - split; [intros q; apply sod_refl | discriminate].
    - destruct (clr_fold_full (boundary_ancestors (pv_path pv)) acc) as [R2 R3].
      split; [exact R2|]. intros _. exact R3.
  Qed.

  (* the value the store holds for the path of pv afterwards, and whether pv is written *)
  Definition entry_after (pv : path_value) : option path_value :=
    match map_get (pv_path pv) M with
    | None => if kept (pv_path pv) V then Some pv else None
    | Some e => if negb (kept (pv_path pv) V) then None
                else if negb (pv_index pv =? pv_index e) then Some pv else Some e
    end.

  Definition written (pv : path_value) : bool :=
    match map_get (pv_path pv) M with
    | None => kept (pv_path pv) V
    | Some e => kept (pv_path pv) V && negb (pv_index pv =? pv_index e)
    end.

  Lemma decision_entry pv : decision pv = match entry_after pv with Some e => live_of e | None => None end.
  Proof.
    unfold decision, entry_after. destruct (map_get (pv_path pv) M) as [e|]; destruct (kept (pv_path pv) V); cbn [negb];
      [destruct (pv_index pv =? pv_index e)|..]; reflexivity.
  Qed.

  Lemma store_step_full acc pv :
    map_has (pv_path pv) V = true ->
    map_get (pv_path pv) acc = map_get (pv_path pv) M ->
    let r := store_step M (prune_path_map V true) V acc pv in
    map_get (pv_path pv) r = entry_after pv /\
    (forall q, q <> pv_path pv -> same_or_dropped r acc q) /\
    (written pv = true -> pv_deleted pv = false ->
     forall t, In t (boundary_ancestors (pv_path pv)) -> old_tomb t -> map_get t r = None).
  Proof.
    intros HV F. unfold store_step, entry_after, written. fold (kept (pv_path pv) V).
    destruct (clear_full pv (map_set (pv_path pv) pv acc)) as [C2 C3].
    assert (SET : map_get (pv_path pv) (clear_deleted_ancestors M V pv (map_set (pv_path pv) pv acc)) = Some pv /\
                  (forall q, q <> pv_path pv ->
                             same_or_dropped (clear_deleted_ancestors M V pv (map_set (pv_path pv) pv acc)) acc q)).
    { split.
      - destruct (C2 (pv_path pv)) as [H|[_ [H _]]]; [|congruence]. rewrite H, map_get_set, eqb_str_refl. reflexivity.
      - intros q Nq. destruct (C2 q) as [H|H]; [left | right; exact H].
        rewrite H, map_get_set. apply eqb_str_neq in Nq. rewrite Nq. reflexivity. }
    destruct SET as [T2 T3].
    destruct (map_get (pv_path pv) M) as [e|] eqn:GM.
    - destruct (kept (pv_path pv) V) eqn:K; cbn [negb andb].
      + destruct (pv_index pv =? pv_index e) eqn:EI; cbn [negb].
        * split; [exact F|]. split; [intros q _; apply sod_refl | discriminate].
        * split; [exact T2|]. split; [exact T3|]. intros _. exact C3.
      + split; [rewrite map_get_del, eqb_str_refl; reflexivity|]. split; [|discriminate].
        intros q Nq. left. rewrite map_get_del. apply eqb_str_neq in Nq. rewrite Nq. reflexivity.
    - destruct (kept (pv_path pv) V) eqn:K.
      + split; [exact T2|]. split; [exact T3|]. intros _. exact C3.
      + split; [exact F|]. split; [intros q _; apply sod_refl | discriminate].
  Qed.

  Lemma store_fold_full l : forall acc,
    NoDup (map pv_path l) -> (forall pv, In pv l -> map_has (pv_path pv) V = true) ->
    (forall pv, In pv l -> map_get (pv_path pv) acc = map_get (pv_path pv) M) ->
    let r := fold_left (store_step M (prune_path_map V true) V) l acc in
    (forall pv, In pv l -> map_get (pv_path pv) r = entry_after pv) /\
    (forall q, ~ In q (map pv_path l) -> same_or_dropped r acc q) /\
    (forall pv, In pv l -> written pv = true -> pv_deleted pv = false ->
                forall t, In t (boundary_ancestors (pv_path pv)) -> old_tomb t -> map_get t r = None).
  Proof.
    induction l as [|x l IH]; intros acc ND HV F; cbn [fold_left].
    - split; [intros pv []|]. split; [intros q _; apply sod_refl | intros pv []].
    - inversion ND as [|? ? Hn ND']; subst.
      destruct (store_step_full acc x (HV x (or_introl eq_refl)) (F x (or_introl eq_refl))) as [S2 [S3 S4]].
      set (r1 := store_step M (prune_path_map V true) V acc x) in *.
      assert (HV' : forall pv, In pv l -> map_has (pv_path pv) V = true) by (intros pv Hp; apply HV; right; exact Hp).
      assert (F' : forall pv, In pv l -> map_get (pv_path pv) r1 = map_get (pv_path pv) M).
      { intros pv Hp. rewrite <- (F pv (or_intror Hp)).
        assert (Nq : pv_path pv <> pv_path x) by (intros E; apply Hn; rewrite <- E; apply in_map; exact Hp).
        destruct (S3 _ Nq) as [H|[_ [H _]]]; [exact H|]. rewrite (HV' pv Hp) in H. discriminate. }
      destruct (IH r1 ND' HV' F') as [R2 [R3 R4]].
      split; [|split].
      + intros pv [<-|Hp]; [|apply R2; exact Hp].
        destruct (R3 (pv_path x) Hn) as [H|[_ [H _]]]; [congruence|].
        rewrite (HV x (or_introl eq_refl)) in H. discriminate.
      + intros q Hq. cbn in Hq.
        apply (sod_trans acc r1); [apply S3; intros E; apply Hq; left; symmetry; exact E|].
        apply R3. intros HI. apply Hq. right. exact HI.
      + intros pv [<-|Hp] W Dp t Ht OT; [|apply (R4 pv Hp W Dp t Ht OT)].
        assert (Nt : ~ In t (map pv_path l)).
        { intros HI. apply in_map_iff in HI. destruct HI as [y [<- Hy]]. destruct OT as [OT _].
          rewrite (HV' y Hy) in OT. discriminate. }
        destruct (R3 t Nt) as [H|[H _]]; [|exact H]. rewrite H. apply (S4 W Dp t Ht OT).
  Qed.
End Store.

Lemma paths_are_keys m : keys_ok m -> map pv_path (map snd m) = map fst m.
Proof.
  induction m as [|[k v] m IH]; intros KO; cbn; [reflexivity|].
  rewrite <- (KO k v (or_introl eq_refl)). f_equal. apply IH. intros k1 v1 H1. apply KO. right. exact H1.
Qed.

Lemma store_write_entries M V : keys_ok V -> nodup V ->
  (forall q pv, map_get q V = Some pv -> map_get q (store_write M V) = entry_after M V pv) /\
  (forall q, map_get q V = None -> same_or_dropped M V (store_write M V) M q) /\
  (forall p pv, map_get p V = Some pv -> written M V pv = true -> pv_deleted pv = false ->
                forall t, In t (boundary_ancestors p) -> old_tomb M V t -> map_get t (store_write M V) = None).
Proof.
  intros KO ND. unfold store_write.
  assert (PK : map pv_path (map snd V) = map fst V) by (apply paths_are_keys; exact KO).
  destruct (store_fold_full M V (map snd V) M) as [R2 [R3 R4]].
  - rewrite PK. exact ND.
  - intros pv HI. apply in_map_iff in HI. destruct HI as [[k v] [E HI]]. cbn in E. subst v.
    unfold map_has. rewrite <- (KO _ _ HI). rewrite (map_get_in _ _ _ ND HI). reflexivity.
  - reflexivity.
  - split; [|split].
    + intros q pv G. apply map_get_some_in in G. rewrite (KO _ _ G). apply R2. apply in_map_iff. exists (q, pv). auto.
    + intros q G. apply R3. rewrite PK. apply map_get_none_notin. exact G.
    + intros p pv G W Dp t Ht OT. apply map_get_some_in in G. apply (R4 pv); try assumption.
      * apply in_map_iff. exists (p, pv). auto.
      * rewrite <- (KO _ _ G). exact Ht.
Qed.

Theorem store_write_live M V : keys_ok V -> nodup V ->
  forall q, live (store_write M V) q
            = match map_get q V with Some pv => decision M V pv | None => live M q end.
Proof.
  intros KO ND q. destruct (store_write_entries M V KO ND) as [W2 [W3 _]]. unfold live.
  destruct (map_get q V) as [pv|] eqn:G.
  - rewrite (W2 q pv G). symmetry. apply decision_entry.
  - destruct (W3 q G) as [H|[H [_ [e [GM De]]]]]; rewrite H; [reflexivity|].
    rewrite GM. unfold live_of. rewrite De. reflexivity.
Qed.
