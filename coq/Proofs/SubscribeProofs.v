(* Proofs about Model/Subscribe.v (property C19). *)
From Coq Require Import List NArith Bool.
From OC Require Import Base.Bytes Model.Subscribe.
Import ListNotations.
Open Scope N_scope.

Lemma is_empty_true s : is_empty s = true <-> s = [].
Proof. destruct s; cbn; split; congruence. Qed.

Lemma is_empty_false s : is_empty s = false <-> s <> [].
Proof. destruct s; cbn; split; congruence. Qed.

Lemma mem_str_In t l : mem_str t l = true <-> In t l.
Proof.
  induction l as [|x l IH]; cbn.
  - split; [discriminate | tauto].
  - rewrite orb_true_iff, IH, eqb_str_eq. tauto.
Qed.

Definition prefix_origin (l : sublist) : str :=
  match l_prefix l with Some p => p_origin p | None => [] end.
Definition prefix_elems (l : sublist) : str :=
  match l_prefix l with Some p => p_elems p | None => [] end.

(* the request built for target t out of request r, carrying entries es *)
Definition treq_of (r : subreq) (t : str) (es : list entry) : subreq :=
  {| r_list := {| l_prefix := Some (copy_prefix (l_prefix (r_list r)) t);
                  l_subs := es;
                  l_opts := l_opts (r_list r) |};
     r_ext := r_ext r |}.

Lemma new_treq_eq r t : new_treq r t = treq_of r t [].
Proof. unfold new_treq, treq_of. destruct (l_opts (r_list r)). reflexivity. Qed.

Definition append_entries (q : subreq) (es : list entry) : subreq :=
  {| r_list := {| l_prefix := l_prefix (r_list q);
                  l_subs := l_subs (r_list q) ++ es;
                  l_opts := l_opts (r_list q) |};
     r_ext := r_ext q |}.

Lemma append_entries_nil q : append_entries q [] = q.
Proof. destruct q as [[p s o] x]. unfold append_entries; cbn. rewrite app_nil_r. reflexivity. Qed.

Lemma append_entries_cons q e es :
  append_entries (append_entry q e) es = append_entries q (e :: es).
Proof. unfold append_entries, append_entry; cbn. rewrite <- app_assoc. reflexivity. Qed.

Lemma lookup_keys t tr : In t (keys tr) <-> exists q, lookup t tr = Some q.
Proof.
  induction tr as [|[k q'] tr IH]; cbn.
  - split; [tauto | intros [q H]; discriminate].
  - destruct (eqb_str k t) eqn:E.
    + apply eqb_str_eq in E. split; [intros _; eexists; reflexivity | left; exact E].
    + apply eqb_str_neq in E. rewrite <- IH. tauto.
Qed.

Lemma in_lookup t q tr : NoDup (keys tr) -> In (t, q) tr -> lookup t tr = Some q.
Proof.
  induction tr as [|[k q'] tr IH]; cbn; [tauto|].
  intros ND [H|H].
  - injection H as -> ->. rewrite eqb_str_refl. reflexivity.
  - inversion ND as [|? ? Hn ND']; subst.
    destruct (eqb_str k t) eqn:E.
    + apply eqb_str_eq in E; subst. exfalso. apply Hn. apply (in_map fst) in H. exact H.
    + apply IH; assumption.
Qed.

Lemma lookup_add_entry tr r t e t' :
  lookup t' (add_entry tr r t e) =
  if eqb_str t t'
  then Some (append_entry (match lookup t tr with Some q => q | None => new_treq r t end) e)
  else lookup t' tr.
Proof.
  induction tr as [|[k q] tr IH]; cbn.
  - destruct (eqb_str t t'); reflexivity.
  - destruct (eqb_str k t) eqn:Ekt; cbn.
    + apply eqb_str_eq in Ekt; subst k.
      destruct (eqb_str t t'); reflexivity.
    + rewrite IH. destruct (eqb_str t t') eqn:Ett.
      * apply eqb_str_eq in Ett; subst t'. rewrite Ekt. reflexivity.
      * reflexivity.
Qed.

Lemma keys_add_entry tr r t e :
  keys (add_entry tr r t e) = if mem_str t (keys tr) then keys tr else keys tr ++ [t].
Proof.
  induction tr as [|[k q] tr IH]; cbn; [reflexivity|].
  destruct (eqb_str k t) eqn:Ekt; cbn; [reflexivity|].
  unfold keys in IH. rewrite IH. destruct (mem_str t (map fst tr)); reflexivity.
Qed.

Lemma nodup_add_entry tr r t e : NoDup (keys tr) -> NoDup (keys (add_entry tr r t e)).
Proof.
  intros ND. rewrite keys_add_entry.
  destruct (mem_str t (keys tr)) eqn:M; [exact ND|].
  apply (NoDup_Add (Add_app t (keys tr) [])). rewrite app_nil_r.
  split; [exact ND|]. rewrite <- mem_str_In. congruence.
Qed.

Definition sel (t : str) (e : entry) : bool := eqb_str (e_target e) t && negb (is_empty t).

Lemma sel_true t e : sel t e = true <-> e_target e = t /\ t <> [].
Proof.
  unfold sel. rewrite andb_true_iff, eqb_str_eq, negb_true_iff, is_empty_false. tauto.
Qed.

Lemma fold_append es : forall q, fold_left append_entry es q = append_entries q es.
Proof.
  induction es as [|e es IH]; intros q; cbn [fold_left].
  - symmetry; apply append_entries_nil.
  - rewrite IH. apply append_entries_cons.
Qed.

Lemma lookup_split_step r acc e t :
  lookup t (split_step r acc e) =
  if sel t e
  then Some (append_entry (match lookup t acc with Some q => q | None => new_treq r t end) e)
  else lookup t acc.
Proof.
  unfold split_step, sel. destruct (is_empty (e_target e)) eqn:Em.
  - apply is_empty_true in Em. rewrite Em. destruct t; reflexivity.
  - rewrite lookup_add_entry. destruct (eqb_str (e_target e) t) eqn:Et; [|reflexivity].
    apply eqb_str_eq in Et. subst t. rewrite Em. reflexivity.
Qed.

Lemma loop_lookup r subs : forall acc t,
  lookup t (fold_left (split_step r) subs acc) =
  match lookup t acc with
  | Some q => Some (append_entries q (filter (sel t) subs))
  | None => match filter (sel t) subs with
            | [] => None
            | es => Some (treq_of r t es)
            end
  end.
Proof.
  induction subs as [|e subs IH]; intros acc t; cbn [fold_left filter].
  - destruct (lookup t acc); [rewrite append_entries_nil|]; reflexivity.
  - rewrite IH, lookup_split_step. destruct (sel t e); [|reflexivity].
    destruct (lookup t acc); rewrite append_entries_cons; [|rewrite new_treq_eq]; reflexivity.
Qed.

Lemma loop_nodup r subs : forall acc,
  NoDup (keys acc) -> NoDup (keys (fold_left (split_step r) subs acc)).
Proof.
  induction subs as [|e subs IH]; intros acc ND; cbn [fold_left]; [exact ND|].
  apply IH. unfold split_step. destruct (is_empty (e_target e)); [exact ND|].
  apply nodup_add_entry, ND.
Qed.

Lemma split_loop_lookup r t :
  lookup t (split_loop r) =
  match filter (sel t) (l_subs (r_list r)) with
  | [] => None
  | es => Some (treq_of r t es)
  end.
Proof. unfold split_loop. rewrite loop_lookup. reflexivity. Qed.

Lemma split_loop_nodup r : NoDup (keys (split_loop r)).
Proof. unfold split_loop. apply loop_nodup. constructor. Qed.

Lemma split_loop_keys r t :
  In t (keys (split_loop r)) <-> t <> [] /\ exists e, In e (l_subs (r_list r)) /\ e_target e = t.
Proof.
  rewrite lookup_keys, split_loop_lookup.
  destruct (filter (sel t) (l_subs (r_list r))) as [|e0 es] eqn:F.
  - split; [intros [q H]; discriminate|]. intros [Ht [e [He Het]]].
    assert (Hin : In e (filter (sel t) (l_subs (r_list r)))) by (apply filter_In; rewrite sel_true; tauto).
    rewrite F in Hin. contradiction.
  - split; [|intros _; eexists; reflexivity]. intros _.
    assert (Hin : In e0 (filter (sel t) (l_subs (r_list r)))) by (rewrite F; left; reflexivity).
    apply filter_In in Hin. rewrite sel_true in Hin. split; [tauto|]. exists e0. tauto.
Qed.

Lemma split_loop_nil r :
  split_loop r = [] <-> forall e, In e (l_subs (r_list r)) -> e_target e = [].
Proof.
  split.
  - intros H e He. destruct (e_target e) as [|c s] eqn:E; [reflexivity|]. exfalso.
    assert (Hk : In (c :: s) (keys (split_loop r))).
    { apply split_loop_keys. split; [discriminate|]. exists e. tauto. }
    rewrite H in Hk. exact Hk.
  - intros H. destruct (split_loop r) as [|[k q] tr] eqn:E; [reflexivity|]. exfalso.
    assert (Hk : In k (keys (split_loop r))) by (rewrite E; left; reflexivity).
    apply split_loop_keys in Hk. destruct Hk as [Hk [e [He Het]]].
    rewrite (H e He) in Het. congruence.
Qed.

Lemma split_prefix_target r :
  prefix_target (r_list r) <> [] -> split r = Some [(prefix_target (r_list r), r)].
Proof.
  intros H. unfold split. apply is_empty_false in H. rewrite H. reflexivity.
Qed.

Lemma split_by_path r :
  prefix_target (r_list r) = [] ->
  split r = match split_loop r with [] => None | tr => Some tr end.
Proof.
  intros H. unfold split. rewrite H. cbn. destruct (split_loop r); reflexivity.
Qed.

(* refused exactly when no target is named anywhere *)
Lemma split_refused_iff r :
  split r = None <->
  prefix_target (r_list r) = [] /\ forall e, In e (l_subs (r_list r)) -> e_target e = [].
Proof.
  destruct (prefix_target (r_list r)) as [|c s] eqn:P.
  - rewrite (split_by_path r P). rewrite <- split_loop_nil.
    destruct (split_loop r); split; try tauto; try discriminate. intros [_ H]; discriminate.
  - assert (Hp : prefix_target (r_list r) <> []) by (rewrite P; discriminate).
    rewrite (split_prefix_target r Hp). split; [discriminate | intros [H _]; discriminate].
Qed.

Lemma names_by_path r t e :
  prefix_target (r_list r) = [] -> names r t e = sel t e.
Proof. intros H. unfold names, sel. rewrite H. reflexivity. Qed.

Lemma names_by_prefix r t e :
  prefix_target (r_list r) <> [] -> names r t e = eqb_str (prefix_target (r_list r)) t.
Proof. intros H. unfold names. apply is_empty_false in H. rewrite H. reflexivity. Qed.

Lemma filter_const {A} b (l : list A) : filter (fun _ => b) l = if b then l else [].
Proof. destruct b; induction l; cbn; congruence. Qed.

(* C19_split: the full characterisation of an accepted split *)
Lemma split_spec r tr :
  split r = Some tr ->
  NoDup (keys tr) /\
  (forall t, In t (keys tr) <->
             t <> [] /\ (prefix_target (r_list r) = t \/
                         (prefix_target (r_list r) = [] /\
                          exists e, In e (l_subs (r_list r)) /\ e_target e = t))) /\
  (forall t, entries_for tr t = filter (names r t) (l_subs (r_list r))) /\
  (forall t q, In (t, q) tr ->
     r_ext q = r_ext r /\
     l_opts (r_list q) = l_opts (r_list r) /\
     exists p, l_prefix (r_list q) = Some p /\ p_target p = t /\
               p_origin p = prefix_origin (r_list r) /\ p_elems p = prefix_elems (r_list r)) /\
  (prefix_target (r_list r) <> [] -> tr = [(prefix_target (r_list r), r)]).
Proof.
  intros Hs.
  destruct (prefix_target (r_list r)) as [|c s] eqn:P.
  - rewrite (split_by_path r P) in Hs.
    assert (tr = split_loop r) as -> by (destruct (split_loop r); congruence).
    split; [|split; [|split; [|split]]].
    + apply split_loop_nodup.
    + intros t. rewrite split_loop_keys. split.
      * intros [Ht He]. split; [exact Ht|]. right. tauto.
      * intros [Ht [H|[_ He]]]; [congruence | tauto].
    + intros t. unfold entries_for. rewrite split_loop_lookup.
      rewrite (filter_ext (names r t) (sel t)) by (intros e; apply names_by_path, P).
      destruct (filter (sel t) (l_subs (r_list r))); reflexivity.
    + intros t q Hin. apply in_lookup in Hin; [|apply split_loop_nodup].
      rewrite split_loop_lookup in Hin.
      destruct (filter (sel t) (l_subs (r_list r))) as [|e0 es]; [discriminate|].
      injection Hin as <-. cbn.
      split; [reflexivity|]. split; [reflexivity|].
      eexists. split; [reflexivity|]. cbn.
      unfold prefix_origin, prefix_elems. destruct (l_prefix (r_list r)); tauto.
    + congruence.
  - assert (Hp : prefix_target (r_list r) <> []) by (rewrite P; discriminate).
    rewrite (split_prefix_target r Hp) in Hs. injection Hs as <-. rewrite P.
    split; [|split; [|split; [|split]]].
    + constructor; [cbn; tauto | constructor].
    + intros t. cbn. split.
      * intros [<-|[]]. split; [discriminate | left; reflexivity].
      * intros [_ [H|[H _]]]; [left; exact H | discriminate].
    + intros t. unfold entries_for. cbn [lookup].
      rewrite (filter_ext (names r t) (fun _ => eqb_str (c :: s) t))
        by (intros e; rewrite names_by_prefix by exact Hp; rewrite P; reflexivity).
      rewrite filter_const. destruct (eqb_str (c :: s) t); reflexivity.
    + intros t q [H|[]]. injection H as <- <-.
      split; [reflexivity|]. split; [reflexivity|].
      unfold prefix_target in P. unfold prefix_origin, prefix_elems.
      destruct (l_prefix (r_list r)) as [p|]; [|discriminate].
      exists p. tauto.
    + reflexivity.
Qed.

(* an entry without target in a request without prefix target reaches nobody *)
Lemma untargeted_dropped r tr e t :
  split r = Some tr -> prefix_target (r_list r) = [] -> e_target e = [] ->
  ~ In e (entries_for tr t).
Proof.
  intros Hs P He Hin. destruct (split_spec r tr Hs) as (_ & _ & Hent & _).
  rewrite Hent in Hin. apply filter_In in Hin. destruct Hin as [_ Hn].
  rewrite names_by_path in Hn by exact P. apply sel_true in Hn. destruct Hn as [H1 H2]. congruence.
Qed.

(* every entry naming a target is forwarded to it (with multiplicity and order: see split_spec) and to no other *)
Lemma targeted_exactly_one r tr e :
  split r = Some tr -> In e (l_subs (r_list r)) ->
  forall t, In e (entries_for tr t) <-> names r t e = true.
Proof.
  intros Hs He t. destruct (split_spec r tr Hs) as (_ & _ & Hent & _).
  rewrite Hent, filter_In. tauto.
Qed.

Lemma names_functional r t t' e : names r t e = true -> names r t' e = true -> t = t'.
Proof.
  unfold names. destruct (is_empty (prefix_target (r_list r))).
  - rewrite !andb_true_iff, !eqb_str_eq. intros [<- _] [<- _]. reflexivity.
  - rewrite !eqb_str_eq. congruence.
Qed.

(* C19_protocol: the four refusals *)
Lemma protocol_refusals c :
  (forall r, c_req c <> None -> process c (MSub r) = (c, [], false)) /\
  (c_req c = None -> process c MPoll = (c, [], false)) /\
  process c MNone = (c, [], false) /\
  (forall r, c_req c = None -> split r = None ->
             process c (MSub r) = ({| c_req := Some r; c_treqs := [] |}, [], false)).
Proof.
  split; [intros r H; cbn; destruct (c_req c); [reflexivity | congruence]|].
  split; [intros H; cbn; rewrite H; reflexivity|].
  split; [reflexivity|].
  intros r H1 H2. cbn. rewrite H1, H2. reflexivity.
Qed.

Lemma process_accepts_iff c m :
  snd (process c m) = true <->
  (exists r tr, m = MSub r /\ c_req c = None /\ split r = Some tr) \/ (m = MPoll /\ c_req c <> None).
Proof.
  split.
  - destruct m as [r| |]; cbn; [| |discriminate].
    + destruct (c_req c) eqn:E; [discriminate|]. destruct (split r) as [tr|] eqn:S; [|discriminate].
      intros _. left. exists r, tr. tauto.
    + destruct (c_req c) eqn:E; [|discriminate].
      intros _. right. split; [reflexivity | congruence].
  - intros [(r & tr & -> & H1 & H2)|[-> H]]; cbn.
    + rewrite H1, H2. reflexivity.
    + destruct (c_req c); [reflexivity | congruence].
Qed.

Lemma process_refusal_silent c m : snd (process c m) = false -> snd (fst (process c m)) = [].
Proof.
  destruct m as [r| |]; cbn.
  - destruct (c_req c); cbn; [reflexivity|]. destruct (split r); cbn; [discriminate | reflexivity].
  - destruct (c_req c); cbn; [discriminate | reflexivity].
  - reflexivity.
Qed.

Definition knownb (known : list str) (t : str) : bool := mem_str t known.

Lemma deliver_polls known ks :
  flat_map (deliver known) (map EPoll ks) = map OPoll (filter (knownb known) ks).
Proof.
  induction ks as [|k ks IH]; cbn; [reflexivity|].
  unfold knownb at 1. destruct (mem_str k known); cbn; rewrite IH; reflexivity.
Qed.

Lemma installs_polls known ks : flat_map (installs known) (map EPoll ks) = [].
Proof. induction ks; cbn; [reflexivity | assumption]. Qed.

Definition esubs (tr : treqs) : list effect := map (fun kq => ESub (fst kq) (snd kq)) tr.

Lemma installs_subs known tr :
  (forall t q, In (t, q) tr -> l_prefix (r_list q) <> None) ->
  flat_map (installs known) (esubs tr) = filter (knownb known) (keys tr).
Proof.
  induction tr as [|[k q] tr IH]; intros H; [reflexivity|].
  cbn [esubs map flat_map fst snd keys filter]. fold (esubs tr). fold (keys tr).
  rewrite IH by (intros t q' Hin; apply (H t q'); right; exact Hin).
  unfold installs, knownb. destruct (mem_str k known); [|reflexivity].
  unfold new_query_target. specialize (H k q (or_introl eq_refl)).
  destruct (l_prefix (r_list q)); [reflexivity | congruence].
Qed.

Lemma split_has_prefix r tr t q : split r = Some tr -> In (t, q) tr -> l_prefix (r_list q) <> None.
Proof.
  intros Hs Hin. destruct (split_spec r tr Hs) as (_ & _ & _ & Ho & _).
  destruct (Ho t q Hin) as (_ & _ & p & Hp & _). congruence.
Qed.

Definition eff_target (e : effect) : str := match e with ESub t _ | EPoll t => t end.

Lemma fwd_deliver known e t :
  fwd_to t (deliver known e) = if eqb_str (eff_target e) t then deliver known e else [].
Proof.
  destruct e as [k q|k]; cbn [deliver eff_target].
  - destruct (mem_str k known); [destruct (new_query_target q)|]; cbn; destruct (eqb_str k t); reflexivity.
  - destruct (mem_str k known); cbn; destruct (eqb_str k t); reflexivity.
Qed.

Lemma fwd_to_app t a b : fwd_to t (a ++ b) = fwd_to t a ++ fwd_to t b.
Proof. apply filter_app. Qed.

(* what the client of t is handed when the split is forwarded: only t's own request, addressed to t *)
Lemma fwd_subs_lookup known tr t :
  NoDup (keys tr) ->
  fwd_to t (flat_map (deliver known) (esubs tr)) =
  match lookup t tr with Some q => deliver known (ESub t q) | None => [] end.
Proof.
  induction tr as [|[k q] tr IH]; intros ND; [reflexivity|].
  inversion ND as [|? ? Hn ND']; subst.
  cbn [esubs map flat_map fst snd lookup]. fold (esubs tr).
  rewrite fwd_to_app, fwd_deliver, (IH ND'). cbn [eff_target].
  destruct (eqb_str k t) eqn:E; [|reflexivity].
  apply eqb_str_eq in E. subst k.
  destruct (lookup t tr) as [q'|] eqn:Hl; [|apply app_nil_r].
  elim Hn. apply lookup_keys. exists q'. exact Hl.
Qed.

Lemma fwd_polls known ks t :
  NoDup ks ->
  fwd_to t (map OPoll (filter (knownb known) ks)) =
  if mem_str t ks && knownb known t then [OPoll t] else [].
Proof.
  rewrite <- deliver_polls.
  induction ks as [|k ks IH]; intros ND; [reflexivity|].
  inversion ND as [|? ? Hn ND']; subst.
  cbn [map flat_map mem_str]. rewrite fwd_to_app, fwd_deliver, (IH ND'). cbn [eff_target].
  destruct (eqb_str k t) eqn:E; [|reflexivity].
  apply eqb_str_eq in E. subst k. rewrite <- mem_str_In in Hn.
  apply not_true_is_false in Hn. rewrite Hn. cbn. unfold knownb.
  destruct (mem_str t known); reflexivity.
Qed.

(* invariant of every reachable stream state *)
Definition inv (known : list str) (st : rstate) : Prop :=
  rs_handlers st = filter (knownb known) (keys (c_treqs (rs_ctx st))) /\
  NoDup (keys (c_treqs (rs_ctx st))) /\
  (c_req (rs_ctx st) = None -> c_treqs (rs_ctx st) = []).

Lemma inv_init known : inv known rstate_init.
Proof. unfold inv; cbn. split; [reflexivity|]. split; [constructor | reflexivity]. Qed.

Lemma rstate_eta st : {| rs_ctx := rs_ctx st; rs_handlers := rs_handlers st |} = st.
Proof. destruct st; reflexivity. Qed.

Definition subscribed_state (known : list str) (r : subreq) (tr : treqs) : rstate :=
  {| rs_ctx := {| c_req := Some r; c_treqs := tr |}; rs_handlers := filter (knownb known) (keys tr) |}.

Lemma subscribed_state_inv known r tr : split r = Some tr -> inv known (subscribed_state known r tr).
Proof.
  intros Hs. destruct (split_spec r tr Hs) as (ND & _).
  repeat split; cbn; [exact ND | discriminate].
Qed.

Lemma step_msg known st m :
  inv known st ->
  do_step known st (SMsg m) =
  match m, c_req (rs_ctx st) with
  | MSub r, None =>
      match split r with
      | Some tr => (flat_map (deliver known) (esubs tr), subscribed_state known r tr, true)
      | None => ([], {| rs_ctx := {| c_req := Some r; c_treqs := [] |}; rs_handlers := [] |}, false)
      end
  | MPoll, Some _ => (map OPoll (rs_handlers st), st, true)
  | _, _ => ([], st, false)
  end.
Proof.
  intros (Hh & _ & Hn). unfold do_step, process. destruct m as [r| |].
  - destruct (c_req (rs_ctx st)) eqn:Hr; [cbn; rewrite app_nil_r, rstate_eta; reflexivity|].
    destruct (split r) as [tr|] eqn:Hs.
    + cbv beta iota. fold (esubs tr).
      rewrite installs_subs by (intros t q; apply (split_has_prefix r tr), Hs).
      rewrite Hh, (Hn eq_refl). reflexivity.
    + cbn. rewrite Hh, (Hn eq_refl). reflexivity.
  - destruct (c_req (rs_ctx st)) eqn:Hr.
    + rewrite <- (map_map fst EPoll), deliver_polls, installs_polls, app_nil_r, rstate_eta, Hh. reflexivity.
    + cbn. rewrite app_nil_r, rstate_eta. reflexivity.
  - cbn. rewrite app_nil_r, rstate_eta. reflexivity.
Qed.

(* Poll on a subscribed stream: forwarded to exactly the subscribed targets, state unchanged *)
Lemma step_poll known st :
  inv known st -> c_req (rs_ctx st) <> None ->
  do_step known st (SMsg MPoll) = (map OPoll (rs_handlers st), st, true).
Proof.
  intros I Hr. rewrite (step_msg known st MPoll I). destruct (c_req (rs_ctx st)); [reflexivity | congruence].
Qed.

(* device message: relayed unchanged iff its target holds a subscription of this stream *)
Lemma step_dev known st t d :
  do_step known st (SDev t d) = (if mem_str t (rs_handlers st) then [relay t d] else [], st, true).
Proof. reflexivity. Qed.

Lemma inv_step known st s o st' ok : inv known st -> do_step known st s = (o, st', ok) -> inv known st'.
Proof.
  intros I H. destruct s as [m|t d].
  - rewrite (step_msg known st m I) in H.
    destruct m as [r| |], (c_req (rs_ctx st)); try (injection H as <- <- <-; exact I).
    destruct (split r) as [tr|] eqn:Hs; injection H as <- <- <-.
    + apply subscribed_state_inv, Hs.
    + repeat split. constructor.
  - rewrite step_dev in H. injection H as <- <- <-. exact I.
Qed.

Lemma inv_run known steps : forall st o st' stp n,
  inv known st -> run_steps known st steps = (o, st', stp, n) -> inv known st'.
Proof.
  induction steps as [|s steps IH]; intros st o st' stp n I H; cbn in H.
  - injection H as <- <- <- <-. exact I.
  - destruct (do_step known st s) as [[o1 st1] ok] eqn:D.
    assert (I1 := inv_step _ _ _ _ _ _ I D).
    destruct ok.
    + destruct (run_steps known st1 steps) as [[[o2 st2] stp2] n2] eqn:R.
      injection H as <- <- <- <-. apply (IH _ _ _ _ _ I1 R).
    + injection H as <- <- <- <-. exact I1.
Qed.

Lemma inv_reachable known steps o st stp n :
  run_steps known rstate_init steps = (o, st, stp, n) -> inv known st.
Proof. apply inv_run, inv_init. Qed.

Lemma run_app known pre : forall st post o1 st1 n1,
  run_steps known st pre = (o1, st1, false, n1) ->
  run_steps known st (pre ++ post) =
  let '(o2, st2, stp, n2) := run_steps known st1 post in (o1 ++ o2, st2, stp, (n1 + n2)%nat).
Proof.
  induction pre as [|s pre IH]; intros st post o1 st1 n1 H; cbn in H.
  - injection H as <- <- <-. cbn. destruct (run_steps known st post) as [[[o2 st2] stp] n2]. reflexivity.
  - cbn [app run_steps]. destruct (do_step known st s) as [[o st'] ok].
    destruct ok; [|discriminate].
    destruct (run_steps known st' pre) as [[[o' st''] stp'] n'] eqn:R.
    injection H as Ho Hst Hstp Hn. subst o1 st1 n1 stp'.
    rewrite (IH _ post _ _ _ R).
    destruct (run_steps known st'' post) as [[[o2 st2] stp] n2]. cbv beta iota. rewrite app_assoc. reflexivity.
Qed.

(* a refusal ends the stream: whatever follows is never looked at *)
Lemma refusal_final known pre m post st o1 st1 n1 :
  run_steps known st pre = (o1, st1, false, n1) ->
  snd (process (rs_ctx st1) m) = false ->
  run_steps known st (pre ++ SMsg m :: post) =
  (o1, {| rs_ctx := fst (fst (process (rs_ctx st1) m)); rs_handlers := rs_handlers st1 |}, true, (n1 + 1)%nat).
Proof.
  intros H R. rewrite (run_app known pre st (SMsg m :: post) o1 st1 n1 H).
  cbn [run_steps do_step]. assert (He := process_refusal_silent _ _ R).
  destruct (process (rs_ctx st1) m) as [[c' effs] ok]. cbn in *. subst. cbn. rewrite !app_nil_r. reflexivity.
Qed.

(* run-level: on a subscribed stream nothing but polls to / relays from the subscribed targets happens,
   and the state never changes again *)
Definition sub_step_obs (st : rstate) (s : step) : list obs :=
  match s with
  | SMsg MPoll => map OPoll (rs_handlers st)
  | SMsg _ => []
  | SDev t d => if mem_str t (rs_handlers st) then [relay t d] else []
  end.

Lemma step_subscribed known st s :
  inv known st -> c_req (rs_ctx st) <> None ->
  exists ok, do_step known st s = (sub_step_obs st s, st, ok).
Proof.
  intros I Hr. destruct s as [m|t d]; [|eexists; reflexivity].
  rewrite (step_msg known st m I). destruct (c_req (rs_ctx st)); [|congruence].
  destruct m; eexists; reflexivity.
Qed.

Lemma run_subscribed known steps : forall st o st' stp n,
  inv known st -> c_req (rs_ctx st) <> None ->
  run_steps known st steps = (o, st', stp, n) ->
  st' = st /\ o = flat_map (sub_step_obs st) (firstn n steps).
Proof.
  intros st o st' stp n I Hr. revert o st' stp n.
  induction steps as [|s steps IH]; intros o st' stp n H; cbn [run_steps] in H.
  - injection H as <- <- <- <-. split; reflexivity.
  - destruct (step_subscribed known st s I Hr) as [ok D]. rewrite D in H. destruct ok.
    + destruct (run_steps known st steps) as [[[o2 st2] stp2] n2].
      injection H as <- <- <- <-. destruct (IH _ _ _ _ eq_refl) as [-> ->]. split; reflexivity.
    + injection H as <- <- <- <-. split; [reflexivity | symmetry; apply app_nil_r].
Qed.

(* run-level: before the subscription device messages have nowhere to go; the first northbound message
   decides: a valid Subscribe is split and forwarded, anything else ends the stream with nothing forwarded *)
Definition is_dev (s : step) : bool := match s with SDev _ _ => true | SMsg _ => false end.

Lemma run_devs known devs st :
  rs_handlers st = [] -> forallb is_dev devs = true ->
  run_steps known st devs = ([], st, false, length devs).
Proof.
  intros Hh. induction devs as [|[m|t d] devs IH]; cbn [forallb is_dev andb]; intros Hd;
    [reflexivity | discriminate |].
  cbn [run_steps do_step]. rewrite Hh, (IH Hd). reflexivity.
Qed.

(* the whole stream, every message sequence *)
Lemma stream_shape known devs m rest :
  forallb is_dev devs = true ->
  run_steps known rstate_init (devs ++ SMsg m :: rest) =
  match m with
  | MSub r =>
      match split r with
      | Some tr =>
          let st := subscribed_state known r tr in
          let '(o, _, stp, n) := run_steps known st rest in
          (flat_map (deliver known) (esubs tr) ++ flat_map (sub_step_obs st) (firstn n rest),
           st, stp, (length devs + S n)%nat)
      | None => ([], {| rs_ctx := {| c_req := Some r; c_treqs := [] |}; rs_handlers := [] |}, true, (length devs + 1)%nat)
      end
  | _ => ([], rstate_init, true, (length devs + 1)%nat)
  end.
Proof.
  intros Hd. rewrite (run_app known devs _ _ _ _ _ (run_devs known devs rstate_init eq_refl Hd)).
  cbn [run_steps]. rewrite (step_msg known rstate_init m (inv_init known)).
  destruct m as [r| |]; cbn; try reflexivity.
  destruct (split r) as [tr|] eqn:Hs; [|reflexivity].
  destruct (run_steps known (subscribed_state known r tr) rest) as [[[o2 st2] stp2] n2] eqn:R.
  destruct (run_subscribed known rest _ _ _ _ _ (subscribed_state_inv known r tr Hs) ltac:(discriminate) R)
    as [-> ->].
  reflexivity.
Qed.

Lemma stream_devs_only known devs :
  forallb is_dev devs = true ->
  run_steps known rstate_init devs = ([], rstate_init, false, length devs).
Proof. apply run_devs. reflexivity. Qed.

Fixpoint sends_of (t : str) (os : list obs) : list str :=
  match os with
  | [] => []
  | OSend t' p :: r => if eqb_str t' t then p :: sends_of t r else sends_of t r
  | _ :: r => sends_of t r
  end.

Fixpoint dev_resps (t : str) (steps : list step) : list str :=
  match steps with
  | [] => []
  | SDev t' (DResp p) :: r => if eqb_str t' t then p :: dev_resps t r else dev_resps t r
  | _ :: r => dev_resps t r
  end.

Lemma sends_of_app t a b : sends_of t (a ++ b) = sends_of t a ++ sends_of t b.
Proof.
  induction a as [|o a IH]; [reflexivity|]. cbn [app sends_of].
  destruct o; try exact IH. destruct (eqb_str t0 t); cbn; rewrite IH; reflexivity.
Qed.

Lemma sends_of_polls t ks : sends_of t (map OPoll ks) = [].
Proof. induction ks; cbn; [reflexivity | assumption]. Qed.

(* the responses of a subscribed target reach the subscriber unchanged, all of them, in order -
   and nothing else is attributed to that target *)
Lemma relay_identity known steps st o st' stp n t :
  inv known st -> In t (rs_handlers st) ->
  run_steps known st steps = (o, st', stp, n) ->
  sends_of t o = dev_resps t (firstn n steps).
Proof.
  intros I Ht H.
  assert (Hr : c_req (rs_ctx st) <> None).
  { destruct I as (Hh & _ & Hn). intros E. rewrite Hh, (Hn E) in Ht. exact Ht. }
  destruct (run_subscribed known steps _ _ _ _ _ I Hr H) as [_ ->].
  generalize (firstn n steps). intros l. induction l as [|s l IH]; [reflexivity|].
  cbn [flat_map]. rewrite sends_of_app, IH. destruct s as [m|t' d].
  - destruct m; cbn [sub_step_obs dev_resps sends_of app]; try reflexivity.
    rewrite sends_of_polls. reflexivity.
  - cbn [sub_step_obs]. destruct (eqb_str t' t) eqn:E.
    + apply eqb_str_eq in E. subst t'. apply mem_str_In in Ht. rewrite Ht.
      destruct d; cbn; rewrite ?eqb_str_refl; reflexivity.
    + destruct (mem_str t' (rs_handlers st)); destruct d; cbn; rewrite ?E; reflexivity.
Qed.

(* nothing is ever relayed on behalf of a target that holds no subscription of this stream *)
Lemma relay_only_subscribed known steps st o st' stp n t :
  inv known st -> c_req (rs_ctx st) <> None -> ~ In t (rs_handlers st) ->
  run_steps known st steps = (o, st', stp, n) ->
  forall x, In x o -> is_relay x = true -> obs_target x <> t.
Proof.
  intros I Hr Ht H x Hx Hrel.
  destruct (run_subscribed known steps _ _ _ _ _ I Hr H) as [_ ->].
  apply in_flat_map in Hx. destruct Hx as [s [_ Hx]].
  destruct s as [m|t' d]; cbn in Hx.
  - destruct m; try contradiction. apply in_map_iff in Hx. destruct Hx as [k [<- _]]. discriminate.
  - destruct (mem_str t' (rs_handlers st)) eqn:M; [|contradiction].
    destruct Hx as [<-|[]]. apply mem_str_In in M. destruct d; cbn; congruence.
Qed.

Definition ex_entry (t b : str) : entry := {| e_target := t; e_body := b |}.
Definition ex_opts : opts := {| o_qos := Some (B "q"); o_mode := 2; o_allow := true; o_models := B "m"; o_enc := 1; o_upd := true |}.
Definition ex_req : subreq :=
  {| r_list := {| l_prefix := Some {| p_target := []; p_origin := B "openconfig"; p_elems := B "/a"; p_element := B "old" |};
                  l_subs := [ex_entry (B "t1") (B "e1"); ex_entry (B "") (B "e2"); ex_entry (B "t2") (B "e3"); ex_entry (B "t1") (B "e4")];
                  l_opts := ex_opts |};
     r_ext := B "x" |}.

Example split_example :
  split ex_req =
  Some [(B "t1", treq_of ex_req (B "t1") [ex_entry (B "t1") (B "e1"); ex_entry (B "t1") (B "e4")]);
        (B "t2", treq_of ex_req (B "t2") [ex_entry (B "t2") (B "e3")])].
Proof. vm_compute. reflexivity. Qed.

Example run_example :
  run [B "t1"; B "t3"]
      [SDev (B "t1") (DResp (B "early")); SMsg (MSub ex_req); SDev (B "t1") (DResp (B "u1")); SMsg MPoll;
       SDev (B "t2") (DResp (B "u2")); SDev (B "t1") DOther; SMsg (MSub ex_req); SMsg MPoll] EndEOF =
  ([OSub (B "t1") (B "t1") (treq_of ex_req (B "t1") [ex_entry (B "t1") (B "e1"); ex_entry (B "t1") (B "e4")]);
    OSend (B "t1") (B "u1"); OPoll (B "t1"); ORelayErr (B "t1")], RInvalid).
Proof. vm_compute. reflexivity. Qed.

(* Subscribe returns Invalid exactly when a message was refused *)
Lemma run_invalid_iff known steps e o res :
  run known steps e = (o, res) ->
  (res = RInvalid <-> snd (fst (run_steps known rstate_init steps)) = true).
Proof.
  unfold run. destruct (run_steps known rstate_init steps) as [[[o' st] stp] n]. cbn.
  intros [= <- <-]. destruct stp; [tauto|]. destruct e; split; discriminate.
Qed.
