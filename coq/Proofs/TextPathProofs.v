(* Textual paths: the ancestors the repaired code scans (path[:i] with path[i] = '/' or '[') are exactly the
   paths the given one is beneath in the sense of utils.IsPathBelow. *)
From Coq Require Import List NArith Bool Lia.
From OC Require Import Base.Bytes Model.Merge Proofs.MergeProofs.
Import ListNotations.
Open Scope N_scope.

Definition proper (p : str) : Prop := p <> [] /\ p <> [c_slash].

Lemma app_cons_neq {A} (a : list A) x r : a <> a ++ x :: r.
Proof. intros E. rewrite <- (app_nil_r a) in E at 1. apply app_inv_head in E. discriminate. Qed.

Lemma bprefixes_spec rest : forall acc a,
  In a (bprefixes acc rest) <-> exists r1 c r2, rest = r1 ++ c :: r2 /\ is_boundary c = true /\ a = acc ++ r1.
Proof.
  induction rest as [|x rest IH]; intros acc a; cbn.
  - split; [intros [] | intros [r1 [c [r2 [H _]]]]; destruct r1; discriminate].
  - rewrite in_app_iff, IH. split.
    + intros [H|[r1 [c [r2 [E [B A]]]]]].
      * destruct (is_boundary x) eqn:Bx; [|destruct H].
        destruct H as [<-|[]]. exists [], x, rest. rewrite app_nil_r. auto.
      * exists (x :: r1), c, r2. subst. rewrite <- app_assoc. auto.
    + intros [r1 [c [r2 [E [B A]]]]]. destruct r1 as [|y r1]; cbn in E; injection E as -> ->.
      * left. rewrite B. left. rewrite app_nil_r in A. auto.
      * right. exists r1, c, r2. rewrite <- app_assoc. auto.
Qed.

Lemma strip_prefix_some a : forall x r, strip_prefix a x = Some r -> x = a ++ r.
Proof.
  induction a as [|c a IH]; intros x r; cbn.
  - intros [= ->]. reflexivity.
  - destruct x as [|y x]; [discriminate|]. destruct (c =? y) eqn:E; [|discriminate].
    apply N.eqb_eq in E. subst y. intros H. f_equal. apply IH. exact H.
Qed.

Lemma strip_prefix_app a r : strip_prefix a (a ++ r) = Some r.
Proof. induction a as [|x a IH]; cbn; [reflexivity|]. rewrite N.eqb_refl. exact IH. Qed.

Lemma in_ancestors_iff x a :
  In a (boundary_ancestors x) <-> a <> [] /\ exists c r, x = a ++ c :: r /\ is_boundary c = true.
Proof.
  unfold boundary_ancestors. destruct x as [|c0 rest].
  - split; [intros [] | intros [_ [c [r [H _]]]]; destruct a; discriminate].
  - rewrite <- in_rev, bprefixes_spec. split.
    + intros [r1 [c [r2 [E [B A]]]]]. subst. split; [discriminate|]. exists c, r2. auto.
    + intros [NE [c [r [E B]]]]. destruct a as [|a0 a]; [congruence|]. cbn in E. injection E as -> ->.
      exists a, c, r. auto.
Qed.

Lemma below_proper x a : proper a ->
  is_path_below x a = match strip_prefix a x with Some (c :: _) => is_boundary c | _ => false end.
Proof. intros [H1 H2]. unfold is_path_below. apply eqb_str_neq in H1, H2. rewrite H1, H2. reflexivity. Qed.

Lemma below_app a c r : proper a -> is_path_below (a ++ c :: r) a = is_boundary c.
Proof. intros P. rewrite (below_proper _ a P), strip_prefix_app. reflexivity. Qed.

Lemma below_iff x a : proper a ->
  (is_path_below x a = true <-> exists c r, x = a ++ c :: r /\ is_boundary c = true).
Proof.
  intros P. split.
  - rewrite (below_proper x a P). destruct (strip_prefix a x) as [[|c r]|] eqn:S; try discriminate.
    intros B. exists c, r. split; [apply strip_prefix_some; exact S | exact B].
  - intros [c [r [-> B]]]. rewrite (below_app a c r P). exact B.
Qed.

Lemma ancestor_below x a : proper a -> (In a (boundary_ancestors x) <-> is_path_below x a = true).
Proof.
  intros P. rewrite in_ancestors_iff, (below_iff x a P). destruct P as [P1 P2]. tauto.
Qed.

Lemma below_trans p t d : proper t -> proper d ->
  is_path_below p t = true -> is_path_below t d = true -> is_path_below p d = true.
Proof.
  intros Pt Pd H1 H2. apply (below_iff p t Pt) in H1. apply (below_iff t d Pd) in H2.
  destruct H1 as [c [r [-> B]]]. destruct H2 as [c' [r' [-> B']]].
  apply (below_iff _ d Pd). exists c', (r' ++ c :: r). rewrite <- app_assoc. cbn. auto.
Qed.

Lemma below_irrefl p : proper p -> is_path_below p p = false.
Proof.
  intros P. destruct (is_path_below p p) eqn:E; [|reflexivity].
  apply (below_iff p p P) in E. destruct E as [c [r [E _]]]. destruct (app_cons_neq _ _ _ E).
Qed.
