(* Proofs about the building half of Model/Tree.v: addPathToTree's list-entry lookup (with its foundkeys
   counter) produces exactly the document Model/TreeSpec.render describes whenever the paths arrive as the
   depth-first enumeration of a well-formed trie. *)
From Coq Require Import List Arith NArith ZArith Bool Lia Permutation.
From OC Require Import Base.Bytes Model.Tree Model.TreeSpec Proofs.TreeProofs.
Import ListNotations.
Open Scope N_scope.

(* ------------------------------------------------------------------ maps *)

Lemma mget_mset_same k v m : mget k (mset k v m) = Some v.
Proof.
  induction m as [|[k' v'] m IH]; cbn.
  - rewrite eqb_str_refl. reflexivity.
  - destruct (eqb_str k k') eqn:E; cbn; rewrite ?eqb_str_refl, ?E; auto.
Qed.

Lemma mget_mset_other k k' v m : k <> k' -> mget k (mset k' v m) = mget k m.
Proof.
  intros Hne. induction m as [|[k2 v2] m IH]; cbn.
  - apply eqb_str_neq in Hne. rewrite Hne. reflexivity.
  - destruct (eqb_str k' k2) eqn:E; cbn.
    + apply eqb_str_eq in E. subst k2. apply eqb_str_neq in Hne. rewrite Hne. reflexivity.
    + destruct (eqb_str k k2); auto.
Qed.

Lemma mset_mset k v v' m : mset k v (mset k v' m) = mset k v m.
Proof.
  induction m as [|[k2 v2] m IH]; cbn.
  - rewrite eqb_str_refl. reflexivity.
  - destruct (eqb_str k k2) eqn:E; cbn; rewrite ?eqb_str_refl, ?E; [reflexivity | f_equal; exact IH].
Qed.

Lemma mset_get_same k v m : mget k m = Some v -> mset k v m = m.
Proof.
  induction m as [|[k' v'] m IH]; cbn; [discriminate|].
  destruct (eqb_str k k') eqn:E.
  - apply eqb_str_eq in E. subst. intros [= ->]. reflexivity.
  - intros H. f_equal. auto.
Qed.

Lemma list_eqb_eq a b : list_eqb a b = true <-> a = b.
Proof.
  revert b; induction a as [|x a IH]; intros [|y b]; cbn; try (split; congruence).
  rewrite andb_true_iff, eqb_str_eq, IH. split; [intros [-> ->]; reflexivity | intros [= -> ->]; auto].
Qed.

(* ------------------------------------------------------------------ tries *)

Lemma trie_ind2 (P : trie -> Prop) :
  (forall v, P (TLeaf v)) -> (forall cs, Forall (fun et => P (snd et)) cs -> P (TNode cs)) -> forall t, P t.
Proof.
  intros HL HN. fix IH 1. intros [v|cs]; [apply HL|]. apply HN.
  induction cs as [|[e c] cs IHcs]; constructor; [apply IH | exact IHcs].
Qed.

Definition pre1 (e : str) (p : list str * tv) : list str * tv := (e :: fst p, snd p).

Lemma dfs_cons e c cs : dfs (TNode ((e, c) :: cs)) = map (pre1 e) (dfs c) ++ dfs (TNode cs).
Proof. reflexivity. Qed.

Lemma dfs_node_in cs p :
  In p (dfs (TNode cs)) <-> exists e c q, In (e, c) cs /\ In q (dfs c) /\ p = pre1 e q.
Proof.
  cbn [dfs]. rewrite in_flat_map. split.
  - intros [[e c] [Hin Hp]]. apply in_map_iff in Hp. destruct Hp as [q [<- Hq]]. exists e, c, q. auto.
  - intros [e [c [q [Hin [Hq ->]]]]]. exists (e, c). split; [exact Hin | apply (in_map (pre1 e)), Hq].
Qed.

Lemma dfs_node_paths_nonempty cs p : In p (dfs (TNode cs)) -> fst p <> [].
Proof. intros H. apply dfs_node_in in H. destruct H as [e [c [q [_ [_ ->]]]]]. discriminate. Qed.

(* ------------------------------------------------------------------ one step of addPathToTree *)

Fixpoint add_all_e (rfc : bool) (ps : list (list str * tv)) (m : amap) : outcome amap :=
  match ps with
  | [] => Ok m
  | p :: ps' => bind (add_elems rfc (fst p) (snd p) false m) (add_all_e rfc ps')
  end.

Lemma add_all_live rfc pvs m :
  add_all rfc pvs m = add_all_e rfc (map (fun p => (split_path (pv_path p), pv_val p)) pvs) m.
Proof.
  revert m; induction pvs as [|p pvs IH]; intros m; [reflexivity|].
  cbn [add_all map add_all_e fst snd]. unfold add_path.
  destruct (add_elems rfc (split_path (pv_path p)) (pv_val p) false m) as [a| |]; cbn [bind]; [apply IH | reflexivity | reflexivity].
Qed.

Lemma add_all_e_app rfc ps qs m :
  add_all_e rfc (ps ++ qs) m = bind (add_all_e rfc ps m) (add_all_e rfc qs).
Proof.
  revert m; induction ps as [|p ps IH]; intros m; [reflexivity|].
  cbn [app add_all_e].
  destruct (add_elems rfc (fst p) (snd p) false m) as [a| |]; cbn [bind]; [apply IH | reflexivity | reflexivity].
Qed.

Lemma add_leaf rfc e v m :
  add_elems rfc [e] v false m =
  match leaf_of rfc v with LNone => Ok m | LPanic => Panic | LVal g => Ok (mset e (NLeaf g) m) end.
Proof. reflexivity. Qed.

(* the rest of a well-formed path: not empty, re-splitting is the identity, re-joined it is not empty *)
Definition rest_ok (rest : list str) : Prop :=
  rest <> [] /\ resplit rest = rest /\ join [c_slash] rest <> [].

Lemma normalb_rest e rest : normalb (e :: rest) = true -> rest <> [] -> rest_ok rest /\ normalb rest = true.
Proof.
  cbn. rewrite !andb_true_iff. intros [[_ H2] H3] Hne. split; [|exact H3].
  destruct rest as [|r rest]; [contradiction|]. split; [discriminate|]. split.
  - apply list_eqb_eq. exact H2.
  - cbn in H3. rewrite !andb_true_iff in H3. destruct H3 as [[H3 _] _].
    apply negb_true_iff, eqb_str_neq in H3. destruct rest as [|r2 rest]; cbn; [exact H3|].
    destruct r; [contradiction H3; reflexivity | discriminate].
Qed.

Lemma add_plain rfc e rest v m :
  classify e = EPlain -> rest_ok rest ->
  add_elems rfc (e :: rest) v false m =
  match mget e m with
  | None => bind (add_elems rfc rest v false []) (fun c => Ok (mset e (NMap c) m))
  | Some (NMap c) => bind (add_elems rfc rest v false c) (fun c' => Ok (mset e (NMap c') m))
  | Some _ => Err
  end.
Proof.
  unfold classify. intros He [Hne [Hrs Hj]]. unfold add_elems at 1. cbn [List.length add_fuel]. unfold add_level.
  destruct rest as [|r rest]; [contradiction|].
  destruct (contains e [c_eq]); [destruct (parse_elem e); discriminate|].
  destruct (join [c_slash] (r :: rest)) eqn:Ej; [contradiction|]. rewrite Hrs.
  unfold add_elems. destruct (mget e m) as [[g|c|l]|]; reflexivity.
Qed.

(* what addPathToTree does with the list l called n once the element's key map K is known; m1 is the member map *)
Definition entry_cont (rfc : bool) (n : str) (K : list (str * str)) (rest : list str) (v : tv)
           (m1 : amap) (l : list node) : outcome amap :=
  bind (search K l O O None) (fun r =>
    if (fst r <? List.length K)%nat then
      bind (add_elems rfc rest v false (keymap_node K)) (fun en => Ok (mset n (NArr (l ++ [NMap en])) m1))
    else
      match snd r with
      | Some i =>
        match nth_error l i with
        | Some (NMap em) => bind (add_elems rfc rest v false em) (fun en => Ok (mset n (NArr (replace_nth i (NMap en) l)) m1))
        | _ => Panic
        end
      | None => bind (add_elems rfc rest v true []) (fun _ => Ok m1)
      end).

Lemma add_keyed rfc e n K rest v m :
  classify e = EKeyed n K -> rest_ok rest ->
  add_elems rfc (e :: rest) v false m =
  match mget n m with
  | None => entry_cont rfc n K rest v (mset n (NArr []) m) []
  | Some (NArr l) => entry_cont rfc n K rest v m l
  | Some _ => Err
  end.
Proof.
  unfold classify. intros He [Hne [Hrs Hj]]. unfold add_elems at 1. cbn [List.length add_fuel]. unfold add_level.
  destruct rest as [|r rest]; [contradiction|].
  destruct (contains e [c_eq]); [|discriminate].
  destruct (parse_elem e) as [[n' K']| |]; try discriminate. injection He as -> ->.
  destruct (join [c_slash] (r :: rest)) eqn:Ej; [contradiction|]. cbn [bind fst snd]. rewrite Hrs.
  reflexivity.
Qed.

(* ------------------------------------------------------------------ the entry lookup *)

Definition is_map (x : node) : Prop := match x with NMap _ => True | _ => False end.

(* every key of K is a member of em and reads (convertBasicType) as K says *)
Definition full_match (K : list (str * str)) (em : amap) : Prop :=
  forall k v, In (k, v) K -> exists x, mget k em = Some x /\ conv x = v.

(* every key of K is a member of em ([all_present]) and at least one reads differently ([some_differs]) *)
Definition all_present (K : list (str * str)) (em : amap) : Prop :=
  forall k v, In (k, v) K -> exists x, mget k em = Some x.

Definition some_differs (K : list (str * str)) (em : amap) : Prop :=
  exists k v x, In (k, v) K /\ mget k em = Some x /\ conv x <> v.

Lemma scan_full K em i : forall cnt last,
  full_match K em -> K <> [] -> scan_entry K em i cnt last = ((cnt + List.length K)%nat, Some i).
Proof.
  induction K as [|[k v] K IH]; intros cnt last Hf Hne; [contradiction|].
  cbn. destruct (Hf k v (or_introl eq_refl)) as [x [Hx Hc]]. rewrite Hx, Hc, eqb_str_refl.
  destruct K as [|kv K].
  - cbn. f_equal. lia.
  - rewrite IH; [f_equal; cbn; lia | | discriminate].
    intros k' v' Hin. apply Hf. right. exact Hin.
Qed.

Lemma scan_differs K em i : forall cnt last,
  all_present K em -> some_differs K em -> fst (scan_entry K em i cnt last) = O.
Proof.
  induction K as [|[k v] K IH]; intros cnt last Hp [k0 [v0 [x0 [Hin [Hx Hd]]]]]; [destruct Hin|].
  cbn. destruct (Hp k v (or_introl eq_refl)) as [x Hxk]. rewrite Hxk.
  destruct (eqb_str (conv x) v) eqn:E; [|reflexivity].
  apply IH.
  - intros k' v' H'. apply (Hp k' v'). right. exact H'.
  - destruct Hin as [Hin|Hin].
    + injection Hin as <- <-. rewrite Hx in Hxk. injection Hxk as ->. apply eqb_str_eq in E. contradiction.
    + exists k0, v0, x0. auto.
Qed.

Lemma search_app K l x : forall i cnt last,
  search K (l ++ [x]) i cnt last =
  bind (search K l i cnt last) (fun r => search K [x] (i + List.length l)%nat (fst r) (snd r)).
Proof.
  induction l as [|y l IH]; intros i cnt last; cbn [app search List.length].
  - cbn. rewrite Nat.add_0_r. reflexivity.
  - destruct y as [g|em|l0]; [reflexivity| |reflexivity].
    rewrite IH. replace (S i + List.length l)%nat with (i + S (List.length l))%nat by lia. reflexivity.
Qed.

Lemma search_maps K l : forall i cnt last,
  Forall is_map l -> exists r, search K l i cnt last = Ok r.
Proof.
  induction l as [|y l IH]; intros i cnt last Hm; cbn; [eexists; reflexivity|].
  inversion Hm as [|? ? Hy Hl]; subst. destruct y; try contradiction. apply IH. exact Hl.
Qed.

Lemma replace_nth_last {A} (l : list A) x y : replace_nth (List.length l) y (l ++ [x]) = l ++ [y].
Proof. induction l as [|z l IH]; cbn; [reflexivity | f_equal; exact IH]. Qed.

(* the state of a list before a new entry is appended: no entry yet, or the last entry has all the keys
   and differs in one of them *)
Definition last_differs (K : list (str * str)) (l : list node) : Prop :=
  l = [] \/ exists l' em, l = l' ++ [NMap em] /\ Forall is_map l' /\ all_present K em /\ some_differs K em.

Lemma last_differs_maps K l : last_differs K l -> Forall is_map l.
Proof.
  intros [-> | [l' [em [-> [Hm _]]]]]; [constructor|].
  apply Forall_app. split; [exact Hm | constructor; [exact I | constructor]].
Qed.

(* the list called n in m is l; a list not yet there counts as empty *)
Definition arr_is (n : str) (m : amap) (l : list node) : Prop :=
  mget n m = None /\ l = [] \/ mget n m = Some (NArr l).

(* only the last entry decides: when it has all the keys and one of them differs, a new entry is appended ... *)
Lemma entry_cont_new rfc n K rest v m1 l :
  K <> [] -> last_differs K l ->
  entry_cont rfc n K rest v m1 l =
  bind (add_elems rfc rest v false (keymap_node K)) (fun en => Ok (mset n (NArr (l ++ [NMap en])) m1)).
Proof.
  intros HK Hld. unfold entry_cont.
  assert (Hs : exists r, search K l O O None = Ok r /\ fst r = O).
  { destruct Hld as [-> | [l' [em [-> [Hm [Hap Hsd]]]]]]; [eexists; split; reflexivity|].
    rewrite search_app. destruct (search_maps K l' O O None Hm) as [r ->]. cbn [bind search].
    eexists. split; [reflexivity | apply scan_differs; assumption]. }
  destruct Hs as [r [-> Hr]]. cbn [bind]. rewrite Hr.
  destruct K; [contradiction | reflexivity].
Qed.

(* ... and when it matches in full, the path goes into it *)
Lemma entry_cont_same rfc n K rest v m1 l c1 :
  K <> [] -> Forall is_map l -> full_match K c1 ->
  entry_cont rfc n K rest v m1 (l ++ [NMap c1]) =
  bind (add_elems rfc rest v false c1) (fun en => Ok (mset n (NArr (l ++ [NMap en])) m1)).
Proof.
  intros HK Hm Hf. unfold entry_cont. rewrite search_app.
  destruct (search_maps K l O O None Hm) as [r ->]. cbn [bind search Nat.add].
  rewrite scan_full by assumption. cbn [fst snd].
  replace (fst r + List.length K <? List.length K)%nat with false by (symmetry; apply Nat.ltb_ge; lia).
  rewrite nth_error_app_len. cbn [hd_error].
  destruct (add_elems rfc rest v false c1); cbn [bind]; rewrite ?replace_nth_last; reflexivity.
Qed.

Lemma bind_ok {A C} (x : outcome A) (f : A -> outcome C) r :
  bind x f = Ok r -> exists a, x = Ok a /\ f a = Ok r.
Proof. destruct x; cbn; intros H; try discriminate. eexists; eauto. Qed.

Lemma entry_cont_other rfc n K rest v m1 l m' k :
  entry_cont rfc n K rest v m1 l = Ok m' -> k <> n -> mget k m' = mget k m1.
Proof.
  unfold entry_cont. intros H Hk. apply bind_ok in H. destruct H as [r [_ H]].
  destruct (fst r <? List.length K)%nat.
  - apply bind_ok in H. destruct H as [en [_ [= <-]]]. apply mget_mset_other, Hk.
  - destruct (snd r) as [i|].
    + destruct (nth_error l i) as [[g|em|l0]|]; try discriminate.
      apply bind_ok in H. destruct H as [en [_ [= <-]]]. apply mget_mset_other, Hk.
    + apply bind_ok in H. destruct H as [en [_ [= <-]]]. reflexivity.
Qed.

(* ------------------------------------------------------------------ a run of paths sharing their first element *)

(* Seen from the member that e stands for: if adding e :: r to the parent wrap c is adding r to c and wrapping the
   result, for every state c the run can reach (Inv), then the whole run is the run below e, wrapped. *)
Lemma run_under rfc e (wrap : amap -> amap) (Inv : amap -> Prop) ps :
  Forall (fun p => forall c, Inv c ->
            add_elems rfc (e :: fst p) (snd p) false (wrap c) =
            bind (add_elems rfc (fst p) (snd p) false c) (fun c' => Ok (wrap c')) /\
            forall c', add_elems rfc (fst p) (snd p) false c = Ok c' -> Inv c') ps ->
  forall c, Inv c ->
  add_all_e rfc (map (pre1 e) ps) (wrap c) = bind (add_all_e rfc ps c) (fun c' => Ok (wrap c')).
Proof.
  induction 1 as [|p ps Hp _ IH]; intros c Hc; [reflexivity|].
  destruct (Hp c Hc) as [Hstep Hinv]. cbn [map add_all_e pre1 fst snd]. rewrite Hstep.
  destruct (add_elems rfc (fst p) (snd p) false c) as [c1| |]; cbn [bind];
    [apply IH, Hinv; reflexivity | reflexivity | reflexivity].
Qed.

Lemma group_plain rfc e ps m :
  classify e = EPlain -> Forall (fun p => rest_ok (fst p)) ps -> ps <> [] -> mget e m = None ->
  add_all_e rfc (map (pre1 e) ps) m = bind (add_all_e rfc ps []) (fun c' => Ok (mset e (NMap c') m)).
Proof.
  intros He Hok Hne Hg. destruct Hok as [|p ps Hp Hps]; [contradiction|].
  cbn [map add_all_e pre1 fst snd]. rewrite (add_plain _ _ _ _ _ He Hp), Hg.
  destruct (add_elems rfc (fst p) (snd p) false []) as [c1| |]; cbn [bind]; try reflexivity.
  apply (run_under rfc e (fun c => mset e (NMap c) m) (fun _ => True)); [|exact I].
  eapply Forall_impl; [|exact Hps]. intros q Hq c _. split; [|auto].
  rewrite (add_plain _ _ _ _ _ He Hq), mget_mset_same.
  destruct (add_elems rfc (fst q) (snd q) false c); cbn [bind]; rewrite ?mset_mset; reflexivity.
Qed.

(* adding path p to an entry that answers to K leaves an entry that answers to K *)
Definition keeps_keys (rfc : bool) (K : list (str * str)) (p : list str * tv) : Prop :=
  forall em em', full_match K em -> add_elems rfc (fst p) (snd p) false em = Ok em' -> full_match K em'.

Lemma group_keyed rfc e n K ps :
  classify e = EKeyed n K -> K <> [] ->
  Forall (fun p => rest_ok (fst p) /\ keeps_keys rfc K p) ps ->
  full_match K (keymap_node K) ->
  forall m l, arr_is n m l -> last_differs K l -> ps <> [] ->
  add_all_e rfc (map (pre1 e) ps) m =
  bind (add_all_e rfc ps (keymap_node K)) (fun c' => Ok (mset n (NArr (l ++ [NMap c'])) m)).
Proof.
  intros He HK Hok Hf0 m l Hst Hld Hne. destruct Hok as [|p ps [Hp Hpres] Hps]; [contradiction|].
  (* the first path opens the entry, the others find it *)
  assert (Hp1 : add_elems rfc (e :: fst p) (snd p) false m =
                bind (add_elems rfc (fst p) (snd p) false (keymap_node K)) (fun en => Ok (mset n (NArr (l ++ [NMap en])) m))).
  { rewrite (add_keyed _ _ _ _ _ _ _ He Hp).
    destruct Hst as [[-> ->] | ->]; rewrite entry_cont_new by (assumption || (left; reflexivity)); [|reflexivity].
    destruct (add_elems rfc (fst p) (snd p) false (keymap_node K)); cbn [bind]; rewrite ?mset_mset; reflexivity. }
  cbn [map add_all_e pre1 fst snd]. rewrite Hp1.
  destruct (add_elems rfc (fst p) (snd p) false (keymap_node K)) as [c1| |] eqn:E; cbn [bind]; try reflexivity.
  apply (run_under rfc e (fun c => mset n (NArr (l ++ [NMap c])) m) (full_match K)); [|exact (Hpres _ _ Hf0 E)].
  eapply Forall_impl; [|exact Hps]. intros q [Hq Hqres] c Hc. split; [|intros c' Hc'; exact (Hqres _ _ Hc Hc')].
  rewrite (add_keyed _ _ _ _ _ _ _ He Hq), mget_mset_same, entry_cont_same
    by (assumption || apply (last_differs_maps K l Hld)).
  destruct (add_elems rfc (fst q) (snd q) false c); cbn [bind]; rewrite ?mset_mset; reflexivity.
Qed.

(* ------------------------------------------------------------------ what one path touches *)

Lemma touch_plain rfc e rest v m m' :
  classify e = EPlain -> rest_ok rest ->
  add_elems rfc (e :: rest) v false m = Ok m' -> forall k, k <> e -> mget k m' = mget k m.
Proof.
  intros He Hr H k Hk. rewrite add_plain in H; auto.
  destruct (mget e m) as [[g|c|l]|]; try discriminate;
    apply bind_ok in H; destruct H as [c1 [_ [= <-]]]; apply mget_mset_other, Hk.
Qed.

Lemma touch_keyed rfc e n K rest v m m' :
  classify e = EKeyed n K -> rest_ok rest ->
  add_elems rfc (e :: rest) v false m = Ok m' -> forall k, k <> n -> mget k m' = mget k m.
Proof.
  intros He Hr H k Hk. rewrite (add_keyed _ _ _ _ _ _ _ He Hr) in H.
  destruct (mget n m) as [[g|c|l]|]; try discriminate; rewrite (entry_cont_other _ _ _ _ _ _ _ _ _ H Hk);
    [reflexivity | apply mget_mset_other, Hk].
Qed.

(* ------------------------------------------------------------------ facts read off wf_trie *)

Lemma nodupb_NoDup l : nodupb l = true -> NoDup l.
Proof.
  induction l as [|x l IH]; cbn; [constructor|]. rewrite andb_true_iff, negb_true_iff, <- not_true_iff_false, mem_In.
  intros [H1 H2]. constructor; auto.
Qed.

Lemma kget_In k v K : NoDup (map fst K) -> In (k, v) K -> kget k K = Some v.
Proof.
  unfold kget. induction K as [|[k' v'] K IH]; cbn; intros Hnd Hin; [destruct Hin|].
  inversion Hnd as [|? ? Hni Hnd']; subst. destruct Hin as [Hin|Hin].
  - injection Hin as -> ->. rewrite eqb_str_refl. reflexivity.
  - destruct (eqb_str k' k) eqn:E.
    + apply eqb_str_eq in E. subst k'. exfalso. apply Hni. apply (in_map fst) in Hin. exact Hin.
    + apply IH; auto.
Qed.

Lemma mget_keymap_kget k K : mget k (keymap_node K) = option_map (fun v => NLeaf (GStr v)) (kget k K).
Proof.
  unfold kget. induction K as [|[k' v] K IH]; [reflexivity|]. cbn.
  rewrite (eqb_str_sym k' k). destruct (eqb_str k k'); [reflexivity | exact IH].
Qed.

Lemma mget_keymap_none K k : ~ In k (map fst K) -> mget k (keymap_node K) = None.
Proof.
  induction K as [|[k' v'] K IH]; cbn; intros Hni; [reflexivity|].
  destruct (eqb_str k k') eqn:E.
  - apply eqb_str_eq in E. subst. exfalso. apply Hni. left. reflexivity.
  - apply IH. intros H. apply Hni. right. exact H.
Qed.

Lemma full_match_keymap K : NoDup (map fst K) -> full_match K (keymap_node K).
Proof.
  intros Hnd k v Hin. eexists. split; [rewrite mget_keymap_kget, (kget_In _ _ _ Hnd Hin)|]; reflexivity.
Qed.

(* the conditions wf_trie puts on one child, given the key map K0 of the enclosing entry *)
Definition child_ok (rfc : bool) (ks : list str -> list str) (sp : list str) (K0 : list (str * str)) (et : str * trie) : Prop :=
  match snd et with
  | TLeaf v =>
    match leaf_of rfc v with
    | LPanic => False
    | LNone => True
    | LVal g => forall kv, kget (fst et) K0 = Some kv -> conv_gov g = kv
    end
  | TNode _ =>
    match classify (fst et) with
    | EPlain => ~ In (fst et) (map fst K0) /\ wf_trie rfc ks (sp ++ [fst et]) [] (snd et) = true
    | EKeyed n K =>
      ~ In n (map fst K0) /\ K <> [] /\ NoDup (map fst K) /\ map fst K = ks (sp ++ [n]) /\
      wf_trie rfc ks (sp ++ [n]) K (snd et) = true
    | EBad => False
    end
  end.

Lemma wf_trie_node rfc ks sp K0 cs :
  wf_trie rfc ks sp K0 (TNode cs) = true ->
  cs <> [] /\ pairwise compat cs = true /\ Forall (child_ok rfc ks sp K0) cs.
Proof.
  cbn [wf_trie]. rewrite !andb_true_iff, negb_true_iff. intros [[H1 H2] H3].
  split; [destruct cs; [discriminate | discriminate]|]. split; [exact H2|].
  rewrite forallb_forall in H3. apply Forall_forall. intros et Hin. specialize (H3 et Hin).
  unfold child_ok. destruct (snd et) as [v|cs'].
  - destruct (leaf_of rfc v) as [|g|]; [exact I | | discriminate].
    intros kv Hk. rewrite Hk in H3. apply eqb_str_eq. exact H3.
  - destruct (classify (fst et)) as [|n K|]; [| |discriminate];
      rewrite !andb_true_iff, !negb_true_iff, <- not_true_iff_false, mem_In in H3.
    + exact H3.
    + destruct H3 as [[[[H3 H4] H5] H6] H7]. repeat split; auto.
      * destruct K; [discriminate | discriminate].
      * apply nodupb_NoDup. exact H5.
      * apply list_eqb_eq. exact H6.
Qed.

Lemma wf_dfs_nonempty rfc ks t : forall sp K0, wf_trie rfc ks sp K0 t = true -> dfs t <> [].
Proof.
  induction t as [v|cs IH] using trie_ind2; intros sp K0 Hwf; [discriminate|].
  destruct (wf_trie_node _ _ _ _ _ Hwf) as [Hne [_ Hall]].
  destruct cs as [|[e c] cs]; [contradiction|].
  inversion Hall as [|? ? Hc _]; subst. inversion IH as [|? ? IHc _]; subst.
  rewrite dfs_cons. unfold child_ok in Hc. cbn [fst snd] in Hc, IHc. destruct c as [v|cs']; [discriminate|].
  assert (Hd : dfs (TNode cs') <> []).
  { destruct (classify e) as [|n' K|]; [eapply IHc, Hc | eapply IHc, Hc | contradiction]. }
  destruct (dfs (TNode cs')); [contradiction | discriminate].
Qed.

(* ------------------------------------------------------------------ an entry keeps answering to its keys *)

Lemma full_match_other K em em' name :
  ~ In name (map fst K) -> (forall k, k <> name -> mget k em' = mget k em) -> full_match K em -> full_match K em'.
Proof.
  intros Hni Hsame Hf k v Hin. destruct (Hf k v Hin) as [y [Hy Hc]]. exists y. split; [|exact Hc].
  rewrite Hsame; [exact Hy|]. intros ->. apply Hni. apply (in_map fst) in Hin. exact Hin.
Qed.

Lemma full_match_leaf K em e g :
  NoDup (map fst K) -> (forall kv, kget e K = Some kv -> conv_gov g = kv) ->
  full_match K em -> full_match K (mset e (NLeaf g) em).
Proof.
  intros Hnd Hag Hf k v Hin. destruct (str_eq_dec k e) as [->|Hne].
  - exists (NLeaf g). split; [apply mget_mset_same|]. cbn. apply Hag. apply kget_In; auto.
  - destruct (Hf k v Hin) as [y [Hy Hc]]. exists y. split; [|exact Hc]. rewrite mget_mset_other; auto.
Qed.

Lemma fm_preserved rfc ks sp K cs p :
  NoDup (map fst K) -> Forall (child_ok rfc ks sp K) cs ->
  In p (dfs (TNode cs)) -> normalb (fst p) = true -> keeps_keys rfc K p.
Proof.
  intros Hnd Hall Hin Hnorm em em' Hf Hadd.
  apply dfs_node_in in Hin. destruct Hin as [e [c [q [Hec [Hq ->]]]]]. cbn [pre1 fst snd] in *.
  rewrite Forall_forall in Hall. specialize (Hall _ Hec). unfold child_ok in Hall. cbn [fst snd] in Hall.
  destruct c as [v|cs'].
  - cbn in Hq. destruct Hq as [<-|[]]. cbn [fst snd] in *. rewrite add_leaf in Hadd.
    destruct (leaf_of rfc v) as [|g|]; [injection Hadd as <-; exact Hf | | discriminate].
    injection Hadd as <-. apply full_match_leaf; auto.
  - assert (Hqne : fst q <> []) by (eapply dfs_node_paths_nonempty; eauto).
    destruct (normalb_rest _ _ Hnorm Hqne) as [Hrest _].
    destruct (classify e) as [|n K'|] eqn:Ecl; [| |contradiction]; destruct Hall as [Hni _];
      (eapply full_match_other; [exact Hni | | exact Hf]); intros k Hk.
    + eapply touch_plain; eauto.
    + eapply touch_keyed; eauto.
Qed.

(* ------------------------------------------------------------------ the rendered document, child by child *)

Definition put_child (rfc : bool) (et : str * trie) (m : amap) : amap :=
  match snd et with
  | TLeaf v => leaf_put rfc (fst et) v m
  | TNode _ =>
    match classify (fst et) with
    | EPlain => mset (fst et) (NMap (render_cs rfc (snd et) [])) m
    | EKeyed n K => arr_append n (NMap (render_cs rfc (snd et) (keymap_node K))) m
    | EBad => m
    end
  end.

Lemma render_cs_cons rfc et cs m : render_cs rfc (TNode (et :: cs)) m = render_cs rfc (TNode cs) (put_child rfc et m).
Proof. reflexivity. Qed.

Lemma put_child_other rfc et m k : k <> child_name et -> mget k (put_child rfc et m) = mget k m.
Proof.
  unfold put_child, child_name, leaf_put, arr_append. intros H. destruct (snd et) as [v|cs].
  - destruct (leaf_of rfc v); [reflexivity | apply mget_mset_other, H | reflexivity].
  - destruct (classify (fst et)) as [|n K|]; [apply mget_mset_other, H | | reflexivity].
    destruct (mget n m) as [[g|c|l]|]; apply mget_mset_other, H.
Qed.

Lemma put_child_full_match rfc ks sp K et m :
  NoDup (map fst K) -> child_ok rfc ks sp K et -> full_match K m -> full_match K (put_child rfc et m).
Proof.
  intros Hnd Hok Hf. pose proof (put_child_other rfc et m) as Ho. unfold child_ok in Hok. unfold put_child, child_name in *.
  destruct (snd et) as [v|cs].
  - unfold leaf_put. destruct (leaf_of rfc v) as [|g|]; [exact Hf | | exact Hf]. apply full_match_leaf; auto.
  - destruct (classify (fst et)) as [|n K'|]; [| |exact Hf]; destruct Hok as [Hni _];
      exact (full_match_other _ _ _ _ Hni Ho Hf).
Qed.

Lemma render_full_match rfc ks sp K cs :
  NoDup (map fst K) -> wf_trie rfc ks sp K (TNode cs) = true ->
  full_match K (render_cs rfc (TNode cs) (keymap_node K)).
Proof.
  intros Hnd Hwf. destruct (wf_trie_node _ _ _ _ _ Hwf) as [_ [_ Hall]]. clear Hwf.
  generalize (full_match_keymap K Hnd). generalize (keymap_node K).
  induction Hall as [|et cs Het _ IH]; intros m Hm; [exact Hm|].
  rewrite render_cs_cons. eapply IH, put_child_full_match; eauto.
Qed.

(* ------------------------------------------------------------------ two different key maps over the same key names *)

Lemma kv_differs Ka : forall Kb,
  map fst Ka = map fst Kb -> kv_eqb Ka Kb = false ->
  exists k va vb, In (k, va) Ka /\ In (k, vb) Kb /\ va <> vb.
Proof.
  induction Ka as [|[k va] Ka IH]; intros [|[k' vb] Kb]; cbn; try discriminate.
  intros [= -> Hn] He. destruct (eqb_str va vb) eqn:Ev.
  - rewrite eqb_str_refl in He. cbn in He. destruct (IH Kb Hn He) as [k0 [a [b [H1 [H2 H3]]]]].
    exists k0, a, b. auto.
  - exists k', va, vb. apply eqb_str_neq in Ev. auto.
Qed.

Lemma differs_after Ka Kb em :
  map fst Ka = map fst Kb -> kv_eqb Ka Kb = false -> full_match Ka em ->
  all_present Kb em /\ some_differs Kb em.
Proof.
  intros Hn He Hf. split.
  - intros k v Hin. apply (in_map fst) in Hin. cbn [fst] in Hin. rewrite <- Hn in Hin.
    apply in_map_iff in Hin. destruct Hin as [[k' v'] [<- Hin]]. destruct (Hf k' v' Hin) as [x [Hx _]]. exists x. exact Hx.
  - destruct (kv_differs Ka Kb Hn He) as [k [va [vb [H1 [H2 H3]]]]].
    destruct (Hf k va H1) as [x [Hx Hc]]. exists k, vb, x. repeat split; auto. congruence.
Qed.

(* ------------------------------------------------------------------ the main induction *)

(* what the member map must look like just before a child is rendered into it; K0 is the key map it started from *)
Definition ready (K0 : list (str * str)) (m : amap) (et : str * trie) : Prop :=
  match snd et with
  | TLeaf _ => mget (fst et) m = mget (fst et) (keymap_node K0)
  | TNode _ =>
    match classify (fst et) with
    | EPlain => mget (fst et) m = None
    | EKeyed n K => exists l, arr_is n m l /\ last_differs K l
    | EBad => False
    end
  end.

Lemma mget_arr_append n x m l :
  arr_is n m l ->
  arr_append n x m = mset n (NArr (l ++ [x])) m.
Proof. unfold arr_append. intros [[-> ->] | ->]; reflexivity. Qed.

Lemma ready_initial rfc ks sp K0 et : child_ok rfc ks sp K0 et -> ready K0 (keymap_node K0) et.
Proof.
  unfold child_ok, ready. destruct (snd et) as [v|cs]; [reflexivity|].
  destruct (classify (fst et)) as [|n K|]; [| |auto].
  - intros [Hni _]. apply mget_keymap_none. exact Hni.
  - intros [Hni _]. exists []. split; [left; split; [apply mget_keymap_none; exact Hni | reflexivity] | left; reflexivity].
Qed.

Lemma ready_after rfc ks sp K0 et et' m :
  child_ok rfc ks sp K0 et -> child_ok rfc ks sp K0 et' -> compat et et' = true ->
  ready K0 m et -> ready K0 m et' -> ready K0 (put_child rfc et m) et'.
Proof.
  intros Hok Hok' Hc Hr Hr'. unfold compat in Hc.
  destruct (eqb_str (child_name et) (child_name et')) eqn:En.
  - apply eqb_str_eq in En. unfold ready, child_ok, child_name, put_child in *.
    destruct (snd et) as [v|cs]; [destruct (snd et'); discriminate|].
    destruct (snd et') as [v'|cs']; [discriminate|].
    destruct (classify (fst et)) as [|n K|] eqn:E1; try discriminate.
    destruct (classify (fst et')) as [|n' K'|] eqn:E2; try discriminate.
    subst n'. apply negb_true_iff in Hc.
    destruct Hr as [l [Hst Hld]].
    destruct Hok as [_ [_ [Hnd [Hks Hwf]]]]. destruct Hok' as [_ [_ [_ [Hks' _]]]].
    pose proof (render_full_match rfc ks (sp ++ [n]) K cs Hnd Hwf) as Hfm.
    exists (l ++ [NMap (render_cs rfc (TNode cs) (keymap_node K))]). split.
    + right. rewrite (mget_arr_append n _ m l Hst). apply mget_mset_same.
    + right. eexists l, _. split; [reflexivity|]. split; [eapply last_differs_maps; eauto|].
      apply (differs_after K K'); auto. congruence.
  - apply eqb_str_neq in En.
    assert (Hsame : mget (child_name et') (put_child rfc et m) = mget (child_name et') m)
      by (apply put_child_other; congruence).
    unfold ready, child_name in *. destruct (snd et') as [v'|cs']; [congruence|].
    destruct (classify (fst et')) as [|n' K'|]; [congruence | | exact Hr'].
    destruct Hr' as [l Hl]. exists l. unfold arr_is. rewrite Hsame. exact Hl.
Qed.

Lemma children_ind rfc ks sp K0 (P : list (str * trie) -> amap -> Prop) :
  (forall m, P [] m) ->
  (forall et cs m, child_ok rfc ks sp K0 et -> ready K0 m et -> P cs (put_child rfc et m) -> P (et :: cs) m) ->
  forall cs, wf_trie rfc ks sp K0 (TNode cs) = true -> P cs (keymap_node K0).
Proof.
  intros Hnil Hcons cs Hwf. destruct (wf_trie_node _ _ _ _ _ Hwf) as [_ [Hpw Hok]].
  assert (Hr : Forall (ready K0 (keymap_node K0)) cs) by (eapply Forall_impl; [|exact Hok]; apply ready_initial).
  clear Hwf. revert Hr. generalize (keymap_node K0).
  induction Hok as [|et cs Hok1 Hok2 IH]; intros m Hr; [apply Hnil|].
  cbn [pairwise] in Hpw. apply andb_true_iff in Hpw. destruct Hpw as [Hc Hpw].
  inversion Hr as [|? ? Hr1 Hr2]; subst.
  apply Hcons; [exact Hok1 | exact Hr1 | apply IH; [exact Hpw|]].
  rewrite forallb_forall in Hc. rewrite Forall_forall in *. intros et' Hin. eapply ready_after; eauto.
Qed.

Lemma normal_under e cs :
  Forall (fun p => normalb (fst p) = true) (map (pre1 e) (dfs (TNode cs))) ->
  Forall (fun p => rest_ok (fst p)) (dfs (TNode cs)) /\ Forall (fun p => normalb (fst p) = true) (dfs (TNode cs)).
Proof.
  rewrite Forall_map, !Forall_forall. intros H.
  split; intros p Hp; apply (normalb_rest e _ (H p Hp) (dfs_node_paths_nonempty cs p Hp)).
Qed.

Section Main.
  Context (rfc : bool) (ks : list str -> list str).

  Definition build_ok (t : trie) : Prop :=
    forall sp K0,
      wf_trie rfc ks sp K0 t = true ->
      Forall (fun p => normalb (fst p) = true) (dfs t) ->
      add_all_e rfc (dfs t) (keymap_node K0) = Ok (render_cs rfc t (keymap_node K0)).

  Lemma child_step sp K0 e c m :
    build_ok c -> child_ok rfc ks sp K0 (e, c) -> ready K0 m (e, c) ->
    Forall (fun p => normalb (fst p) = true) (map (pre1 e) (dfs c)) ->
    add_all_e rfc (map (pre1 e) (dfs c)) m = Ok (put_child rfc (e, c) m).
  Proof.
    intros IH Hok Hr Hnorm. unfold child_ok, ready, put_child in *. cbn [fst snd] in *.
    destruct c as [v|cs].
    - cbn [dfs map pre1 add_all_e fst snd]. rewrite add_leaf. unfold leaf_put.
      destruct (leaf_of rfc v); [reflexivity | reflexivity | contradiction].
    - destruct (normal_under _ _ Hnorm) as [Hrest Hnorm'].
      destruct (classify e) as [|nm K|] eqn:Ecl; [| |contradiction].
      + destruct Hok as [_ Hwf].
        rewrite (group_plain rfc e _ m Ecl Hrest (wf_dfs_nonempty rfc ks _ _ _ Hwf) Hr).
        change [] with (keymap_node []). rewrite (IH _ [] Hwf Hnorm'). reflexivity.
      + destruct Hok as [_ [HK [Hnd [_ Hwf]]]]. destruct Hr as [l [Hst Hld]].
        destruct (wf_trie_node _ _ _ _ _ Hwf) as [_ [_ Hall]].
        assert (Hkeep : Forall (fun p => rest_ok (fst p) /\ keeps_keys rfc K p) (dfs (TNode cs))).
        { rewrite Forall_forall in *. intros p Hp. split; [apply Hrest, Hp|].
          eapply fm_preserved; [exact Hnd | apply Forall_forall, Hall | exact Hp | apply Hnorm', Hp]. }
        rewrite (mget_arr_append nm _ m l Hst).
        rewrite (group_keyed rfc e nm K _ Ecl HK Hkeep (full_match_keymap K Hnd) m l Hst Hld (wf_dfs_nonempty rfc ks _ _ _ Hwf)).
        rewrite (IH _ K Hwf Hnorm'). reflexivity.
  Qed.

  Lemma build_ok_all t : build_ok t.
  Proof.
    induction t as [v|cs IH] using trie_ind2; intros sp K0 Hwf; [discriminate|].
    revert IH.
    apply (children_ind rfc ks sp K0 (fun cs m =>
             Forall (fun et => build_ok (snd et)) cs -> Forall (fun p => normalb (fst p) = true) (dfs (TNode cs)) ->
             add_all_e rfc (dfs (TNode cs)) m = Ok (render_cs rfc (TNode cs) m))); [reflexivity | | exact Hwf].
    intros [e c] cs' m Hok Hr IHcs IH Hnorm. rewrite dfs_cons in *. apply Forall_app in Hnorm. destruct Hnorm as [Hn1 Hn2].
    rewrite add_all_e_app, (child_step sp K0 e c m (Forall_inv IH) Hok Hr Hn1).
    apply IHcs; [exact (Forall_inv_tail IH) | exact Hn2].
  Qed.
End Main.

(* BuildTree on the depth-first enumeration of a well-formed trie yields the rendered document *)
Theorem build_render rfc ks t :
  wf_trie rfc ks [] [] t = true ->
  Forall (fun p => normalb (fst p) = true) (dfs t) ->
  add_all_e rfc (dfs t) [] = Ok (render_cs rfc t []).
Proof. apply (build_ok_all rfc ks t [] []). Qed.

(* ------------------------------------------------------------------ from path/value sets (strings) *)

Lemma tv_eqb_eq a b : tv_eqb a b = true <-> a = b.
Proof.
  destruct a as [ta ba oa], b as [tb bb ob]. unfold tv_eqb. cbn [tv_type tv_bytes tv_opts].
  rewrite !andb_true_iff, N.eqb_eq, eqb_str_eq. split.
  - intros [[-> ->] H]. f_equal. revert ob H. induction oa as [|x oa IH]; intros [|y ob]; try discriminate; [reflexivity|].
    rewrite andb_true_iff, Z.eqb_eq. intros [-> H]. f_equal. apply IH, H.
  - intros [= -> -> ->]. repeat split. induction ob as [|z ob IH]; [reflexivity|]. rewrite Z.eqb_refl. exact IH.
Qed.

Lemma paths_eqb_eq a b : paths_eqb a b = true <-> a = b.
Proof.
  revert b. induction a as [|[pa va] a IH]; intros [|[pb vb] b]; cbn; try (split; congruence).
  rewrite !andb_true_iff, list_eqb_eq, tv_eqb_eq, IH. split; [intros [[-> ->] ->]; reflexivity | intros [= -> -> ->]; auto].
Qed.

Lemma wf_set_parts rfc pvs : wf_set rfc pvs = true ->
  live_paths pvs = [] \/
  Forall (fun p => normalb (fst p) = true) (live_paths pvs) /\ dfs (trie_of (live_paths pvs)) = live_paths pvs /\
  wf_trie rfc (schema_of (live_paths pvs)) [] [] (trie_of (live_paths pvs)) = true.
Proof.
  unfold wf_set. destruct (live_paths pvs) as [|p0 lp0]; intros H; [left; reflexivity | right].
  rewrite !andb_true_iff, forallb_forall, <- Forall_forall, paths_eqb_eq in H. tauto.
Qed.

Theorem build_tree_render rfc pvs :
  wf_set rfc pvs = true ->
  build_tree rfc pvs = Ok (render rfc (trie_of (live_paths pvs))).
Proof.
  intros H. unfold build_tree. rewrite add_all_live. fold (live_paths pvs).
  destruct (wf_set_parts rfc pvs H) as [-> | [Hnorm [Hdfs Hwf]]]; [reflexivity|].
  rewrite <- Hdfs in Hnorm |- * at 1.
  rewrite (build_render rfc _ _ Hwf Hnorm). reflexivity.
Qed.
