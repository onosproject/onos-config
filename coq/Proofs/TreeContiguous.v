(* C18: a set of paths sorted bytewise IS the depth-first enumeration of a trie with pairwise distinct child elements:
   the paths that share leading elements (in particular the paths of one list entry, whose element text is the same when
   the keys are written in canonical order) are contiguous, and folding the sorted paths back (TreeSpec.trie_of) finds
   exactly that trie.  Needed: every path text is "/" e1 "/" e2 ... with non-empty elements that the tokenizer does not
   split, and no path's elements are a prefix of another's (no leaf above a leaf, no duplicates).  Both conditions are
   necessary (counterexamples in TreeContiguousSets.v). *)
From Coq Require Import List Arith NArith Bool Lia Sorted.
From OC Require Import Base.Bytes Model.Tree Model.TreeSpec Proofs.TreeBuildProofs.
Import ListNotations.
Open Scope N_scope.

(* ------------------------------------------------------------------ 1. bytewise order: a common prefix is an interval *)
Lemma lex_prefix_interval (P : str) : forall a b c ra rc,
  leb_str a b = true -> leb_str b c = true -> a = P ++ ra -> c = P ++ rc -> exists rb, b = P ++ rb.
Proof.
  induction P as [|x P IH]; intros a b c ra rc Hab Hbc Ea Ec; [exists b; reflexivity|].
  subst a c. cbn [app] in *. destruct b as [|y b].
  - unfold leb_str in Hab. cbn in Hab. discriminate.
  - unfold leb_str in Hab, Hbc. cbn [ltb_str] in Hab, Hbc.
    apply negb_true_iff in Hab, Hbc. apply orb_false_iff in Hab, Hbc.
    destruct Hab as [A1 A2]. destruct Hbc as [B1 B2]. apply N.ltb_ge in A1, B1.
    assert (E : x = y) by lia. subst y. rewrite N.eqb_refl in A2, B2. cbn [andb] in A2, B2.
    destruct (IH (P ++ ra) b (P ++ rc) ra rc) as [rb ->]; try reflexivity.
    + unfold leb_str. rewrite A2. reflexivity.
    + unfold leb_str. rewrite B2. reflexivity.
    + exists rb. reflexivity.
Qed.

(* ------------------------------------------------------------------ 2. tries with distinct children; trie_of inverts dfs *)
Fixpoint good (t : trie) : Prop :=
  match t with
  | TLeaf _ => True
  | TNode cs =>
    cs <> [] /\ NoDup (map fst cs) /\
    (fix all (l : list (str * trie)) : Prop :=
       match l with [] => True | et :: l' => (let (_, c) := et in good c) /\ all l' end) cs
  end.

Lemma good_node cs : good (TNode cs) <-> cs <> [] /\ NoDup (map fst cs) /\ Forall (fun et => good (snd et)) cs.
Proof.
  cbn [good]. do 2 apply and_iff_compat_l.
  induction cs as [|[e c] cs IH]; [split; constructor|]. rewrite Forall_cons_iff, <- IH. reflexivity.
Qed.

Definition ins (t : trie) (p : list str * tv) : trie := tinsert (S (List.length (fst p))) (fst p) (snd p) t.

Definition last_name_differs (cs0 : list (str * trie)) (e : str) : Prop :=
  match rev cs0 with (e', _) :: _ => e <> e' | [] => True end.

Lemma ins_new cs0 e r v : last_name_differs cs0 e ->
  ins (TNode cs0) (e :: r, v) = TNode (cs0 ++ [(e, ins (TNode []) (r, v))]).
Proof.
  unfold last_name_differs, ins. cbn [fst snd List.length tinsert]. intros H.
  destruct (rev cs0) as [|[e' c'] before] eqn:R.
  - assert (E : cs0 = []) by (rewrite <- (rev_involutive cs0), R; reflexivity). subst cs0. reflexivity.
  - apply eqb_str_neq in H. rewrite H. reflexivity.
Qed.

Lemma ins_same cs0 e c r v :
  ins (TNode (cs0 ++ [(e, c)])) (e :: r, v) = TNode (cs0 ++ [(e, ins c (r, v))]).
Proof.
  unfold ins. cbn [fst snd List.length tinsert]. rewrite rev_unit, eqb_str_refl, rev_involutive. reflexivity.
Qed.

Lemma block_fold cs0 e ps : forall c,
  fold_left ins (map (pre1 e) ps) (TNode (cs0 ++ [(e, c)])) = TNode (cs0 ++ [(e, fold_left ins ps c)]).
Proof.
  induction ps as [|[r v] ps IH]; intros c; [reflexivity|]. cbn [map fold_left].
  change (pre1 e (r, v)) with (e :: r, v). rewrite ins_same. apply IH.
Qed.

Lemma block_new cs0 e ps : ps <> [] -> last_name_differs cs0 e ->
  fold_left ins (map (pre1 e) ps) (TNode cs0) = TNode (cs0 ++ [(e, trie_of ps)]).
Proof.
  intros NE H. destruct ps as [|[r v] ps]; [congruence|]. cbn [map fold_left].
  change (pre1 e (r, v)) with (e :: r, v). rewrite (ins_new cs0 e r v H), block_fold. reflexivity.
Qed.

Lemma good_dfs_nonempty t : good t -> dfs t <> [].
Proof.
  induction t as [v|cs IH] using trie_ind2; intros G; [discriminate|].
  apply good_node in G. destruct G as [NE [_ GC]]. destruct cs as [|[e c] cs]; [congruence|].
  inversion IH as [|? ? IHc _]; subst. inversion GC as [|? ? Gc _]; subst. cbn [snd] in *.
  rewrite dfs_cons. specialize (IHc Gc). destruct (dfs c); [congruence | discriminate].
Qed.

Lemma good_dfs_in t : good t -> exists q, In q (dfs t).
Proof. intros G. pose proof (good_dfs_nonempty t G). destruct (dfs t) as [|q l]; [congruence | exists q; left; reflexivity]. Qed.

Lemma fold_children cs :
  Forall (fun et => good (snd et) -> trie_of (dfs (snd et)) = snd et) cs ->
  Forall (fun et => good (snd et)) cs -> NoDup (map fst cs) ->
  forall cs0, match cs with (e1, _) :: _ => last_name_differs cs0 e1 | [] => True end ->
  fold_left ins (dfs (TNode cs)) (TNode cs0) = TNode (cs0 ++ cs).
Proof.
  induction cs as [|[e c] cs IH]; intros HI HG ND cs0 HL; [cbn; rewrite app_nil_r; reflexivity|].
  inversion HI as [|? ? HIc HI']; subst. inversion HG as [|? ? HGc HG']; subst. cbn [snd] in *.
  cbn [map] in ND. inversion ND as [|? ? Hn ND']; subst.
  rewrite dfs_cons, fold_left_app, (block_new cs0 e (dfs c) (good_dfs_nonempty c HGc) HL), (HIc HGc).
  rewrite (IH HI' HG' ND' (cs0 ++ [(e, c)])); [rewrite <- app_assoc; reflexivity|].
  destruct cs as [|[e2 c2] cs2]; [exact I|]. unfold last_name_differs. rewrite rev_unit.
  intros E. apply Hn. left. exact E.
Qed.

Theorem trie_of_dfs t : good t -> trie_of (dfs t) = t.
Proof.
  induction t as [v|cs IH] using trie_ind2; intros G; [reflexivity|].
  apply good_node in G. destruct G as [NE [ND GC]].
  change (trie_of (dfs (TNode cs))) with (fold_left ins (dfs (TNode cs)) (TNode [])).
  rewrite (fold_children cs IH GC ND []); [reflexivity|].
  destruct cs as [|[e1 c1] cs1]; exact I.
Qed.

(* ------------------------------------------------------------------ 3. prefix-free + contiguous = a depth-first enumeration *)
Definition is_pre (x y : list str) : Prop := exists r, y = x ++ r.

(* no path's elements are a prefix of another's (no duplicates, no leaf above a leaf) *)
Definition pfree (L : list (list str * tv)) : Prop :=
  forall l1 a l2 c l3, L = l1 ++ a :: l2 ++ c :: l3 -> ~ is_pre (fst a) (fst c) /\ ~ is_pre (fst c) (fst a).

(* whatever lies between two paths that share leading elements shares them too *)
Definition ctg (L : list (list str * tv)) : Prop :=
  forall l1 a l2 c l3 pre ra rc, L = l1 ++ a :: l2 ++ c :: l3 -> pre <> [] ->
    fst a = pre ++ ra -> fst c = pre ++ rc -> forall b, In b l2 -> is_pre pre (fst b).

Definition hd_is (e : str) (p : list str * tv) : bool :=
  match fst p with x :: _ => eqb_str x e | [] => false end.

Lemma hd_is_spec e p : hd_is e p = true <-> exists r, fst p = e :: r.
Proof.
  unfold hd_is. destruct (fst p) as [|x r]; [split; [discriminate | intros [r H]; discriminate]|].
  rewrite eqb_str_eq. split; [intros ->; exists r; reflexivity | intros [r' H]; congruence].
Qed.

(* the longest run of paths that start with e, without their first element, and what follows it *)
Lemma span_hd e : forall L1, exists G R, L1 = map (pre1 e) G ++ R /\
  match R with y :: _ => hd_is e y = false | [] => True end.
Proof.
  induction L1 as [|p L1 IH]; [exists [], []; split; [reflexivity | exact I]|].
  destruct (hd_is e p) eqn:H; [|exists [], (p :: L1); split; [reflexivity | exact H]].
  destruct IH as [G [R [-> HR]]]. apply hd_is_spec in H. destruct H as [r H]. destruct p as [f v]. cbn [fst] in H. subst f.
  exists ((r, v) :: G), R. split; [reflexivity | exact HR].
Qed.

Fixpoint msize (L : list (list str * tv)) : nat :=
  match L with [] => O | p :: L' => S (List.length (fst p)) + msize L' end.

Lemma msize_app A B : msize (A ++ B) = (msize A + msize B)%nat.
Proof. induction A as [|p A IH]; cbn; [reflexivity | rewrite IH; lia]. Qed.

Lemma msize_pre1 e G : msize (map (pre1 e) G) = (msize G + List.length G)%nat.
Proof. induction G as [|p G IH]; cbn; [reflexivity | rewrite IH; lia]. Qed.

Lemma pfree_suffix A R : pfree (A ++ R) -> pfree R.
Proof. intros H l1 a l2 c l3 E. apply (H (A ++ l1) a l2 c l3). rewrite E, app_assoc. reflexivity. Qed.

Lemma ctg_suffix A R : ctg (A ++ R) -> ctg R.
Proof. intros H l1 a l2 c l3 pre ra rc E. apply (H (A ++ l1) a l2 c l3 pre ra rc). rewrite E, app_assoc. reflexivity. Qed.

Lemma block_decomp e G R l1 a l2 c l3 : G = l1 ++ a :: l2 ++ c :: l3 ->
  map (pre1 e) G ++ R = map (pre1 e) l1 ++ pre1 e a :: map (pre1 e) l2 ++ pre1 e c :: (map (pre1 e) l3 ++ R).
Proof. intros ->. rewrite !map_app. cbn [map]. rewrite !map_app. cbn [map]. rewrite <- !app_assoc. cbn [app]. rewrite <- !app_assoc. reflexivity. Qed.

Lemma pfree_block e G R : pfree (map (pre1 e) G ++ R) -> pfree G.
Proof.
  intros H l1 a l2 c l3 E. destruct (H _ _ _ _ _ (block_decomp e G R l1 a l2 c l3 E)) as [H1 H2].
  split; intros [r Hr]; [apply H1 | apply H2]; exists r; cbn [pre1 fst]; rewrite Hr; reflexivity.
Qed.

Lemma ctg_block e G R : ctg (map (pre1 e) G ++ R) -> ctg G.
Proof.
  intros H l1 a l2 c l3 pre ra rc E NP Ea Ec b Hb.
  destruct (H _ _ _ _ _ (e :: pre) ra rc (block_decomp e G R l1 a l2 c l3 E)) with (b := pre1 e b) as [r Hr].
  - discriminate.
  - cbn [pre1 fst]. rewrite Ea. reflexivity.
  - cbn [pre1 fst]. rewrite Ec. reflexivity.
  - apply in_map. exact Hb.
  - cbn [pre1 fst app] in Hr. injection Hr as Hr. exists r. exact Hr.
Qed.

Lemma dfs_heads cs e0 : Forall (fun et => good (snd et)) cs -> In e0 (map fst cs) ->
  exists p, In p (dfs (TNode cs)) /\ hd_is e0 p = true.
Proof.
  intros GC HI. apply in_map_iff in HI. destruct HI as [[e c] [<- Hec]]. rewrite Forall_forall in GC.
  destruct (good_dfs_in c (GC _ Hec)) as [q Hq]. exists (pre1 e q). split; [|apply eqb_str_refl].
  apply dfs_node_in. exists e, c, q. auto.
Qed.

Theorem grouped_is_dfs : forall n L, (msize L <= n)%nat ->
  (forall p, In p L -> fst p <> []) -> pfree L -> ctg L ->
  exists cs, NoDup (map fst cs) /\ Forall (fun et => good (snd et)) cs /\ dfs (TNode cs) = L.
Proof.
  induction n as [|n IH]; intros L Hn NE PF CT.
  - destruct L as [|p L]; [|cbn in Hn; lia]. exists []. repeat split; constructor.
  - destruct L as [|[[|e r1] v] L1];
      [exists []; repeat split; constructor | exfalso; apply (NE ([], v)); [left; reflexivity | reflexivity] |].
    destruct (span_hd e L1) as [G0 [R [-> HR]]].
    cbn [msize fst] in Hn. rewrite msize_app, msize_pre1 in Hn.
    destruct (IH R) as [cs' [ND' [GC' DF']]];
      [lia | intros p Hp; apply NE; right; apply in_or_app; right; exact Hp
       | apply (pfree_suffix ((e :: r1, v) :: map (pre1 e) G0) R PF) | apply (ctg_suffix ((e :: r1, v) :: map (pre1 e) G0) R CT) |].
    (* a later path starting with e would force the first path after the block to start with e *)
    assert (Hne : ~ In e (map fst cs')).
    { intros HI. destruct (dfs_heads cs' e GC' HI) as [y [Hy Hh]]. rewrite DF' in Hy.
      destruct R as [|y0 R0]; [destruct Hy|]. destruct Hy as [<-|Hy]; [congruence|].
      apply in_split in Hy. destruct Hy as [R1 [R2 ->]]. apply hd_is_spec in Hh. destruct Hh as [ry Ey].
      assert (E : (e :: r1, v) :: map (pre1 e) G0 ++ y0 :: R1 ++ y :: R2
                  = [] ++ (e :: r1, v) :: (map (pre1 e) G0 ++ y0 :: R1) ++ y :: R2).
      { cbn [app]. rewrite <- app_assoc. reflexivity. }
      destruct (CT _ _ _ _ _ [e] r1 ry E) with (b := y0) as [r0 E0];
        [discriminate | reflexivity | exact Ey | apply in_or_app; right; left; reflexivity|].
      assert (T : hd_is e y0 = true) by (apply hd_is_spec; exists r0; exact E0). congruence. }
    pose proof (pfree_block e ((r1, v) :: G0) R PF) as PFG.
    destruct r1 as [|e2 r2].
    + (* a leaf: it is alone in its block *)
      assert (EG : G0 = []).
      { destruct G0 as [|g G1]; [reflexivity|]. exfalso.
        destruct (PFG [] ([], v) [] g G1 eq_refl) as [H1 _]. apply H1. exists (fst g). reflexivity. }
      subst G0. exists ((e, TLeaf v) :: cs'). repeat split.
      * cbn [map fst]. constructor; assumption.
      * constructor; [exact I | exact GC'].
      * rewrite dfs_cons, DF'. reflexivity.
    + (* a container or list entry: its block without the leading e *)
      destruct (IH ((e2 :: r2, v) :: G0)) as [csG [NDG [GCG DFG]]].
      * cbn [msize fst List.length] in *. lia.
      * intros g [<-|Hg]; [discriminate|]. intros Eg. apply in_split in Hg. destruct Hg as [G1 [G2 ->]].
        destruct (PFG [] _ G1 g G2 eq_refl) as [_ H2]. apply H2. exists (e2 :: r2). rewrite Eg. reflexivity.
      * exact PFG.
      * apply (ctg_block e ((e2 :: r2, v) :: G0) R CT).
      * exists ((e, TNode csG) :: cs'). repeat split.
        -- cbn [map fst]. constructor; assumption.
        -- constructor; [|exact GC']. apply good_node. repeat split; [|assumption..]. intros ->. discriminate DFG.
        -- rewrite dfs_cons, DFG, DF'. reflexivity.
Qed.

(* ------------------------------------------------------------------ 4. texts: the tokenizer on "/" e1 "/" e2 ... *)
(* the bracket / escape state of nextTokenIndex across an element; None = it would split inside *)
Fixpoint scan (inb esc : bool) (e : str) : option (bool * bool) :=
  match e with
  | [] => Some (inb, esc)
  | c :: e' =>
    if c =? c_lbr then scan true false e'
    else if c =? c_rbr then scan (if esc then inb else false) false e'
    else if c =? c_bslash then scan inb (negb esc) e'
    else if c =? c_slash then (if negb inb && negb esc then None else scan inb false e')
    else scan inb false e'
  end.

(* an element the tokenizer returns whole: not empty, no splitting '/', brackets closed and no pending escape at its end *)
Definition elem_okb (e : str) : bool :=
  match e with [] => false | _ => match scan false false e with Some (false, false) => true | _ => false end end.
Definition elem_ok (e : str) : Prop := elem_okb e = true.

Definition ptext (es : list str) : str := concat (map (fun e => c_slash :: e) es).

Lemma next_token_scan e : forall inb esc i X inb' esc',
  scan inb esc e = Some (inb', esc') ->
  next_token_go inb esc i (e ++ X) = next_token_go inb' esc' (i + List.length e) X.
Proof.
  induction e as [|c e IH]; intros inb esc i X inb' esc' H.
  - cbn in H. injection H as <- <-. cbn. rewrite Nat.add_0_r. reflexivity.
  - cbn [scan] in H. cbn [app next_token_go List.length]. rewrite Nat.add_succ_r.
    destruct (c =? c_lbr); [apply (IH _ _ (S i) X _ _ H)|].
    destruct (c =? c_rbr); [apply (IH _ _ (S i) X _ _ H)|].
    destruct (c =? c_bslash); [apply (IH _ _ (S i) X _ _ H)|].
    destruct (c =? c_slash); [|apply (IH _ _ (S i) X _ _ H)].
    destruct (negb inb && negb esc); [discriminate | apply (IH _ _ (S i) X _ _ H)].
Qed.

(* what may follow an element in a path text: nothing, or a '/' *)
Definition sstart (X : str) : Prop := X = [] \/ exists R, X = c_slash :: R.

Lemma elem_ok_scan e : elem_ok e -> e <> [] /\ scan false false e = Some (false, false).
Proof.
  unfold elem_ok, elem_okb. destruct e as [|c e]; [discriminate|]. intros H. split; [discriminate|].
  destruct (scan false false (c :: e)) as [[[|] [|]]|]; try discriminate. reflexivity.
Qed.

Lemma next_token_elem e X : elem_ok e -> sstart X -> next_token_index (e ++ X) = List.length e.
Proof.
  intros H S. destruct (elem_ok_scan e H) as [_ Hs]. unfold next_token_index.
  rewrite (next_token_scan e false false O X false false Hs). cbn [Nat.add].
  destruct S as [->|[R ->]]; reflexivity.
Qed.

Lemma ptext_cons e es : ptext (e :: es) = c_slash :: e ++ ptext es.
Proof. reflexivity. Qed.

Lemma ptext_app a b : ptext (a ++ b) = ptext a ++ ptext b.
Proof. unfold ptext. rewrite map_app, concat_app. reflexivity. Qed.

Lemma ptext_sstart es : sstart (ptext es).
Proof. destruct es as [|e es]; [left; reflexivity | right; exists (e ++ ptext es); reflexivity]. Qed.

Lemma firstn_len_app {A} (a b : list A) : firstn (List.length a) (a ++ b) = a.
Proof. induction a as [|x a IH]; cbn; [reflexivity | f_equal; exact IH]. Qed.

Lemma skipn_len_app {A} (a b : list A) : skipn (List.length a) (a ++ b) = b.
Proof. induction a as [|x a IH]; cbn; [reflexivity | exact IH]. Qed.

Lemma split_loop_S f p : p <> [] ->
  split_loop (S f) p = firstn (next_token_index p) p :: split_loop f (strip_slash (skipn (next_token_index p) p)).
Proof. destruct p; [congruence | reflexivity]. Qed.

Lemma split_loop_nil f : split_loop f [] = [].
Proof. destruct f; reflexivity. Qed.

(* one round of the loop of SplitPath *)
Lemma split_loop_step e X f : elem_ok e -> sstart X ->
  split_loop (S f) (e ++ X) = e :: split_loop f (strip_slash X).
Proof.
  intros He SX. destruct (elem_ok_scan e He) as [NE _].
  rewrite split_loop_S by (destruct e; [congruence | discriminate]).
  rewrite (next_token_elem e X He SX), firstn_len_app, skipn_len_app. reflexivity.
Qed.

Lemma split_loop_elems rest : forall e1 f, Forall elem_ok (e1 :: rest) ->
  (List.length (e1 ++ ptext rest) <= f)%nat -> split_loop f (e1 ++ ptext rest) = e1 :: rest.
Proof.
  induction rest as [|e2 rest IH]; intros e1 f F Hf; inversion F as [|? ? F1 F2]; subst.
  all: destruct (elem_ok_scan e1 F1) as [NE _]; rewrite app_length in Hf.
  all: destruct f as [|f]; [destruct e1; [congruence | cbn in Hf; lia]|].
  all: rewrite (split_loop_step e1 _ f F1 (ptext_sstart _)); f_equal.
  - apply split_loop_nil.
  - rewrite ptext_cons in *. cbn [strip_slash]. rewrite N.eqb_refl. apply IH; [exact F2 | cbn [List.length] in Hf; lia].
Qed.

Theorem split_ptext es : es <> [] -> Forall elem_ok es -> split_path (ptext es) = es.
Proof.
  intros NE F. destruct es as [|e1 rest]; [congruence|]. unfold split_path. rewrite ptext_cons.
  cbn [strip_slash]. rewrite N.eqb_refl. apply split_loop_elems; [exact F | lia].
Qed.

Lemma first_token_unique e x Ye Yx : elem_ok e -> elem_ok x -> sstart Ye -> sstart Yx ->
  e ++ Ye = x ++ Yx -> e = x /\ Ye = Yx.
Proof.
  intros He Hx Se Sx E.
  pose proof (next_token_elem e Ye He Se) as H1. pose proof (next_token_elem x Yx Hx Sx) as H2. rewrite E in H1.
  assert (L : List.length e = List.length x) by congruence.
  assert (Ee : e = x).
  { rewrite <- (firstn_len_app e Ye), <- (firstn_len_app x Yx), E, L. reflexivity. }
  subst x. apply app_inv_head in E. auto.
Qed.

Lemma text_prefix_elems pre : forall es R, Forall elem_ok es -> Forall elem_ok pre ->
  ptext es = ptext pre ++ c_slash :: R -> exists rest, es = pre ++ rest.
Proof.
  induction pre as [|x pre IH]; intros es R Fe Fp E; [exists es; reflexivity|].
  inversion Fp as [|? ? Fx Fp']; subst. destruct es as [|e es]; [cbn in E; discriminate|].
  inversion Fe as [|? ? Fe1 Fe']; subst. rewrite !ptext_cons in E. cbn [app] in E. injection E as E.
  rewrite <- app_assoc in E.
  destruct (first_token_unique e x (ptext es) (ptext pre ++ c_slash :: R) Fe1 Fx (ptext_sstart es)) as [-> E2].
  - destruct pre as [|y pre]; [right; exists R; reflexivity|]. right. rewrite ptext_cons. cbn [app]. eexists. reflexivity.
  - exact E.
  - destruct (IH es R Fe' Fp' E2) as [rest ->]. exists rest. reflexivity.
Qed.

(* ------------------------------------------------------------------ 5. sorted bytewise => contiguous => depth first *)
Definition text (p : list str * tv) : str := ptext (fst p).
Definition text_le (x y : list str * tv) : Prop := leb_str (text x) (text y) = true.

Lemma ssorted_fop {A} (R : A -> A -> Prop) l : StronglySorted R l -> ForallOrdPairs R l.
Proof. induction 1; constructor; assumption. Qed.

Lemma fop_app {A} (R : A -> A -> Prop) (a b : list A) : ForallOrdPairs R (a ++ b) ->
  ForallOrdPairs R a /\ ForallOrdPairs R b /\ (forall x y, In x a -> In y b -> R x y).
Proof.
  induction a as [|x a IH]; cbn [app]; intros H; [repeat split; [constructor | exact H | intros x y []]|].
  inversion H as [|? ? F H']; subst. destruct (IH H') as [A1 [A2 A3]]. rewrite Forall_forall in F. repeat split.
  - constructor; [apply Forall_forall; intros y Hy; apply F; apply in_or_app; left; exact Hy | exact A1].
  - exact A2.
  - intros x0 y [<-|Hx] Hy; [apply F; apply in_or_app; right; exact Hy | apply A3; assumption].
Qed.

Lemma text_longer pre ra rc (a c : list str * tv) : fst a = pre ++ ra -> fst c = pre ++ rc -> ~ is_pre (fst a) (fst c) ->
  exists R, text a = (ptext pre ++ [c_slash]) ++ R.
Proof.
  intros Ea Ec P. destruct ra as [|y r]; [exfalso; apply P; exists rc; rewrite Ea, app_nil_r; exact Ec|].
  exists (y ++ ptext r). unfold text. rewrite Ea, ptext_app, ptext_cons, <- app_assoc. reflexivity.
Qed.

Theorem sorted_ctg L : (forall p, In p L -> Forall elem_ok (fst p)) -> pfree L -> StronglySorted text_le L -> ctg L.
Proof.
  intros OK PF SS l1 a l2 c l3 pre ra rc E NP Ea Ec b Hb. subst L.
  destruct (PF _ _ _ _ _ eq_refl) as [P1 P2].
  destruct (text_longer pre ra rc a c Ea Ec P1) as [Ra Ta]. destruct (text_longer pre rc ra c a Ec Ea P2) as [Rc Tc].
  destruct (fop_app _ l1 _ (ssorted_fop _ _ SS)) as [_ [S1 _]]. inversion S1 as [|? ? Fa S2]; subst.
  rewrite Forall_forall in Fa.
  assert (Lab : text_le a b) by (apply Fa; apply in_or_app; left; exact Hb).
  assert (Lbc : text_le b c) by (apply (fop_app _ l2 _ S2); [exact Hb | left; reflexivity]).
  destruct (lex_prefix_interval (ptext pre ++ [c_slash]) (text a) (text b) (text c) Ra Rc Lab Lbc Ta Tc) as [Rb Tb].
  unfold text in Tb. rewrite <- app_assoc in Tb. cbn [app] in Tb.
  assert (Fpre : Forall elem_ok pre).
  { assert (Fa' : Forall elem_ok (fst a)) by (apply OK; apply in_or_app; right; left; reflexivity).
    rewrite Ea in Fa'. apply Forall_app in Fa'. apply Fa'. }
  assert (Fb : Forall elem_ok (fst b)).
  { apply OK. apply in_or_app. right. right. apply in_or_app. left. exact Hb. }
  apply (text_prefix_elems pre (fst b) Rb Fb Fpre Tb).
Qed.

(* the sorted paths are the depth-first enumeration of a trie with pairwise distinct children, and trie_of finds it *)
Theorem sorted_is_dfs L :
  (forall p, In p L -> fst p <> [] /\ Forall elem_ok (fst p)) -> pfree L -> StronglySorted text_le L ->
  exists cs, NoDup (map fst cs) /\ Forall (fun et => good (snd et)) cs /\ dfs (TNode cs) = L /\ trie_of L = TNode cs.
Proof.
  intros OK PF SS.
  destruct (grouped_is_dfs (msize L) L (le_n _) (fun p Hp => proj1 (OK p Hp)) PF
                           (sorted_ctg L (fun p Hp => proj2 (OK p Hp)) PF SS)) as [cs [ND [GC DF]]].
  exists cs. split; [exact ND|]. split; [exact GC|]. split; [exact DF|].
  destruct cs as [|et cs'] eqn:Ecs; [cbn in DF; subst L; reflexivity|]. rewrite <- Ecs in *.
  rewrite <- DF. apply trie_of_dfs. apply good_node. split; [rewrite Ecs; discriminate | auto].
Qed.
