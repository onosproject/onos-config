(* C18: the contiguity result of TreeContiguous.v on path/value sets as PrunePathValues hands them to BuildTree
   (TreeSpec.live_paths), its boolean hypotheses, an inhabitant, and the two counterexamples showing that the
   hypotheses are needed. *)
From Coq Require Import List Arith NArith ZArith Bool Lia Sorted Permutation String.
From OC Require Import Base.Bytes Model.Tree Model.TreeSpec Proofs.TreeProofs Proofs.TreeBuildProofs Proofs.TreeExamples
     Proofs.TreeContiguous.
Import ListNotations.
Open Scope N_scope.

(* the text is "/" e1 "/" e2 ... for its own elements, none of them empty or split by the tokenizer *)
Definition normal_textb (p : str) : bool :=
  let es := split_path p in
  match es with [] => false | _ => forallb elem_okb es && eqb_str p (TreeContiguous.ptext es) end.

(* no path's elements are a prefix of another's, as a boolean on an ordered list *)
Fixpoint is_preb (x y : list str) : bool :=
  match x, y with
  | [], _ => true
  | a :: x', b :: y' => eqb_str a b && is_preb x' y'
  | _ :: _, [] => false
  end.

Fixpoint pfreeb (L : list (list str * tv)) : bool :=
  match L with
  | [] => true
  | a :: L' => forallb (fun c => negb (is_preb (fst a) (fst c)) && negb (is_preb (fst c) (fst a))) L' && pfreeb L'
  end.

Lemma is_preb_spec x : forall y, is_pre x y -> is_preb x y = true.
Proof.
  induction x as [|a x IH]; intros y [r ->]; [reflexivity|]. cbn. rewrite eqb_str_refl. apply IH. exists r. reflexivity.
Qed.

Lemma pfreeb_ok L : pfreeb L = true -> pfree L.
Proof.
  induction L as [|p L IH]; intros H l1 a l2 c l3 E; [destruct l1; discriminate|].
  cbn [pfreeb] in H. apply andb_true_iff in H. destruct H as [H1 H2].
  destruct l1 as [|q l1]; cbn [app] in E; injection E as -> ->.
  - rewrite forallb_forall in H1. specialize (H1 c ltac:(apply in_or_app; right; left; reflexivity)).
    apply andb_true_iff in H1. destruct H1 as [A1 A2]. apply negb_true_iff in A1, A2.
    split; intros HP; apply is_preb_spec in HP; congruence.
  - apply (IH H2 l1 a l2 c l3 eq_refl).
Qed.

Lemma normal_text_parts p : normal_textb p = true ->
  split_path p <> [] /\ Forall elem_ok (split_path p) /\ p = TreeContiguous.ptext (split_path p).
Proof.
  unfold normal_textb. destruct (split_path p) as [|e es] eqn:E; [discriminate|].
  rewrite andb_true_iff. intros [H1 H2]. split; [discriminate|]. split; [|apply eqb_str_eq; exact H2].
  apply Forall_forall. rewrite forallb_forall in H1. exact H1.
Qed.

Lemma ssorted_map {A C} (R : A -> A -> Prop) (S : C -> C -> Prop) (f : A -> C) l :
  (forall x y, In x l -> In y l -> R x y -> S (f x) (f y)) -> StronglySorted R l -> StronglySorted S (map f l).
Proof.
  induction l as [|x l IH]; intros H SS; [constructor|]. inversion SS as [|? ? S1 F1]; subst. cbn [map]. constructor.
  - apply IH; [intros a b Ha Hb; apply H; right; assumption | exact S1].
  - rewrite Forall_forall in *. intros y Hy. apply in_map_iff in Hy. destruct Hy as [z [<- Hz]].
    apply H; [left; reflexivity | right; exact Hz | apply F1; exact Hz].
Qed.

(* pairwise distinct child elements at every node *)
Definition distinct_children (t : trie) : Prop := good t.

(* for path/value sets: what BuildTree processes after pruning is the depth-first enumeration of a trie whose nodes have
   pairwise distinct child elements - the paths sharing leading elements, e.g. those of one list entry, are contiguous -
   and trie_of rebuilds that trie: the contiguity conjunct of wf_set holds *)
Theorem sorted_live_paths pvs :
  (forall x, In x pvs -> normal_textb (pv_path x) = true) -> pfree (live_paths pvs) ->
  exists cs, NoDup (map fst cs) /\ Forall (fun et => good (snd et)) cs /\
             dfs (TNode cs) = live_paths pvs /\ trie_of (live_paths pvs) = TNode cs /\
             paths_eqb (dfs (trie_of (live_paths pvs))) (live_paths pvs) = true.
Proof.
  intros NT PF.
  assert (NP : forall x, In x (prune false pvs) ->
                 split_path (pv_path x) <> [] /\ Forall elem_ok (split_path (pv_path x)) /\
                 pv_path x = TreeContiguous.ptext (split_path (pv_path x))).
  { intros x Hx. apply normal_text_parts, NT, (prune_incl _ _ _ Hx). }
  destruct (sorted_is_dfs (live_paths pvs)) as [cs [ND [GC [DF TO]]]].
  - intros p Hp. unfold live_paths in Hp. apply in_map_iff in Hp. destruct Hp as [x [<- Hx]].
    destruct (NP x Hx) as [H1 [H2 _]]. auto.
  - exact PF.
  - unfold live_paths. apply (ssorted_map pv_le text_le); [|apply prune_sorted].
    intros x y Hx Hy Hle. unfold text_le, text. cbn [fst].
    destruct (NP x Hx) as [_ [_ <-]]. destruct (NP y Hy) as [_ [_ <-]]. exact Hle.
  - exists cs. repeat split; try assumption. rewrite TO, DF. apply paths_eqb_eq. reflexivity.
Qed.

(* ------------------------------------------------------------------ an inhabitant and the counterexamples *)
Example sorted_example :
  (forall x, In x wf_example -> normal_textb (pv_path x) = true) /\ pfree (live_paths wf_example).
Proof.
  split.
  - apply forallb_forall. vm_compute. reflexivity.
  - apply pfreeb_ok. vm_compute. reflexivity.
Qed.

Definition child_elems (t : trie) : list str := match t with TNode cs => map fst cs | TLeaf _ => [] end.

(* without the leading '/' on every path the order does not keep an element's paths together:
   "/a/b" < "/z/y" < "a/c" bytewise, SplitPath gives [a;b] [z;y] [a;c], prefix-free - and a appears twice *)
Definition cx_slash : list pv := [ live "/a/b" "1"; live "/z/y" "2"; live "a/c" "3" ].

Example leading_slash_needed :
  pfree (live_paths cx_slash) /\
  map fst (live_paths cx_slash) = [[B "a"; B "b"]; [B "z"; B "y"]; [B "a"; B "c"]] /\
  child_elems (trie_of (live_paths cx_slash)) = [B "a"; B "z"; B "a"] /\
  normal_textb (B "a/c") = false /\ wf_set true cx_slash = false.
Proof. split; [apply pfreeb_ok; vm_compute; reflexivity|]. vm_compute. repeat split; reflexivity. Qed.

(* with a leaf above a leaf a name sorting below '/' comes in between: "/a/b" < "/a/b-c" < "/a/b/d" ('-' < '/'),
   all three texts normal - the paths through element b are not contiguous: node a gets two children b *)
Definition cx_leaf : list pv := [ live "/a/b" "1"; live "/a/b-c" "2"; live "/a/b/d" "3" ].

Example prefix_free_needed :
  (forall x, In x cx_leaf -> normal_textb (pv_path x) = true) /\
  map fst (live_paths cx_leaf) = [[B "a"; B "b"]; [B "a"; B "b-c"]; [B "a"; B "b"; B "d"]] /\
  pfreeb (live_paths cx_leaf) = false /\
  match trie_of (live_paths cx_leaf) with TNode [(_, t)] => child_elems t | _ => [] end = [B "b"; B "b-c"; B "b"] /\
  wf_set true cx_leaf = false.
Proof.
  split.
  - apply forallb_forall. vm_compute. reflexivity.
  - vm_compute. repeat split; reflexivity.
Qed.

Lemma prefix_free_fails : ~ pfree (live_paths cx_leaf).
Proof.
  intros PF.
  assert (E : exists a b c, live_paths cx_leaf = [a; b; c] /\ fst a = [B "a"; B "b"] /\ fst c = [B "a"; B "b"; B "d"]).
  { vm_compute. eexists. eexists. eexists. repeat split; reflexivity. }
  destruct E as [a [b [c [E [Ea Ec]]]]].
  destruct (PF [] a [b] c [] E) as [H _]. apply H. exists [B "d"]. rewrite Ea, Ec. reflexivity.
Qed.
