(* Witnesses for C18: a non-trivial well-formed set, and the inputs on which the faithful model of
   BuildTree splits one list entry in two (both observed on the real code, see corpus/c18.tsv). *)
From Coq Require Import List NArith ZArith Bool String.
From OC Require Import Base.Bytes Model.Tree Model.TreeSpec.
Import ListNotations.
Open Scope N_scope.

Definition sval (v : string) : tv := {| tv_type := 1; tv_bytes := B v; tv_opts := [] |}.
Definition live (p v : string) : pv := {| pv_path := B p; pv_del := false; pv_val := sval v |}.
Definition tomb (p : string) : pv := {| pv_path := B p; pv_del := true; pv_val := {| tv_type := 0; tv_bytes := []; tv_opts := [] |} |}.
Definition int8 (p : string) (n : N) : pv :=
  {| pv_path := B p; pv_del := false; pv_val := {| tv_type := 2; tv_bytes := [n]; tv_opts := [8%Z; 0%Z] |} |}.
Definition bytes (p v : string) : pv :=
  {| pv_path := B p; pv_del := false; pv_val := {| tv_type := 7; tv_bytes := B v; tv_opts := [2%Z] |} |}.

(* nested and multi-key lists, numeric keys 1/10 with an explicit numeric key leaf, sibling names sharing
   prefixes, a tombstone on a list entry and one on a leaf *)
Definition wf_example : list pv :=
  [ live "/a/l[k=10]/x" "1"; int8 "/a/l[k=10]/k" 10; live "/a/l[k=1]/x" "2"; live "/a/b" "3"; live "/a-b" "4";
    live "/ab/c" "5"; live "/m[a=1][b=2]/w" "w"; live "/m[a=1][b=3]/v/z[id=true]/q" "v"; tomb "/a/l[k=1]";
    live "/m[a=1][b=3]/v/z[id=false]/q" "u"; tomb "/ab/d"; live "/ab/d/e" "gone"; live "/lx[k=a/b]/y" "6" ].

Example wf_example_ok : wf_set true wf_example = true /\ wf_set false wf_example = true.
Proof. vm_compute. split; reflexivity. Qed.

(* entries of a list that answer to a key map in full (every key present and equal under convertBasicType) *)
Definition matches (K : list (str * str)) (e : node) : bool :=
  match e with
  | NMap em => forallb (fun kv => match mget (fst kv) em with Some x => eqb_str (conv x) (snd kv) | None => false end) K
  | _ => false
  end.

Definition count_matching (K : list (str * str)) (l : list node) : nat := List.length (filter (matches K) l).

(* keys written in two different orders: entry (a=1, b=2) appears twice *)
Definition noncanonical_witness : list pv :=
  [ live "/m[a=1][b=2]/w" "w"; live "/m[a=1][b=3]/v" "v"; live "/m[b=2][a=1]/v" "v2" ].

Lemma noncanonical_split :
  exists l, build_tree true noncanonical_witness = Ok (NMap [(B "m", NArr l)]) /\
            count_matching [(B "a", B "1"); (B "b", B "2")] l = 2%nat /\
            wf_set true noncanonical_witness = false.
Proof. eexists. vm_compute. repeat split; reflexivity. Qed.

(* an explicit key leaf whose JSON value is not a string, number or boolean (here: bytes): the entry is split *)
Definition nonbasic_key_witness : list pv := [ bytes "/l[k=QUI=]/k" "AB"; live "/l[k=QUI=]/z" "z" ].

Lemma nonbasic_key_split :
  exists l, build_tree true nonbasic_key_witness = Ok (NMap [(B "l", NArr l)]) /\
            List.length l = 2%nat /\ wf_set true nonbasic_key_witness = false.
Proof. eexists. vm_compute. repeat split; reflexivity. Qed.

(* mixed key names in one list: three key sets give two entries (/l[b=2]/y lands in the entry opened by /l[a=1][b=2]/v;
   the statement only counts the entries) *)
Definition mixed_keys_witness : list pv := [ live "/l[a=1]/x" "x"; live "/l[b=2]/y" "y"; live "/l[a=1][b=2]/v" "v" ].

Lemma mixed_keys_merge :
  exists l, build_tree true mixed_keys_witness = Ok (NMap [(B "l", NArr l)]) /\
            List.length l = 2%nat /\ wf_set true mixed_keys_witness = false.
Proof. eexists. vm_compute. repeat split; reflexivity. Qed.
