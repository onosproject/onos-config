(* Flattening the rendered document gives back the leaves of the trie: the live valued leaves and, per list
   entry, its key leaves (unless an explicit leaf restates the key). *)
From Coq Require Import List Arith NArith ZArith Bool Lia Permutation.
From OC Require Import Base.Bytes Model.Tree Model.TreeSpec Proofs.TreeBuildProofs.
Import ListNotations.
Open Scope N_scope.

Section Flat.
  Context (rfc : bool) (ks : list str -> list str).

  (* leaves contributed by one member of a map at schema path sp *)
  Definition ML (sp : list str) (kc : str * node) : list (fpath * gov) :=
    let (k, c) := kc in
    match c with
    | NArr l => flat_map (fun e => map (pre (k, entry_keys (ks (sp ++ [k])) e)) (flatten ks (sp ++ [k]) e)) l
    | NLeaf g => [([(k, [])], g)]
    | NMap _ => map (pre (k, [])) (flatten ks (sp ++ [k]) c)
    end.

  Definition FL (sp : list str) (m : amap) : list (fpath * gov) := flat_map (ML sp) m.

  Lemma flatten_map sp m : flatten ks sp (NMap m) = FL sp m.
  Proof. reflexivity. Qed.

  Fixpoint mdel (k : str) (m : amap) : amap :=
    match m with
    | [] => []
    | (k', v) :: m' => if eqb_str k k' then m' else (k', v) :: mdel k m'
    end.

  Lemma mdel_none k m : mget k m = None -> mdel k m = m.
  Proof.
    induction m as [|[k' v] m IH]; cbn; [reflexivity|].
    destruct (eqb_str k k'); [discriminate|]. intros H. f_equal. auto.
  Qed.

  Lemma FL_mset sp k x m : Permutation (FL sp (mset k x m)) (ML sp (k, x) ++ FL sp (mdel k m)).
  Proof.
    induction m as [|[k' v] m IH]; cbn [mset mdel].
    - unfold FL. cbn. reflexivity.
    - destruct (eqb_str k k') eqn:E.
      + unfold FL. cbn [flat_map]. reflexivity.
      + unfold FL in *. cbn [flat_map]. rewrite IH. rewrite !app_assoc. apply Permutation_app_tail. apply Permutation_app_comm.
  Qed.

  Lemma FL_mget sp k y m : mget k m = Some y -> Permutation (FL sp m) (ML sp (k, y) ++ FL sp (mdel k m)).
  Proof. intros H. rewrite <- (mset_get_same _ _ _ H) at 1. apply FL_mset. Qed.

  Lemma FL_mset_fresh sp k x m : mget k m = None -> Permutation (FL sp (mset k x m)) (FL sp m ++ ML sp (k, x)).
  Proof. intros H. rewrite FL_mset, (mdel_none _ _ H). apply Permutation_app_comm. Qed.

  Lemma FL_mset_over sp k x y m : mget k m = Some y ->
    Permutation (FL sp m ++ ML sp (k, x)) (FL sp (mset k x m) ++ ML sp (k, y)).
  Proof.
    intros H. rewrite FL_mset, (FL_mget sp k y m H), <- !app_assoc.
    rewrite (Permutation_app_comm (FL sp (mdel k m)) (ML sp (k, x))), (Permutation_app_comm (FL sp (mdel k m)) (ML sp (k, y))).
    apply Permutation_app_swap_app.
  Qed.

  Lemma FL_arr_append sp n x m l : arr_is n m l ->
    Permutation (FL sp (arr_append n x m))
                (FL sp m ++ map (pre (n, entry_keys (ks (sp ++ [n])) x)) (flatten ks (sp ++ [n]) x)).
  Proof.
    intros Hst. rewrite (mget_arr_append n x m l Hst), FL_mset. cbn [ML]. rewrite flat_map_app. cbn [flat_map]. rewrite app_nil_r.
    destruct Hst as [[Hg ->] | Hg].
    - cbn [flat_map app]. rewrite (mdel_none _ _ Hg). apply Permutation_app_comm.
    - rewrite (FL_mget sp n _ m Hg). cbn [ML]. rewrite <- !app_assoc. apply Permutation_app_head, Permutation_app_comm.
  Qed.

  (* key leaves of a key map *)
  Definition KL (K : list (str * str)) : list (fpath * gov) := map (fun kv => ([(fst kv, [])], GStr (snd kv))) K.

  Lemma FL_keymap sp K : FL sp (keymap_node K) = KL K.
  Proof. induction K as [|[k v] K IH]; [reflexivity|]. unfold FL in *. cbn. f_equal. exact IH. Qed.

  Lemma entry_keys_full K em :
    full_match K em -> entry_keys (map fst K) (NMap em) = K.
  Proof.
    intros Hf. cbn [entry_keys]. rewrite map_map. rewrite <- (map_id K) at 2. apply map_ext_in.
    intros [k v] Hin. destruct (Hf k v Hin) as [x [Hx Hc]]. cbn [fst]. rewrite Hx, Hc. reflexivity.
  Qed.

  (* ---------------------------------------------------------------- per child *)

  (* leaves one child stands for (as in trie_leaves) *)
  Definition CL (et : str * trie) : list (fpath * gov) :=
    match snd et with
    | TLeaf v => match leaf_of rfc v with LVal g => [([(fst et, [])], g)] | _ => [] end
    | TNode _ =>
      match classify (fst et) with
      | EPlain => map (pre (fst et, [])) (trie_leaves rfc (snd et) [])
      | EKeyed n K => map (pre (n, K)) (trie_leaves rfc (snd et) K)
      | EBad => []
      end
    end.

  (* the key leaf an explicit valued leaf replaces *)
  Definition OV (K0 : list (str * str)) (et : str * trie) : list (fpath * gov) :=
    match snd et with
    | TLeaf v =>
      match leaf_of rfc v, kget (fst et) K0 with
      | LVal _, Some v0 => [([(fst et, [])], GStr v0)]
      | _, _ => []
      end
    | TNode _ => []
    end.

  Definition flat_ok (t : trie) : Prop :=
    forall sp K0,
      wf_trie rfc ks sp K0 t = true -> NoDup (map fst K0) ->
      Permutation (flatten ks sp (NMap (render_cs rfc t (keymap_node K0)))) (trie_leaves rfc t K0).

  Lemma child_delta sp K0 e c m :
    flat_ok c -> child_ok rfc ks sp K0 (e, c) -> ready K0 m (e, c) ->
    Permutation (FL sp m ++ CL (e, c)) (FL sp (put_child rfc (e, c) m) ++ OV K0 (e, c)).
  Proof.
    intros IH Hok Hr. unfold child_ok, ready, put_child, CL, OV in *. cbn [fst snd] in *.
    destruct c as [v|cs].
    - unfold leaf_put. destruct (leaf_of rfc v) as [|g|]; [reflexivity| |reflexivity].
      rewrite mget_keymap_kget in Hr. destruct (kget e K0) as [v0|]; cbn [option_map] in Hr.
      + apply (FL_mset_over sp e (NLeaf g) _ m Hr).
      + rewrite app_nil_r. symmetry. apply FL_mset_fresh, Hr.
    - destruct (classify e) as [|nm K|] eqn:Ecl; [| |contradiction]; rewrite app_nil_r.
      + destruct Hok as [_ Hwf]. pose proof (IH (sp ++ [e]) [] Hwf (NoDup_nil _)) as IHc. cbn [keymap_node map] in IHc.
        rewrite (FL_mset_fresh _ _ _ _ Hr). cbn [ML]. rewrite IHc. reflexivity.
      + destruct Hok as [_ [HK [Hnd [Hks Hwf]]]]. destruct Hr as [l [Hst Hld]].
        rewrite (FL_arr_append sp nm _ m l Hst), <- Hks.
        rewrite (entry_keys_full K _ (render_full_match rfc ks (sp ++ [nm]) K cs Hnd Hwf)).
        rewrite (IH (sp ++ [nm]) K Hwf Hnd). reflexivity.
  Qed.

  (* ---------------------------------------------------------------- overridden key leaves *)

  (* the key leaf that a valued leaf named e replaces, taken out of the key leaves selected by f *)
  Lemma filter_key_split (f : str -> bool) e K0 :
    NoDup (map fst K0) -> f e = false ->
    Permutation (KL (filter (fun kv => eqb_str e (fst kv) || f (fst kv)) K0))
                (match kget e K0 with Some v0 => [([(e, [])], GStr v0)] | None => [] end ++
                 KL (filter (fun kv => f (fst kv)) K0)).
  Proof.
    intros Hnd Hfe. induction K0 as [|[k v] K0 IH]; [reflexivity|].
    inversion Hnd as [|? ? Hni Hnd']; subst. specialize (IH Hnd').
    unfold kget in *. cbn [filter find fst snd]. rewrite (eqb_str_sym k e).
    destruct (eqb_str e k) eqn:E; cbn [orb].
    - apply eqb_str_eq in E. subst k. rewrite Hfe. cbn [KL map app fst snd]. constructor.
      erewrite filter_ext_in; [reflexivity|]. intros [k' v'] Hin. cbn [fst].
      replace (eqb_str e k') with false; [reflexivity|].
      symmetry. apply eqb_str_neq. intros ->. apply Hni, (in_map fst _ _ Hin).
    - destruct (f k); cbn [KL map]; [apply Permutation_cons_app|]; exact IH.
  Qed.

  Lemma overridden_cons et cs k :
    overridden rfc (et :: cs) k =
    match snd et with
    | TLeaf v => eqb_str (fst et) k && match leaf_of rfc v with LVal _ => true | _ => false end
    | TNode _ => false
    end || overridden rfc cs k.
  Proof. reflexivity. Qed.

  Lemma overridden_leaves K0 cs :
    NoDup (map fst K0) -> pairwise compat cs = true ->
    Permutation (KL (filter (fun kv => overridden rfc cs (fst kv)) K0)) (flat_map (OV K0) cs).
  Proof.
    intros Hnd. induction cs as [|et cs IH]; cbn [pairwise flat_map]; intros Hpw.
    - clear Hnd. induction K0 as [|kv K0 IHK]; [reflexivity | exact IHK].
    - apply andb_true_iff in Hpw. destruct Hpw as [Hc Hpw]. specialize (IH Hpw).
      rewrite (filter_ext _ _ (fun kv => overridden_cons et cs (fst kv))). unfold OV at 1.
      destruct (snd et) as [v|] eqn:Es; [|exact IH].
      destruct (leaf_of rfc v) eqn:El;
        try (erewrite filter_ext; [exact IH|]; intros kv; rewrite andb_false_r; reflexivity).
      erewrite filter_ext by (intros kv; rewrite andb_true_r; reflexivity).
      rewrite filter_key_split; [apply Permutation_app; [destruct (kget (fst et) K0); reflexivity | exact IH] | exact Hnd |].
      (* no later valued leaf has the same name: the two would be incompatible *)
      destruct (overridden rfc cs (fst et)) eqn:Eo; [|reflexivity].
      unfold overridden in Eo. apply existsb_exists in Eo. destruct Eo as [et' [Hin H']].
      rewrite forallb_forall in Hc. specialize (Hc et' Hin). unfold compat, child_name in Hc. rewrite Es in Hc.
      destruct (snd et') as [v'|]; [|discriminate]. apply andb_true_iff in H'. destruct H' as [H' _].
      rewrite eqb_str_sym, H' in Hc. discriminate.
  Qed.

  Lemma filter_partition {A} (f : A -> bool) (l : list A) :
    Permutation l (filter (fun x => negb (f x)) l ++ filter f l).
  Proof.
    induction l as [|x l IH]; cbn; [reflexivity|].
    destruct (f x); cbn.
    - apply Permutation_cons_app. exact IH.
    - constructor. exact IH.
  Qed.

  Lemma trie_leaves_node cs K0 :
    trie_leaves rfc (TNode cs) K0 =
    KL (filter (fun kv => negb (overridden rfc cs (fst kv))) K0) ++ flat_map CL cs.
  Proof. reflexivity. Qed.

  Lemma flat_ok_all t : flat_ok t.
  Proof.
    induction t as [v|cs IH] using trie_ind2; intros sp K0 Hwf Hnd; [discriminate|].
    destruct (wf_trie_node _ _ _ _ _ Hwf) as [_ [Hpw _]].
    rewrite flatten_map, trie_leaves_node.
    assert (Hdelta : Permutation (KL K0 ++ flat_map CL cs)
                       (FL sp (render_cs rfc (TNode cs) (keymap_node K0)) ++ flat_map (OV K0) cs)).
    { rewrite <- FL_keymap with (sp := sp). revert IH.
      apply (children_ind rfc ks sp K0 (fun cs m =>
               Forall (fun et => flat_ok (snd et)) cs ->
               Permutation (FL sp m ++ flat_map CL cs)
                           (FL sp (render_cs rfc (TNode cs) m) ++ flat_map (OV K0) cs)));
        [reflexivity | | exact Hwf].
      intros [e c] cs' m Hok Hr IHcs IH. cbn [flat_map]. rewrite render_cs_cons.
      rewrite app_assoc, (child_delta sp K0 e c m (Forall_inv IH) Hok Hr).
      rewrite <- app_assoc, (Permutation_app_comm (OV K0 (e, c))), app_assoc, (IHcs (Forall_inv_tail IH)), <- app_assoc.
      apply Permutation_app_head, Permutation_app_comm. }
    apply (Permutation_app_inv_r (flat_map (OV K0) cs)). rewrite <- Hdelta.
    rewrite <- (overridden_leaves K0 cs Hnd Hpw). unfold KL.
    rewrite (filter_partition (fun kv => overridden rfc cs (fst kv)) K0) at 1. rewrite map_app.
    rewrite <- !app_assoc. apply Permutation_app_head, Permutation_app_comm.
  Qed.
End Flat.

Theorem flatten_render rfc ks t :
  wf_trie rfc ks [] [] t = true ->
  Permutation (flatten ks [] (render rfc t)) (trie_leaves rfc t []).
Proof.
  intros Hwf. apply (flat_ok_all rfc ks t [] [] Hwf (NoDup_nil _)).
Qed.

(* ------------------------------------------------------------------ the trie's leaves are the explicit leaves of its
   paths plus the key leaves of its entries *)

Lemma explicit_leaves_app rfc a b : explicit_leaves rfc (a ++ b) = explicit_leaves rfc a ++ explicit_leaves rfc b.
Proof. unfold explicit_leaves. apply flat_map_app. Qed.

Lemma explicit_under rfc e ps :
  (forall p, In p ps -> fst p <> []) ->
  explicit_leaves rfc (map (pre1 e) ps) = map (pre (felem e)) (explicit_leaves rfc ps).
Proof.
  unfold explicit_leaves. induction ps as [|p ps IH]; intros H; [reflexivity|].
  cbn [map flat_map pre1 fst snd]. rewrite map_app, IH by (intros q Hq; apply H; right; exact Hq). f_equal.
  destruct (leaf_of rfc (snd p)); [reflexivity| |reflexivity].
  specialize (H p (or_introl eq_refl)). destruct (fst p) as [|e2 r]; [contradiction | reflexivity].
Qed.

Lemma perm_flat_map_split {A B} (f g h : A -> list B) l :
  (forall x, In x l -> Permutation (f x) (g x ++ h x)) ->
  Permutation (flat_map f l) (flat_map g l ++ flat_map h l).
Proof.
  induction l as [|x l IH]; intros H; cbn; [reflexivity|].
  rewrite (H x (or_introl eq_refl)), IH; [|intros y Hy; apply H; right; exact Hy].
  rewrite <- !app_assoc. apply Permutation_app_head.
  rewrite !app_assoc. apply Permutation_app_tail. apply Permutation_app_comm.
Qed.

Lemma trie_leaves_split rfc ks t : forall sp K0,
  wf_trie rfc ks sp K0 t = true ->
  Permutation (trie_leaves rfc t K0) (key_leaves rfc t K0 ++ explicit_leaves rfc (dfs t)).
Proof.
  induction t as [v|cs IH] using trie_ind2; intros sp K0 Hwf; [discriminate|].
  destruct (wf_trie_node _ _ _ _ _ Hwf) as [_ [_ Hall]].
  cbn [trie_leaves key_leaves dfs]. rewrite <- app_assoc. apply Permutation_app_head.
  assert (Hex : explicit_leaves rfc (flat_map (fun et => map (fun p => (fst et :: fst p, snd p)) (dfs (snd et))) cs)
                = flat_map (fun et => explicit_leaves rfc (map (pre1 (fst et)) (dfs (snd et)))) cs).
  { clear. induction cs as [|et cs IHc]; [reflexivity|]. cbn [flat_map]. rewrite explicit_leaves_app, IHc. reflexivity. }
  rewrite Hex. apply perm_flat_map_split.
  intros [e c] Hin. rewrite Forall_forall in Hall, IH. specialize (Hall _ Hin). specialize (IH _ Hin).
  unfold child_ok in Hall. cbn [fst snd] in *.
  destruct c as [v|cs'].
  - cbn. destruct (leaf_of rfc v); reflexivity.
  - rewrite (explicit_under rfc e _ (dfs_node_paths_nonempty cs')). unfold felem.
    destruct (classify e) as [|nm K|]; [| |contradiction]; rewrite <- map_app; apply Permutation_map; eapply IH, Hall.
Qed.

(* C18, flatten/build: on a well-formed set BuildTree succeeds and flattening its document gives back exactly
   the live valued leaves plus the key leaves of the list entries the live paths go through *)
Theorem flatten_build rfc pvs :
  wf_set rfc pvs = true ->
  exists t, build_tree rfc pvs = Ok t /\
            Permutation (flatten (schema_of (live_paths pvs)) [] t)
                        (explicit_leaves rfc (live_paths pvs) ++ key_leaves rfc (trie_of (live_paths pvs)) []).
Proof.
  intros Hwf. exists (render rfc (trie_of (live_paths pvs))). split; [apply build_tree_render; exact Hwf|].
  destruct (wf_set_parts rfc pvs Hwf) as [-> | [_ [Hdfs Hwt]]]; [reflexivity|].
  rewrite (flatten_render rfc _ _ Hwt), (trie_leaves_split rfc _ _ [] [] Hwt), Hdfs. apply Permutation_app_comm.
Qed.

(* ------------------------------------------------------------------ every key leaf is implied by a live path *)

Lemma implied_of_cons b e rest :
  rest <> [] ->
  implied_of b (e :: rest) =
  (match classify e with
   | EKeyed n K => map (fun kv => (b ++ [(n, K); (fst kv, [])], GStr (snd kv))) K
   | _ => []
   end) ++ implied_of (b ++ [felem e]) rest.
Proof. destruct rest; [contradiction | reflexivity]. Qed.

Lemma implied_of_before : forall elems b,
  implied_of b elems = map (fun x => (b ++ fst x, snd x)) (implied_of [] elems).
Proof.
  induction elems as [|e rest IH]; intros b; [reflexivity|].
  destruct rest as [|r rest']; [reflexivity|].
  rewrite (implied_of_cons b e (r :: rest')) by discriminate.
  rewrite (implied_of_cons [] e (r :: rest')) by discriminate. rewrite map_app. f_equal.
  - destruct (classify e) as [|n K|]; [reflexivity| |reflexivity]. rewrite map_map. cbn [fst snd app]. reflexivity.
  - rewrite (IH (b ++ [felem e])). rewrite (IH ([] ++ [felem e])). rewrite map_map. cbn [fst snd app].
    apply map_ext. intros x. rewrite <- app_assoc. reflexivity.
Qed.

Lemma implied_of_pre1 e q : fst q <> [] ->
  implied_of [] (fst (pre1 e q)) = map (pre (felem e)) (KL (snd (felem e)) ++ implied_of [] (fst q)).
Proof.
  intros Hq. cbn [pre1 fst]. rewrite (implied_of_cons [] e _ Hq), (implied_of_before _ ([] ++ [felem e])), map_app. f_equal.
  unfold felem, KL. destruct (classify e); [reflexivity | rewrite map_map; reflexivity | reflexivity].
Qed.

Lemma key_leaves_sound rfc ks t : forall sp K0 x,
  wf_trie rfc ks sp K0 t = true ->
  In x (key_leaves rfc t K0) ->
  In x (map (fun kv => ([(fst kv, [])], GStr (snd kv))) K0) \/
  exists p, In p (dfs t) /\ In x (implied_of [] (fst p)).
Proof.
  induction t as [v|cs IH] using trie_ind2; intros sp K0 x Hwf Hin; [discriminate|].
  destruct (wf_trie_node _ _ _ _ _ Hwf) as [_ [_ Hall]].
  cbn [key_leaves] in Hin. apply in_app_or in Hin. destruct Hin as [Hin|Hin].
  - left. apply in_map_iff in Hin. destruct Hin as [kv [<- Hkv]]. apply filter_In in Hkv.
    apply in_map_iff. exists kv. split; [reflexivity | apply Hkv].
  - right. apply in_flat_map in Hin. destruct Hin as [[e c] [Hec Hx]].
    rewrite Forall_forall in Hall, IH. specialize (Hall _ Hec). specialize (IH _ Hec).
    unfold child_ok in Hall. cbn [fst snd] in *. destruct c as [v|cs']; [destruct Hx|].
    (* x is a key leaf y of the child under the child's element; the child is an entry with keys snd (felem e) *)
    assert (Hy : exists y sp', x = pre (felem e) y /\ In y (key_leaves rfc (TNode cs') (snd (felem e))) /\
                               wf_trie rfc ks sp' (snd (felem e)) (TNode cs') = true).
    { unfold felem. destruct (classify e) as [|nm K|]; [| |contradiction];
        apply in_map_iff in Hx; destruct Hx as [y [<- Hy]]; exists y; eexists; repeat split; try exact Hy; apply Hall. }
    destruct Hy as [y [sp' [-> [Hy Hwf']]]].
    (* some path q below e carries y: the one the induction gives, or any one when y is a key of e itself *)
    assert (Hq : exists q, In q (dfs (TNode cs')) /\ (In y (KL (snd (felem e))) \/ In y (implied_of [] (fst q)))).
    { destruct (IH _ _ y Hwf' Hy) as [Hk | [q [Hq Hyq]]]; [|exists q; auto].
      pose proof (wf_dfs_nonempty rfc ks _ _ _ Hwf') as Hne.
      destruct (dfs (TNode cs')) as [|q qs]; [contradiction | exists q; split; [left; reflexivity | left; exact Hk]]. }
    destruct Hq as [q [Hq Hyq]]. exists (pre1 e q). split; [apply dfs_node_in; exists e, (TNode cs'), q; auto|].
    rewrite implied_of_pre1 by apply (dfs_node_paths_nonempty cs' q Hq). apply in_map, in_or_app, Hyq.
Qed.

Corollary key_leaves_implied rfc pvs x :
  wf_set rfc pvs = true ->
  In x (key_leaves rfc (trie_of (live_paths pvs)) []) ->
  exists p, In p (live_paths pvs) /\ In x (implied_of [] (fst p)).
Proof.
  intros Hwf Hin. destruct (wf_set_parts rfc pvs Hwf) as [E | [_ [Hdfs Hwt]]]; [rewrite E in Hin; destruct Hin|].
  destruct (key_leaves_sound rfc _ _ [] [] x Hwt Hin) as [[]|[p [Hp Hx]]].
  exists p. rewrite <- Hdfs. auto.
Qed.

(* ------------------------------------------------------------------ list entries: one per key set *)

(* the entries the children of a node contribute to the list called n, in order *)
Definition entries_of (rfc : bool) (n : str) (cs : list (str * trie)) : list node :=
  flat_map (fun et => match snd et with
                      | TLeaf _ => []
                      | TNode _ => match classify (fst et) with
                                   | EKeyed n' K => if eqb_str n n' then [NMap (render_cs rfc (snd et) (keymap_node K))] else []
                                   | _ => []
                                   end
                      end) cs.

Definition arr_of (n : str) (m : amap) : list node := match mget n m with Some (NArr l) => l | _ => [] end.

Definition keyed_child (et : str * trie) : Prop :=
  match snd et with TNode _ => match classify (fst et) with EKeyed _ _ => True | _ => False end | TLeaf _ => False end.

Lemma arr_of_append n x m : arr_of n (arr_append n x m) = arr_of n m ++ [x].
Proof. unfold arr_of, arr_append. destruct (mget n m) as [[g|c|l]|]; rewrite mget_mset_same; reflexivity. Qed.

Lemma fold_entries rfc n cs : forall m,
  (forall et, In et cs -> child_name et = n -> keyed_child et) ->
  arr_of n (render_cs rfc (TNode cs) m) = arr_of n m ++ entries_of rfc n cs.
Proof.
  induction cs as [|et cs IH]; intros m Hk; [cbn; rewrite app_nil_r; reflexivity|].
  rewrite render_cs_cons, IH by (intros et' Hin; apply Hk; right; exact Hin).
  unfold entries_of. cbn [flat_map]. rewrite app_assoc. f_equal.
  destruct (str_eq_dec n (child_name et)) as [Heq|Hne].
  - specialize (Hk et (or_introl eq_refl) (eq_sym Heq)). unfold keyed_child in Hk. unfold put_child, child_name in *.
    destruct (snd et) as [v|cs']; [contradiction|].
    destruct (classify (fst et)) as [|n' K|]; [contradiction| |contradiction]. subst n'. rewrite eqb_str_refl.
    apply arr_of_append.
  - unfold arr_of. rewrite put_child_other by exact Hne. unfold child_name in Hne.
    destruct (snd et) as [v|cs']; [rewrite app_nil_r; reflexivity|].
    destruct (classify (fst et)) as [|n' K|]; try (rewrite app_nil_r; reflexivity).
    apply eqb_str_neq in Hne. rewrite Hne, app_nil_r. reflexivity.
Qed.

Lemma render_cs_entries rfc K0 cs n :
  ~ In n (map fst K0) -> (forall et, In et cs -> child_name et = n -> keyed_child et) ->
  arr_of n (render_cs rfc (TNode cs) (keymap_node K0)) = entries_of rfc n cs.
Proof.
  intros Hni Hk. rewrite (fold_entries rfc n cs _ Hk).
  unfold arr_of. rewrite (mget_keymap_none _ _ Hni). reflexivity.
Qed.

(* In the document of a well-formed trie node, the list called n consists of exactly one entry per keyed child
   named n (so: one entry per key set, never split) *)
Theorem render_entries rfc ks sp K0 cs n :
  wf_trie rfc ks sp K0 (TNode cs) = true -> ~ In n (map fst K0) ->
  (forall et, In et cs -> child_name et = n -> keyed_child et) ->
  arr_of n (render_cs rfc (TNode cs) (keymap_node K0)) = entries_of rfc n cs.
Proof. intros _. apply render_cs_entries. Qed.

(* ... and two different key sets give two entries that do not answer to each other's keys (never merged) *)
Theorem entries_distinct rfc ks sp K0 cs ea ca eb cb n Ka Kb :
  wf_trie rfc ks sp K0 (TNode cs) = true ->
  In (ea, TNode ca) cs -> In (eb, TNode cb) cs ->
  classify ea = EKeyed n Ka -> classify eb = EKeyed n Kb -> kv_eqb Ka Kb = false ->
  full_match Ka (render_cs rfc (TNode ca) (keymap_node Ka)) /\
  some_differs Kb (render_cs rfc (TNode ca) (keymap_node Ka)).
Proof.
  intros Hwf Ha Hb Hca Hcb Hne.
  destruct (wf_trie_node _ _ _ _ _ Hwf) as [_ [_ Hall]]. rewrite Forall_forall in Hall.
  pose proof (Hall _ Ha) as Hoa. pose proof (Hall _ Hb) as Hob. unfold child_ok in Hoa, Hob. cbn [fst snd] in Hoa, Hob.
  rewrite Hca in Hoa. rewrite Hcb in Hob.
  destruct Hoa as [_ [_ [Hnda [Hksa Hwfa]]]]. destruct Hob as [_ [_ [_ [Hksb _]]]].
  pose proof (render_full_match rfc ks (sp ++ [n]) Ka ca Hnda Hwfa) as Hfm.
  split; [exact Hfm|].
  apply (differs_after Ka Kb); auto. congruence.
Qed.
