(* Proofs about the pruning half of Model/Tree.v (PrunePathValues, isBelowDeletedPath, utils.IsPathBelow). *)
From Coq Require Import List Arith NArith Bool Lia Permutation Sorted.
From OC Require Import Base.Bytes Model.Tree.
Import ListNotations.
Open Scope N_scope.

(* ------------------------------------------------------------------ order *)

Lemma leb_str_trans a b c : leb_str a b = true -> leb_str b c = true -> leb_str a c = true.
Proof.
  unfold leb_str. rewrite !negb_true_iff. intros Hba Hcb.
  destruct (ltb_str c a) eqn:Hca; [|reflexivity].
  destruct (ltb_str a b) eqn:Hab.
  - rewrite (ltb_str_trans _ _ _ Hca Hab) in Hcb. discriminate.
  - rewrite <- (ltb_str_total a b Hab Hba) in Hcb. congruence.
Qed.

Definition pv_le (a b : pv) : Prop := pv_leb a b = true.

Lemma pv_le_trans a b c : pv_le a b -> pv_le b c -> pv_le a c.
Proof. unfold pv_le, pv_leb. apply leb_str_trans. Qed.

Lemma pv_le_total a b : pv_le a b \/ pv_le b a.
Proof. unfold pv_le, pv_leb. apply leb_str_total. Qed.

(* insertion sort by a total transitive comparison sorts *)
Lemma isort_StronglySorted {A} (leb : A -> A -> bool) :
  (forall a b c, leb a b = true -> leb b c = true -> leb a c = true) ->
  (forall a b, leb a b = true \/ leb b a = true) ->
  forall l, StronglySorted (fun a b => leb a b = true) (isort leb l).
Proof.
  intros Htrans Htotal. induction l as [|x l IH]; cbn; [constructor|].
  induction IH as [|y s Hs IH Hall]; cbn; [repeat constructor|].
  destruct (leb x y) eqn:E.
  - constructor; [constructor; assumption|]. constructor; [exact E|].
    eapply Forall_impl; [|exact Hall]. intros z. apply Htrans. exact E.
  - constructor; [exact IH|]. apply (Permutation_Forall (insert_sorted_perm leb x s)). constructor; [|exact Hall].
    destruct (Htotal x y) as [H|H]; [congruence | exact H].
Qed.

Lemma isort_ssorted l : StronglySorted pv_le (isort pv_leb l).
Proof. apply (isort_StronglySorted pv_leb pv_le_trans pv_le_total). Qed.

Lemma filter_ssorted {A} (R : A -> A -> Prop) f l : StronglySorted R l -> StronglySorted R (filter f l).
Proof.
  induction 1 as [|x l Hs IH Hall]; cbn; [constructor|].
  destruct (f x); [|exact IH].
  constructor; [exact IH|].
  apply Forall_forall. intros y Hy. apply filter_In in Hy. destruct Hy as [Hy _].
  eapply Forall_forall in Hall; eauto.
Qed.

Lemma perm_filter {A} (f : A -> bool) l l' : Permutation l l' -> Permutation (filter f l) (filter f l').
Proof.
  induction 1 as [| x l l' HP IH | x y l | l l' l'' HP1 IH1 HP2 IH2]; cbn.
  - constructor.
  - destruct (f x); [constructor|]; exact IH.
  - destruct (f x), (f y); try reflexivity. apply perm_swap.
  - etransitivity; eauto.
Qed.

Lemma existsb_perm {A} (f : A -> bool) l l' : Permutation l l' -> existsb f l = existsb f l'.
Proof.
  induction 1 as [|x l l' _ IH|x y l|l l' l'' _ IH1 _ IH2]; cbn; [reflexivity | rewrite IH; reflexivity | | congruence].
  rewrite !orb_assoc, (orb_comm (f y)). reflexivity.
Qed.

(* ------------------------------------------------------------------ IsPathBelow *)

Lemma mem_In x l : mem x l = true <-> In x l.
Proof.
  unfold mem. rewrite existsb_exists. split.
  - intros [y [Hy E]]. apply eqb_str_eq in E. subst. exact Hy.
  - intros H. exists x. split; [exact H | apply eqb_str_refl].
Qed.

Lemma nth_error_app_len {A} (a r : list A) : nth_error (a ++ r) (List.length a) = hd_error r.
Proof. induction a as [|x a IH]; cbn; [destruct r; reflexivity | exact IH]. Qed.

(* a non-root ancestor: strictly longer, same text up to the ancestor's end, then '/' or '[' *)
Lemma is_path_below_spec p a :
  is_root a = false ->
  (is_path_below p a = true <-> exists c r, p = a ++ c :: r /\ boundary c = true).
Proof.
  intros Hr. unfold is_path_below. rewrite Hr. split.
  - rewrite !andb_true_iff. intros [[Hlen Hpre] Hb].
    apply prefixb_spec in Hpre. destruct Hpre as [r ->].
    rewrite nth_error_app_len in Hb. destruct r as [|c r]; [discriminate|]. cbn in Hb.
    exists c, r. split; [reflexivity | exact Hb].
  - intros [c [r [-> Hb]]]. rewrite !andb_true_iff. repeat split.
    + apply Nat.ltb_lt. rewrite app_length. cbn. lia.
    + apply prefixb_app.
    + rewrite nth_error_app_len. cbn. exact Hb.
Qed.

(* everything except the root itself lies below the root *)
Lemma is_path_below_root p a :
  is_root a = true -> p <> [] -> is_path_below p a = negb (eqb_str p [c_slash]).
Proof.
  intros Hr Hp. unfold is_path_below. rewrite Hr.
  unfold is_root in *. apply orb_true_iff in Hr.
  destruct p as [|x p]; [contradiction|].
  change (eqb_str (x :: p) []) with false.
  destruct Hr as [Hr|Hr]; apply eqb_str_eq in Hr; subst a.
  - change (eqb_str (x :: p) []) with false. cbn [negb andb orb]. reflexivity.
  - cbn [orb]. destruct (eqb_str (x :: p) [c_slash]); reflexivity.
Qed.

(* ------------------------------------------------------------------ isBelowDeletedPath *)

Lemma below_scan_spec dels rest : forall pre,
  below_scan dels pre rest = true <->
  exists s c r, rest = s ++ c :: r /\ boundary c = true /\ In (pre ++ s) dels.
Proof.
  induction rest as [|x rest IH]; intros pre; cbn.
  - split; [discriminate|]. intros [s [c [r [H _]]]]. destruct s; discriminate.
  - rewrite orb_true_iff, andb_true_iff, mem_In, IH. split.
    + intros [[Hb Hm] | [s [c [r [-> [Hb Hi]]]]]].
      * exists [], x, rest. rewrite app_nil_r. auto.
      * exists (x :: s), c, r. rewrite <- app_assoc in Hi. cbn in Hi. auto.
    + intros [s [c [r [He [Hb Hi]]]]]. destruct s as [|y s].
      * cbn in He. injection He as -> ->. rewrite app_nil_r in Hi. left. auto.
      * cbn in He. injection He as -> ->. right. exists s, c, r. rewrite <- app_assoc. cbn. auto.
Qed.

(* tree.go's own loop agrees with utils.IsPathBelow on every path except the empty one *)
Lemma below_deleted_spec p dels :
  p <> [] ->
  (below_deleted p dels = true <-> exists d, In d dels /\ is_path_below p d = true).
Proof.
  intros Hp. unfold below_deleted.
  destruct dels as [|d0 dels0] eqn:Ed.
  { split; [discriminate | intros [d [[] _]]]. }
  rewrite <- Ed. clear Ed d0 dels0.
  destruct p as [|x p]; [contradiction|].
  rewrite orb_true_iff, andb_true_iff, orb_true_iff, !mem_In, below_scan_spec, negb_true_iff.
  split.
  - intros [[Hne [Hin|Hin]] | [s [c [r [-> [Hb Hi]]]]]].
    + exists [c_slash]. split; [exact Hin|]. rewrite is_path_below_root; [rewrite Hne; reflexivity | reflexivity | discriminate].
    + exists []. split; [exact Hin|]. rewrite is_path_below_root; [rewrite Hne; reflexivity | reflexivity | discriminate].
    + exists ([x] ++ s). split; [exact Hi|].
      destruct (is_root ([x] ++ s)) eqn:Hr.
      * rewrite is_path_below_root; [|exact Hr|discriminate].
        apply negb_true_iff. apply eqb_str_neq. cbn. destruct s; discriminate.
      * apply is_path_below_spec; [exact Hr|]. exists c, r. split; [|exact Hb]. cbn. reflexivity.
  - intros [d [Hin Hb]]. destruct (is_root d) eqn:Hr.
    + rewrite is_path_below_root in Hb; [|exact Hr|discriminate]. apply negb_true_iff in Hb.
      left. split; [exact Hb|]. unfold is_root in Hr. apply orb_true_iff in Hr.
      destruct Hr as [Hr|Hr]; apply eqb_str_eq in Hr; subst d; auto.
    + apply is_path_below_spec in Hb; [|exact Hr]. destruct Hb as [c [r [He Hb]]].
      destruct d as [|y d]; [discriminate Hr|]. cbn in He. injection He as -> ->.
      right. exists d, c, r. auto.
Qed.

Lemma below_deleted_existsb p dels :
  p <> [] -> below_deleted p dels = existsb (is_path_below p) dels.
Proof. intros Hp. apply eq_iff_eq_true. rewrite existsb_exists. apply below_deleted_spec, Hp. Qed.

(* the one path on which the two differ: the empty path counts as lying below a deleted root *)
Example below_deleted_empty_path :
  below_deleted [] [[c_slash]] = true /\ is_path_below [] [c_slash] = false.
Proof. split; reflexivity. Qed.

(* ------------------------------------------------------------------ PrunePathValues *)

(* the specification: x survives iff no tombstone of the input lies strictly above it at an element
   boundary and it is not itself a tombstone (unless top tombstones are to be left behind) *)
Definition keep_spec (leave : bool) (pvs : list pv) (x : pv) : bool :=
  negb (existsb (fun d => pv_del d && is_path_below (pv_path x) (pv_path d)) pvs) &&
  (negb (pv_del x) || leave).

Lemma existsb_dels (f : str -> bool) l :
  existsb f (map pv_path (filter pv_del l)) = existsb (fun d => pv_del d && f (pv_path d)) l.
Proof.
  induction l as [|d l IH]; cbn; [reflexivity|].
  destruct (pv_del d); cbn; rewrite IH; reflexivity.
Qed.

Lemma prune_sorted leave pvs : StronglySorted pv_le (prune leave pvs).
Proof. apply filter_ssorted, isort_ssorted. Qed.

Lemma prune_incl leave pvs x : In x (prune leave pvs) -> In x pvs.
Proof. intros H. apply filter_In in H. apply (Permutation_in _ (Permutation_sym (isort_perm pv_leb pvs))), H. Qed.

Theorem prune_exact leave pvs :
  (forall x, In x pvs -> pv_path x <> []) ->
  Permutation (prune leave pvs) (filter (keep_spec leave pvs) pvs) /\
  StronglySorted pv_le (prune leave pvs).
Proof.
  intros Hne. split; [|apply prune_sorted]. unfold prune.
  assert (HP : Permutation (isort pv_leb pvs) pvs) by (symmetry; apply isort_perm).
  rewrite (filter_ext_in _ (keep_spec leave pvs)); [apply perm_filter, HP|].
  intros x Hx. unfold keep_spec. f_equal. f_equal.
  rewrite below_deleted_existsb by (apply Hne, (Permutation_in _ HP), Hx).
  rewrite existsb_dels. apply existsb_perm, HP.
Qed.

Lemma existsb_false {A} (f : A -> bool) l : existsb f l = false <-> forall x, In x l -> f x = false.
Proof.
  rewrite <- not_true_iff_false, existsb_exists. split.
  - intros H x Hx. apply not_true_iff_false. intros Hf. apply H. exists x. auto.
  - intros H (x & Hx & Hf). rewrite (H x Hx) in Hf. discriminate.
Qed.

(* membership form *)
Corollary prune_In leave pvs x :
  (forall y, In y pvs -> pv_path y <> []) ->
  (In x (prune leave pvs) <->
   In x pvs /\
   (forall d, In d pvs -> pv_del d = true -> is_path_below (pv_path x) (pv_path d) = false) /\
   (pv_del x = true -> leave = true)).
Proof.
  intros Hne. destruct (prune_exact leave pvs Hne) as [HP _].
  transitivity (In x (filter (keep_spec leave pvs) pvs)).
  { split; apply Permutation_in; [|symmetry]; exact HP. }
  unfold keep_spec. rewrite filter_In, andb_true_iff, negb_true_iff, existsb_false.
  apply and_iff_compat_l. split; intros [H1 H2]; split.
  - intros d Hd Hdel. specialize (H1 d Hd). rewrite Hdel in H1. exact H1.
  - intros Hdel. rewrite Hdel in H2. exact H2.
  - intros d Hd. destruct (pv_del d) eqn:E; [apply (H1 d Hd E) | reflexivity].
  - destruct (pv_del x); [apply H2; reflexivity | reflexivity].
Qed.

(* the order of the input does not matter when paths are distinct (PrunePathMap ranges over a Go map) *)
Lemma ssorted_perm_unique (l l' : list pv) :
  NoDup (map pv_path l) -> Permutation l l' ->
  StronglySorted pv_le l -> StronglySorted pv_le l' -> l = l'.
Proof.
  revert l'. induction l as [|x l IH]; intros l' Hnd HP Hs Hs'.
  - apply Permutation_nil in HP. subst. reflexivity.
  - destruct l' as [|y l']; [apply Permutation_sym, Permutation_nil in HP; discriminate|].
    inversion Hs as [|? ? Hsl Hall]; subst. inversion Hs' as [|? ? Hsl' Hall']; subst.
    assert (x = y) as ->.
    { assert (Hy : In y (x :: l)) by (eapply Permutation_in; [symmetry; exact HP | left; reflexivity]).
      assert (Hx : In x (y :: l')) by (eapply Permutation_in; [exact HP | left; reflexivity]).
      destruct Hy as [Hy|Hy]; [exact Hy|]. destruct Hx as [Hx|Hx]; [symmetry; exact Hx|].
      rewrite Forall_forall in Hall, Hall'.
      pose proof (Hall y Hy) as H1. pose proof (Hall' x Hx) as H2.
      unfold pv_le, pv_leb, leb_str in H1, H2. apply negb_true_iff in H1, H2.
      pose proof (ltb_str_total _ _ H2 H1) as Heq.
      cbn in Hnd. inversion Hnd as [|? ? Hni _]; subst. exfalso. apply Hni. rewrite Heq. apply in_map. exact Hy. }
    f_equal. apply IH; auto.
    + cbn in Hnd. inversion Hnd; assumption.
    + eapply Permutation_cons_inv; exact HP.
Qed.

Theorem prune_order_independent leave m m' :
  NoDup (map pv_path m) -> Permutation m m' -> prune_map leave m = prune_map leave m'.
Proof.
  intros Hnd HP. unfold prune_map, prune.
  assert (Hs : isort pv_leb m = isort pv_leb m').
  { apply ssorted_perm_unique.
    - eapply Permutation_NoDup; [|exact Hnd]. apply Permutation_map. apply isort_perm.
    - etransitivity; [symmetry; apply isort_perm|]. etransitivity; [exact HP | apply isort_perm].
    - apply isort_ssorted.
    - apply isort_ssorted. }
  rewrite Hs. reflexivity.
Qed.

(* siblings that merely share a textual prefix are not below one another; '-' sorts between a path and its
   children and does not end the pruning *)
Definition pvs_example : list pv :=
  let s := {| tv_type := 1; tv_bytes := B "v"; tv_opts := [] |} in
  [ {| pv_path := B "/a/x"; pv_del := false; pv_val := s |};
    {| pv_path := B "/a-b"; pv_del := false; pv_val := s |};
    {| pv_path := B "/a"; pv_del := true; pv_val := s |};
    {| pv_path := B "/a/b/c"; pv_del := false; pv_val := s |};
    {| pv_path := B "/a[k=1]/y"; pv_del := false; pv_val := s |};
    {| pv_path := B "/ab"; pv_del := false; pv_val := s |};
    {| pv_path := B "/c/b"; pv_del := true; pv_val := s |};
    {| pv_path := B "/c/bc"; pv_del := false; pv_val := s |};
    {| pv_path := B "/c/b/d"; pv_del := true; pv_val := s |} ].

Example prune_siblings_true :
  map pv_path (prune true pvs_example) = [B "/a"; B "/a-b"; B "/ab"; B "/c/b"; B "/c/bc"].
Proof. vm_compute. reflexivity. Qed.

Example prune_siblings_false :
  map pv_path (prune false pvs_example) = [B "/a-b"; B "/ab"; B "/c/bc"].
Proof. vm_compute. reflexivity. Qed.

Example below_examples :
  is_path_below (B "/a/bc") (B "/a/b") = false /\ is_path_below (B "/a/b/c") (B "/a/b") = true /\
  is_path_below (B "/a/b[k=1]/c") (B "/a/b") = true /\ is_path_below (B "/a-b") (B "/a") = false /\
  is_path_below (B "/a/b") (B "/a/b") = false /\ is_path_below (B "/a") (B "/") = true.
Proof. vm_compute. repeat split. Qed.
