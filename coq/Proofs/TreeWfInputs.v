(* C18: wf_set from hypotheses on the INPUT.  wf_set is stated on the trie folded from the live paths; here every one of
   its conjuncts is derived from boolean conditions on the live paths themselves:
     normal_textb   (grammar)  every path text is "/" e1 "/" e2 ... with elements the tokenizer returns whole
     pfreeb         (schema)   no path's elements are a prefix of another's (no duplicates, no leaf above a leaf)
     grammarb       (grammar)  an element containing '=' parses into a list name and a non-empty key map with distinct names
     schema_keysb   (schema)   every use of a list (by schema path) carries the same key names, in the same order
     key_namesb     (schema)   a container or list inside a list entry is not named like one of the entry's keys
     key_leavesb    (values)   no leaf value makes handleLeafValue panic; an explicit key leaf says what the path says
     siblingsb      (schema)   two different elements under the same parent answer to the same member name only as two
                               entries of one list with different key maps (a name is not both a leaf/container and a list)
   The contiguity part comes from TreeContiguous*.v. *)
From Coq Require Import List Arith NArith Bool Lia Sorted Permutation.
From OC Require Import Base.Bytes Model.Tree Model.TreeSpec Proofs.TreeProofs Proofs.TreeBuildProofs Proofs.TreeFlattenProofs
     Proofs.TreeContiguous Proofs.TreeContiguousSets.
Import ListNotations.
Open Scope N_scope.

Definition is_nil {A} (l : list A) : bool := match l with [] => true | _ => false end.

(* ------------------------------------------------------------------ one path, walked the way wf_trie walks the trie *)
Definition leaf_check (rfc : bool) (K0 : list (str * str)) (e : str) (v : tv) : bool :=
  match leaf_of rfc v with
  | LPanic => false
  | LNone => true
  | LVal g => match kget e K0 with Some kv => eqb_str (conv_gov g) kv | None => true end
  end.

Fixpoint walk (rfc : bool) (ks : list str -> list str) (sp : list str) (K0 : list (str * str)) (elems : list str) (v : tv) : bool :=
  match elems with
  | [] => false
  | e :: rest =>
    match rest with
    | [] => leaf_check rfc K0 e v
    | _ :: _ =>
      match classify e with
      | EPlain => negb (mem e (map fst K0)) && walk rfc ks (sp ++ [e]) [] rest v
      | EKeyed n K =>
        negb (mem n (map fst K0)) && negb (is_nil K) && nodupb (map fst K) &&
        list_eqb (map fst K) (ks (sp ++ [n])) && walk rfc ks (sp ++ [n]) K rest v
      | EBad => false
      end
    end
  end.

(* the same, one concern at a time *)
Fixpoint grammar_walk (elems : list str) : bool :=
  match elems with
  | [] => false
  | e :: rest =>
    match rest with
    | [] => true
    | _ :: _ =>
      match classify e with
      | EPlain => grammar_walk rest
      | EKeyed n K => negb (is_nil K) && nodupb (map fst K) && grammar_walk rest
      | EBad => false
      end
    end
  end.

Fixpoint schema_keys_walk (ks : list str -> list str) (sp : list str) (elems : list str) : bool :=
  match elems with
  | [] => true
  | e :: rest =>
    match rest with
    | [] => true
    | _ :: _ =>
      match classify e with
      | EPlain => schema_keys_walk ks (sp ++ [e]) rest
      | EKeyed n K => list_eqb (map fst K) (ks (sp ++ [n])) && schema_keys_walk ks (sp ++ [n]) rest
      | EBad => true
      end
    end
  end.

Fixpoint key_names_walk (K0 : list (str * str)) (elems : list str) : bool :=
  match elems with
  | [] => true
  | e :: rest =>
    match rest with
    | [] => true
    | _ :: _ =>
      match classify e with
      | EPlain => negb (mem e (map fst K0)) && key_names_walk [] rest
      | EKeyed n K => negb (mem n (map fst K0)) && key_names_walk K rest
      | EBad => true
      end
    end
  end.

Fixpoint leaf_walk (rfc : bool) (K0 : list (str * str)) (elems : list str) (v : tv) : bool :=
  match elems with
  | [] => true
  | e :: rest =>
    match rest with
    | [] => leaf_check rfc K0 e v
    | _ :: _ =>
      match classify e with
      | EPlain => leaf_walk rfc [] rest v
      | EKeyed n K => leaf_walk rfc K rest v
      | EBad => true
      end
    end
  end.

Lemma walk_split rfc ks elems v : forall sp K0,
  grammar_walk elems = true -> schema_keys_walk ks sp elems = true -> key_names_walk K0 elems = true ->
  leaf_walk rfc K0 elems v = true -> walk rfc ks sp K0 elems v = true.
Proof.
  induction elems as [|e rest IH]; intros sp K0 G S N L; [discriminate|].
  destruct rest as [|e2 rest2]; [exact L|].
  cbn [walk grammar_walk schema_keys_walk key_names_walk leaf_walk] in *.
  destruct (classify e) as [|n K|]; [| |discriminate].
  - apply andb_true_iff in N. destruct N as [N1 N2]. rewrite N1. cbn [andb]. apply IH; assumption.
  - apply andb_true_iff in G. destruct G as [G12 G3]. apply andb_true_iff in G12. destruct G12 as [G1 G2].
    apply andb_true_iff in S. destruct S as [S1 S2]. apply andb_true_iff in N. destruct N as [N1 N2].
    rewrite N1, G1, G2, S1. cbn [andb]. apply IH; assumption.
Qed.

(* ------------------------------------------------------------------ two paths: where they part *)
Definition nm (e : str) (rest : list str) : str :=
  match rest with
  | [] => e
  | _ :: _ => match classify e with EKeyed n _ => n | _ => e end
  end.

Fixpoint sib (p q : list str) : bool :=
  match p, q with
  | e1 :: r1, e2 :: r2 =>
    if eqb_str e1 e2 then sib r1 r2
    else if eqb_str (nm e1 r1) (nm e2 r2) then
      match r1, r2 with
      | _ :: _, _ :: _ =>
        match classify e1, classify e2 with
        | EKeyed _ Ka, EKeyed _ Kb => negb (kv_eqb Ka Kb)
        | _, _ => false
        end
      | _, _ => false
      end
    else true
  | _, _ => true
  end.

Definition sibP (x y : list str * tv) : Prop := sib (fst x) (fst y) = true.

(* ------------------------------------------------------------------ the conditions on the live paths *)
Definition grammarb (lp : list (list str * tv)) : bool := forallb (fun p => grammar_walk (fst p)) lp.
Definition schema_keysb (lp : list (list str * tv)) : bool := forallb (fun p => schema_keys_walk (schema_of lp) [] (fst p)) lp.
Definition key_namesb (lp : list (list str * tv)) : bool := forallb (fun p => key_names_walk [] (fst p)) lp.
Definition key_leavesb (rfc : bool) (lp : list (list str * tv)) : bool := forallb (fun p => leaf_walk rfc [] (fst p) (snd p)) lp.
Definition siblingsb (lp : list (list str * tv)) : bool := pairwise (fun p q => sib (fst p) (fst q)) lp.

Definition inputs_okb (rfc : bool) (pvs : list pv) : bool :=
  forallb (fun x => normal_textb (pv_path x)) pvs &&
  (let lp := live_paths pvs in
   pfreeb lp && grammarb lp && schema_keysb lp && key_namesb lp && key_leavesb rfc lp && siblingsb lp).

(* ------------------------------------------------------------------ ordered pairs *)
Lemma pairwise_fop {A} (f : A -> A -> bool) l : pairwise f l = true -> ForallOrdPairs (fun x y => f x y = true) l.
Proof.
  induction l as [|x l IH]; intros H; [constructor|]. cbn [pairwise] in H. apply andb_true_iff in H. destruct H as [H1 H2].
  constructor; [apply Forall_forall; rewrite forallb_forall in H1; exact H1 | apply IH; exact H2].
Qed.

Lemma fop_map {A C} (R : C -> C -> Prop) (S : A -> A -> Prop) (f : A -> C) l :
  (forall x y, R (f x) (f y) -> S x y) -> ForallOrdPairs R (map f l) -> ForallOrdPairs S l.
Proof.
  intros HRS. induction l as [|x l IH]; intros H; [constructor|]. cbn [map] in H. inversion H as [|? ? F H']; subst.
  constructor; [|apply IH; exact H']. rewrite Forall_forall in *. intros y Hy. apply HRS. apply F. apply in_map. exact Hy.
Qed.

(* ------------------------------------------------------------------ tries *)
(* paths of one child satisfy sib among themselves without their common first element *)
Lemma children_fop cs : ForallOrdPairs sibP (dfs (TNode cs)) ->
  Forall (fun et => ForallOrdPairs sibP (dfs (snd et))) cs.
Proof.
  induction cs as [|[e c] cs IH]; intros F; constructor; rewrite dfs_cons in F; destruct (fop_app _ _ _ F) as [F1 [F2 _]].
  - apply (fop_map sibP sibP (pre1 e)); [|exact F1].
    intros x y. unfold sibP, pre1. cbn [fst sib]. rewrite eqb_str_refl. auto.
  - apply IH, F2.
Qed.

Lemma leaf_or_node_paths c q : In q (dfs c) ->
  match c with TLeaf _ => fst q = [] | TNode _ => fst q <> [] end.
Proof.
  destruct c as [v|cs]; intros H.
  - cbn in H. destruct H as [<-|[]]. reflexivity.
  - apply (dfs_node_paths_nonempty cs q H).
Qed.

Lemma nm_child_name e c q : In q (dfs c) -> nm e (fst q) = child_name (e, c).
Proof.
  intros H. pose proof (leaf_or_node_paths c q H) as L. unfold nm, child_name. cbn [fst snd].
  destruct c as [v|cs]; [rewrite L; reflexivity|]. destruct (fst q); [congruence | reflexivity].
Qed.

(* two children with different elements whose paths satisfy sib are compatible *)
Lemma sib_compat e1 c1 e2 c2 q1 q2 : e1 <> e2 -> In q1 (dfs c1) -> In q2 (dfs c2) ->
  sib (e1 :: fst q1) (e2 :: fst q2) = true -> compat (e1, c1) (e2, c2) = true.
Proof.
  intros NE H1 H2 S. cbn [sib] in S. apply eqb_str_neq in NE. rewrite NE in S.
  rewrite (nm_child_name e1 c1 q1 H1), (nm_child_name e2 c2 q2 H2) in S. unfold compat.
  destruct (eqb_str (child_name (e1, c1)) (child_name (e2, c2))); [|reflexivity].
  pose proof (leaf_or_node_paths c1 q1 H1) as L1. pose proof (leaf_or_node_paths c2 q2 H2) as L2. cbn [fst snd].
  destruct c1 as [v1|cs1]; [rewrite L1 in S; discriminate|].
  destruct (fst q1) as [|x1 r1]; [congruence|].
  destruct c2 as [v2|cs2]; [rewrite L2 in S; discriminate|].
  destruct (fst q2) as [|x2 r2]; [congruence|]. exact S.
Qed.

Lemma children_compat cs : Forall (fun et => good (snd et)) cs -> NoDup (map fst cs) ->
  ForallOrdPairs sibP (dfs (TNode cs)) -> pairwise compat cs = true.
Proof.
  induction cs as [|[e c] cs IH]; intros G ND F; [reflexivity|].
  inversion G as [|? ? Gc G']; subst. cbn [map fst] in ND. inversion ND as [|? ? Hn ND']; subst. cbn [snd] in Gc.
  rewrite dfs_cons in F. destruct (fop_app _ _ _ F) as [_ [F2 F3]].
  cbn [pairwise]. apply andb_true_iff. split; [|apply IH; assumption].
  apply forallb_forall. intros [e2 c2] H2.
  assert (G2 : good c2) by (rewrite Forall_forall in G'; apply (G' (e2, c2) H2)).
  destruct (good_dfs_in c Gc) as [q1 Hq1]. destruct (good_dfs_in c2 G2) as [q2 Hq2].
  apply (sib_compat e c e2 c2 q1 q2); [| exact Hq1 | exact Hq2 |].
  - intros ->. apply Hn. apply (in_map fst) in H2. exact H2.
  - apply (F3 (pre1 e q1) (pre1 e2 q2)); [apply in_map, Hq1 | apply dfs_node_in; exists e2, c2, q2; auto].
Qed.

(* ------------------------------------------------------------------ the trie is well formed when its paths are *)
Lemma walk_cons rfc ks sp K0 e rest v : rest <> [] ->
  walk rfc ks sp K0 (e :: rest) v =
  match classify e with
  | EPlain => negb (mem e (map fst K0)) && walk rfc ks (sp ++ [e]) [] rest v
  | EKeyed n K =>
    negb (mem n (map fst K0)) && negb (is_nil K) && nodupb (map fst K) &&
    list_eqb (map fst K) (ks (sp ++ [n])) && walk rfc ks (sp ++ [n]) K rest v
  | EBad => false
  end.
Proof. destruct rest; [congruence | reflexivity]. Qed.

Theorem wf_from_paths rfc ks t : good t -> forall cs, t = TNode cs -> forall sp K0,
  (forall p, In p (dfs t) -> walk rfc ks sp K0 (fst p) (snd p) = true) ->
  ForallOrdPairs sibP (dfs t) -> wf_trie rfc ks sp K0 t = true.
Proof.
  induction t as [v|cs0 IH] using trie_ind2; intros G cs E sp K0 W F; [discriminate|]. clear cs E.
  apply good_node in G. destruct G as [NE [ND GC]].
  cbn [wf_trie]. apply andb_true_iff. split; [apply andb_true_iff; split|].
  - destruct cs0; [congruence | reflexivity].
  - apply children_compat; assumption.
  - apply forallb_forall. intros [e c] Hin. cbn [fst snd].
    assert (Gc : good c) by (rewrite Forall_forall in GC; apply (GC (e, c) Hin)).
    assert (Wc : forall q, In q (dfs c) -> walk rfc ks sp K0 (e :: fst q) (snd q) = true).
    { intros q Hq. apply (W (pre1 e q)). apply dfs_node_in. exists e, c, q. auto. }
    destruct c as [v|cs2]; [exact (Wc ([], v) (or_introl eq_refl))|].
    pose proof (proj1 (Forall_forall _ _) (children_fop cs0 F) _ Hin) as Fc. cbn [snd] in Fc.
    assert (IHc : forall sp' K', (forall q, In q (dfs (TNode cs2)) -> walk rfc ks sp' K' (fst q) (snd q) = true) ->
                                 wf_trie rfc ks sp' K' (TNode cs2) = true).
    { intros sp' K' Wq. rewrite Forall_forall in IH. apply (IH (e, TNode cs2) Hin Gc cs2 eq_refl sp' K' Wq Fc). }
    (* every path below e passes e's checks and walks on; one path is enough for the checks *)
    pose proof (fun q (Hq : In q (dfs (TNode cs2))) =>
                  eq_trans (eq_sym (walk_cons rfc ks sp K0 e _ (snd q) (dfs_node_paths_nonempty cs2 q Hq))) (Wc q Hq)) as Wq.
    destruct (good_dfs_in _ Gc) as [q0 Hq0]. pose proof (Wq q0 Hq0) as W0.
    destruct (classify e) as [|n K|]; [| |discriminate]; apply andb_true_iff in W0; destruct W0 as [W0 _];
      unfold is_nil in W0; rewrite W0.
    all: apply IHc; intros q Hq; apply (andb_prop _ _ (Wq q Hq)).
Qed.

(* ------------------------------------------------------------------ re-splitting the rest of a normal path *)
Lemma join_ptext rest : rest <> [] -> c_slash :: join [c_slash] rest = ptext rest.
Proof.
  induction rest as [|x rest IH]; intros NE; [congruence|]. destruct rest as [|y rest].
  - cbn. rewrite app_nil_r. reflexivity.
  - rewrite ptext_cons. rewrite <- IH by discriminate. reflexivity.
Qed.

Lemma normalb_of_elems es : Forall elem_ok es -> normalb es = true.
Proof.
  induction es as [|e rest IH]; intros F; [reflexivity|]. inversion F as [|? ? Fe Fr]; subst.
  cbn [normalb]. rewrite (IH Fr), andb_true_r. apply andb_true_iff. split.
  - apply negb_true_iff. apply eqb_str_neq. unfold elem_ok, elem_okb in Fe. destruct e; [discriminate | discriminate].
  - destruct rest as [|y rest]; [reflexivity|]. unfold resplit. rewrite join_ptext by discriminate.
    rewrite split_ptext; [apply list_eqb_eq; reflexivity | discriminate | exact Fr].
Qed.

(* ------------------------------------------------------------------ wf_set from the inputs *)
Theorem wf_set_from_inputs rfc pvs : inputs_okb rfc pvs = true -> wf_set rfc pvs = true.
Proof.
  unfold inputs_okb. rewrite !andb_true_iff. intros [NT [[[[[PF GR] SK] KN] KL] SB]].
  rewrite forallb_forall in NT.
  destruct (sorted_live_paths pvs NT (pfreeb_ok _ PF)) as [cs [ND [GC [DF [TO PE]]]]].
  unfold wf_set. destruct (live_paths pvs) as [|p0 lp0] eqn:Elp; [reflexivity|]. rewrite <- Elp in *.
  assert (NEcs : cs <> []) by (intros ->; cbn in DF; rewrite Elp in DF; discriminate).
  assert (Gt : good (TNode cs)) by (apply good_node; auto).
  apply andb_true_iff. split; [apply andb_true_iff; split|].
  - apply forallb_forall. intros p Hp. apply normalb_of_elems.
    unfold live_paths in Hp. apply in_map_iff in Hp. destruct Hp as [x [<- Hx]].
    apply (normal_text_parts _ (NT x (prune_incl _ _ _ Hx))).
  - exact PE.
  - rewrite TO. apply (wf_from_paths rfc (schema_of (live_paths pvs)) (TNode cs) Gt cs eq_refl [] []).
    + rewrite DF. intros p Hp. unfold grammarb, schema_keysb, key_namesb, key_leavesb in *.
      rewrite forallb_forall in GR, SK, KN, KL. apply walk_split; auto.
    + rewrite DF. apply pairwise_fop in SB. exact SB.
Qed.

(* the two main theorems over the input-level hypotheses *)
Corollary build_render_from_inputs rfc pvs : inputs_okb rfc pvs = true ->
  build_tree rfc pvs = Ok (render rfc (trie_of (live_paths pvs))).
Proof. intros H. apply build_tree_render, wf_set_from_inputs, H. Qed.

Corollary flatten_build_from_inputs rfc pvs : inputs_okb rfc pvs = true ->
  exists t, build_tree rfc pvs = Ok t /\
            Permutation (flatten (schema_of (live_paths pvs)) [] t)
                        (explicit_leaves rfc (live_paths pvs) ++ key_leaves rfc (trie_of (live_paths pvs)) []).
Proof. intros H. apply flatten_build, wf_set_from_inputs, H. Qed.
