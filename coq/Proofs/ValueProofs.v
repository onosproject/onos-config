(* Proofs about Model/Value.v, part 1: integer encodings and the PROTO round trip of scalars *)
From Coq Require Import List NArith ZArith Bool Lia.
From OC Require Import Base.Bytes Model.Value.
Import ListNotations.
Open Scope Z_scope.

Definition int64_range (v : Z) : Prop := -9223372036854775808 <= v < 9223372036854775808.
Definition uint64_range (v : Z) : Prop := 0 <= v < 18446744073709551616.
Definition int64_rangeb (v : Z) : bool := (-9223372036854775808 <=? v) && (v <? 9223372036854775808).
Definition uint64_rangeb (v : Z) : bool := (0 <=? v) && (v <? 18446744073709551616).

Lemma rangeb_spec lo hi v : (lo <=? v) && (v <? hi) = true <-> lo <= v < hi.
Proof. rewrite andb_true_iff, Z.leb_le, Z.ltb_lt. tauto. Qed.

Lemma int64_rangeb_spec v : int64_rangeb v = true <-> int64_range v.
Proof. apply rangeb_spec. Qed.
Lemma uint64_rangeb_spec v : uint64_rangeb v = true <-> uint64_range v.
Proof. apply rangeb_spec. Qed.

(* ------------------------------------------------------------ wrap-around *)
Lemma wrap64_id z : int64_range z -> wrap64 z = z.
Proof. unfold int64_range, wrap64. intros H. rewrite Z.mod_small by lia. lia. Qed.

Lemma u64_id z : uint64_range z -> u64 z = z.
Proof. unfold uint64_range, u64. intros H. apply Z.mod_small. lia. Qed.

Lemma u8_id z : 0 <= z < 256 -> u8 z = z.
Proof. apply Z.mod_small. Qed.

Lemma wrap64_two63 : wrap64 9223372036854775808 = -9223372036854775808.
Proof. reflexivity. Qed.

(* ------------------------------------------------------------ big-endian magnitude *)
Lemma from_le_le_bytes fuel : forall n, (n < 256 ^ N.of_nat fuel)%N -> from_le (le_bytes fuel n) = n.
Proof.
  induction fuel as [|f IH]; intros n Hn.
  - cbn in Hn. assert (n = 0%N) by lia. subst. reflexivity.
  - cbn [le_bytes]. destruct (n =? 0)%N eqn:E.
    + apply N.eqb_eq in E. subst. reflexivity.
    + cbn [from_le]. rewrite IH.
      * pose proof (N.div_mod n 256). lia.
      * rewrite Nat2N.inj_succ, N.pow_succ_r' in Hn.
        apply N.div_lt_upper_bound; lia.
Qed.

Lemma from_be_be_bytes n : (n < 18446744073709551616)%N -> from_be (be_bytes n) = n.
Proof.
  intros H. unfold from_be, be_bytes. rewrite rev_involutive. apply from_le_le_bytes. exact H.
Qed.

Lemma from_be_abs v : int64_range v -> from_be (be_bytes (Z.abs_N v)) = Z.abs_N v.
Proof. unfold int64_range. intros H. apply from_be_be_bytes. lia. Qed.

Lemma from_be_to_N v : uint64_range v -> from_be (be_bytes (Z.to_N v)) = Z.to_N v.
Proof. unfold uint64_range. intros H. apply from_be_be_bytes. lia. Qed.

(* the sign option and the magnitude give the value back, including -2^63 *)
Lemma int64_of_mag_abs v : int64_range v -> int64_of_mag (Z.abs_N v) (v <? 0) = v.
Proof.
  intros H. unfold int64_of_mag. rewrite N2Z.inj_abs_N.
  destruct (v <? 0) eqn:E.
  - apply Z.ltb_lt in E. rewrite Z.abs_neq by lia.
    destruct (Z.eq_dec v (-9223372036854775808)) as [->|Hne]; [reflexivity|].
    unfold int64_range in H.
    rewrite (wrap64_id (- v)) by (unfold int64_range; lia).
    rewrite Z.opp_involutive. apply wrap64_id. exact H.
  - apply Z.ltb_ge in E. rewrite Z.abs_eq by lia. apply wrap64_id. exact H.
Qed.

Lemma neg_opt_eqb v : (neg_opt v =? 1) = (v <? 0).
Proof. unfold neg_opt. destruct (v <? 0); reflexivity. Qed.
Lemma neg_opt_nonzero v : negb (neg_opt v =? 0) = (v <? 0).
Proof. unfold neg_opt. destruct (v <? 0); reflexivity. Qed.

(* ------------------------------------------------------------ scalars *)
Lemma tv_int_new_int v w : int64_range v -> tv_int (new_int v w) = v.
Proof.
  intros H. unfold tv_int, new_int. cbn [tv_bytes tv_opts].
  rewrite from_be_abs, neg_opt_eqb by exact H. apply int64_of_mag_abs. exact H.
Qed.

Lemma uint64_of_mag_to_N v : uint64_range v -> uint64_of_mag (Z.to_N v) = v.
Proof. intros H. unfold uint64_of_mag. unfold uint64_range in H. rewrite Z2N.id by lia. apply u64_id. exact H. Qed.

Lemma tv_uint_new_uint v w : uint64_range v -> tv_uint (new_uint v w) = v.
Proof.
  intros H. unfold tv_uint, new_uint. cbn [tv_bytes]. rewrite from_be_to_N by exact H. apply uint64_of_mag_to_N. exact H.
Qed.

(* Decimal64() multiplies the unsigned reading by -1 where Int() negates it *)
Lemma int64_of_mag_mult m (neg : bool) : wrap64 (int64_of_mag m false * (if neg then -1 else 1)) = int64_of_mag m neg.
Proof.
  unfold int64_of_mag. destruct neg; [f_equal; lia|]. rewrite Z.mul_1_r. apply wrap64_id.
  unfold int64_range, wrap64. pose proof (Z.mod_pos_bound (Z.of_N m + 9223372036854775808) 18446744073709551616). lia.
Qed.

Lemma tv_decimal_new_decimal d p : int64_range d -> 0 <= p < 256 -> tv_decimal (new_decimal d p) = (d, p).
Proof.
  intros Hd Hp. unfold tv_decimal, new_decimal. cbn [tv_bytes tv_opts].
  rewrite from_be_abs, int64_of_mag_mult, neg_opt_eqb, int64_of_mag_abs, u8_id by assumption. reflexivity.
Qed.

Definition f32_range (b : N) : Prop := (b < 4294967296)%N.

Lemma take_be4_be4 b r : f32_range b -> take_be4 (be4 b ++ r) = Some (b, r).
Proof.
  unfold f32_range. intros H. unfold be4. cbn [app take_be4]. f_equal. f_equal.
  rewrite !N.shiftr_div_pow2.
  change (2 ^ 24)%N with (256 * (256 * 256))%N. change (2 ^ 16)%N with (256 * 256)%N. change (2 ^ 8)%N with 256%N.
  rewrite <- !N.div_div by lia.
  rewrite (N.mod_small (b / 256 / 256 / 256) 256) by (do 3 (apply N.div_lt_upper_bound; [lia|]); lia).
  pose proof (N.div_mod b 256). pose proof (N.div_mod (b / 256) 256). pose proof (N.div_mod (b / 256 / 256) 256).
  lia.
Qed.

Lemma f32_trip_not_nan b : f32_is_nan b = false -> f32_trip b = b.
Proof. unfold f32_trip. intros ->. reflexivity. Qed.

Lemma tv_float_new_float b : f32_range b -> f32_is_nan b = false -> tv_float (new_float b) = b.
Proof.
  intros Hr Hn. unfold tv_float, new_float. cbn [tv_bytes].
  rewrite (f32_trip_not_nan b Hn).
  rewrite <- (app_nil_r (be4 b)). rewrite take_be4_be4 by exact Hr. apply f32_trip_not_nan. exact Hn.
Qed.

(* --- the journey of the scalar kinds --- *)
Lemma rt_string fx s o : journey fx (GString s) o = Ok (GString s).
Proof. reflexivity. Qed.
Lemma rt_ascii fx s o : journey fx (GAscii s) o = Ok (GString s).
Proof. reflexivity. Qed.

Lemma rt_int fx v o : int64_range v -> journey fx (GInt v) o = Ok (GInt v).
Proof.
  intros H. unfold journey, to_native. rewrite (wrap64_id v H). cbn [bind].
  unfold to_gnmi. cbn [tv_type new_int]. rewrite tv_int_new_int by exact H. reflexivity.
Qed.

Lemma rt_uint fx v o : uint64_range v -> journey fx (GUint v) o = Ok (GUint v).
Proof.
  intros H. unfold journey, to_native. rewrite (u64_id v H). cbn [bind].
  unfold to_gnmi. cbn [tv_type new_uint]. rewrite tv_uint_new_uint by exact H. reflexivity.
Qed.

Lemma rt_bool fx b o : journey fx (GBool b) o = Ok (GBool b).
Proof. destruct b; reflexivity. Qed.

Lemma rt_bytes fx b o : journey fx (GBytes b) o = Ok (GBytes b).
Proof. reflexivity. Qed.

Lemma to_native_decimal fx d p o :
  int64_range d -> 0 <= p < 256 -> prec_ok fx p = true -> to_native fx (GDecimal d p) o = Ok (new_decimal d p).
Proof. intros Hd Hp Hok. unfold to_native. rewrite Hok, (wrap64_id d Hd), u8_id by exact Hp. reflexivity. Qed.

Lemma rt_decimal fx d p o :
  int64_range d -> 0 <= p < 256 -> prec_ok fx p = true -> journey fx (GDecimal d p) o = Ok (GDecimal d p).
Proof.
  intros Hd Hp Hok. unfold journey. rewrite to_native_decimal by assumption. cbn [bind].
  unfold to_gnmi. cbn [tv_type new_decimal]. rewrite tv_decimal_new_decimal by assumption. reflexivity.
Qed.

Lemma rt_float fx b o : f32_range b -> f32_is_nan b = false -> journey fx (GFloat b) o = Ok (GFloat b).
Proof.
  intros Hr Hn. unfold journey, to_native. rewrite Hn. cbn [bind].
  unfold to_gnmi. cbn [tv_type new_float]. rewrite tv_float_new_float by assumption. reflexivity.
Qed.

(* a NaN is refused, not altered *)
Lemma nan_refused fx b o : f32_is_nan b = true -> to_native fx (GFloat b) o = Err.
Proof. intros H. unfold to_native. rewrite H. reflexivity. Qed.

(* refutation: the unrepaired conversion keeps only 8 bits of a decimal precision *)
Lemma decimal_precision_refuted :
  exists d p o, int64_range d /\ journey false (GDecimal d p) o <> Ok (GDecimal d p).
Proof. exists 5, 256, None. split; [unfold int64_range; lia | vm_compute; discriminate]. Qed.

(* the repaired conversion refuses what it cannot keep *)
Lemma decimal_precision_refused d p o : 18 < p -> to_native true (GDecimal d p) o = Err.
Proof.
  intros H. unfold to_native, prec_ok. cbn [negb orb].
  destruct (p <=? 18) eqn:E; [apply Z.leb_le in E; lia | reflexivity].
Qed.
