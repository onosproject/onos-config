(* Proofs about Model/Value.v, part 3: decimal text reads back, JSON type and digits per kind and width *)
From Coq Require Import List NArith ZArith Bool Lia.
From OC Require Import Base.Bytes Model.Value Proofs.ValueProofs Proofs.ValueProofsLL.
Import ListNotations.
Open Scope N_scope.

(* ------------------------------------------------------------ digits *)
Fixpoint from_le10 (l : list N) : N :=
  match l with [] => 0 | d :: r => d + 10 * from_le10 r end.

Definition digit_char (d : N) : N := 48 + d.

Lemma is_digit_char d : d < 10 -> is_digit (digit_char d) = true.
Proof. unfold is_digit, digit_char. intros H. apply andb_true_iff. split; apply N.leb_le; lia. Qed.

Lemma read_acc_app a b acc :
  read_N_acc (a ++ b) acc = match read_N_acc a acc with Some x => read_N_acc b x | None => None end.
Proof.
  revert acc. induction a as [|c a IH]; intros acc; [reflexivity|].
  cbn [app read_N_acc]. destruct (is_digit c); [apply IH | reflexivity].
Qed.

Lemma read_acc_digits ds : forall acc,
  Forall (fun d => d < 10) ds ->
  read_N_acc (map digit_char (rev ds)) acc = Some (acc * 10 ^ N.of_nat (length ds) + from_le10 ds).
Proof.
  induction ds as [|d ds IH]; intros acc H.
  - cbn. f_equal. lia.
  - inversion H as [|? ? Hd Hds]; subst.
    cbn [rev]. rewrite map_app, read_acc_app, IH by exact Hds.
    cbn [map read_N_acc]. rewrite is_digit_char by exact Hd. f_equal.
    cbn [length from_le10]. rewrite Nat2N.inj_succ, N.pow_succ_r'. unfold digit_char. lia.
Qed.

(* the text of a little-endian digit list *)
Lemma digit_chars_ok ds : Forall (fun d => d < 10) ds -> Forall (fun c => is_digit c = true) (map digit_char (rev ds)).
Proof. intro H. apply <- Forall_map. apply Forall_rev. revert H. apply Forall_impl. exact is_digit_char. Qed.

Lemma read_digits ds : ds <> [] -> Forall (fun d => d < 10) ds -> read_N (map digit_char (rev ds)) = Some (from_le10 ds).
Proof.
  intros Hne H. unfold read_N. destruct (map digit_char (rev ds)) eqn:Em.
  - apply map_eq_nil in Em. apply (f_equal (@rev N)) in Em. rewrite rev_involutive in Em. contradiction.
  - rewrite <- Em, read_acc_digits by exact H. reflexivity.
Qed.

Lemma le_digits_spec fuel : forall n, n < 10 ^ N.of_nat fuel ->
  from_le10 (le_digits fuel n) = n /\ Forall (fun d => d < 10) (le_digits fuel n).
Proof.
  induction fuel as [|f IH]; intros n Hn.
  - cbn in Hn. assert (n = 0) by lia. subst. split; [reflexivity | constructor].
  - cbn [le_digits]. destruct (n =? 0) eqn:E.
    + apply N.eqb_eq in E. subst. split; [reflexivity | constructor].
    + rewrite Nat2N.inj_succ, N.pow_succ_r' in Hn.
      destruct (IH (n / 10)) as [H1 H2]; [apply N.div_lt_upper_bound; lia|].
      split.
      * cbn [from_le10]. rewrite H1. pose proof (N.div_mod n 10). lia.
      * constructor; [apply N.mod_lt; lia | exact H2].
Qed.

Lemma le_digits_nonempty fuel n : n <> 0 -> (0 < fuel)%nat -> le_digits fuel n <> [].
Proof.
  intros Hn Hf. destruct fuel; [lia|]. cbn [le_digits].
  destruct (n =? 0) eqn:E; [apply N.eqb_eq in E; contradiction | discriminate].
Qed.

Definition ten20 : N := 100000000000000000000.

Lemma show_N_digits n : n < ten20 -> Forall (fun c => is_digit c = true) (show_N n).
Proof.
  intros Hn. unfold show_N. destruct (n =? 0); [repeat constructor|].
  apply digit_chars_ok, (le_digits_spec 20 n Hn).
Qed.

Lemma read_show_N n : n < ten20 -> read_N (show_N n) = Some n.
Proof.
  intros Hn. unfold show_N. destruct (n =? 0) eqn:E.
  - apply N.eqb_eq in E. subst. reflexivity.
  - apply N.eqb_neq in E. destruct (le_digits_spec 20 n Hn) as [H1 H2]. fold digit_char.
    rewrite read_digits, H1; [reflexivity | apply le_digits_nonempty; [exact E | lia] | exact H2].
Qed.

(* the text of a number begins with a digit, not with the minus sign *)
Lemma show_N_head n : n < ten20 -> exists c r, show_N n = c :: r /\ (c =? 45) = false.
Proof.
  intros Hn. pose proof (show_N_digits n Hn) as H. destruct (show_N n) as [|c r] eqn:E.
  - pose proof (read_show_N n Hn) as R. rewrite E in R. discriminate.
  - exists c, r. split; [reflexivity|]. inversion H as [|? ? Hc _]; subst.
    unfold is_digit in Hc. apply andb_true_iff in Hc. destruct Hc as [Hc _]. apply N.leb_le in Hc.
    apply N.eqb_neq. lia.
Qed.

Lemma read_show_Z z : (Z.abs z < Z.of_N ten20)%Z -> read_Z (show_Z z) = Some z.
Proof.
  intros Hz. unfold show_Z. destruct (z <? 0)%Z eqn:E.
  - apply Z.ltb_lt in E. cbn [read_Z]. rewrite N.eqb_refl.
    rewrite read_show_N by (unfold ten20 in *; lia). cbn [option_map]. f_equal. lia.
  - apply Z.ltb_ge in E.
    assert (Hb : Z.to_N z < ten20) by (unfold ten20 in *; lia).
    destruct (show_N_head _ Hb) as (c & r & Es & Hc). rewrite Es. cbn [read_Z].
    rewrite Hc, <- Es, read_show_N by exact Hb. cbn [option_map]. f_equal. lia.
Qed.

Lemma int64_abs_bound v : int64_range v -> (Z.abs v < Z.of_N ten20)%Z.
Proof. unfold int64_range, ten20. lia. Qed.
Lemma uint64_abs_bound v : uint64_range v -> (Z.abs v < Z.of_N ten20)%Z.
Proof. unfold uint64_range, ten20. lia. Qed.

(* ------------------------------------------------------------ fixed-width fraction digits *)
Lemma le_fixed_spec p : forall n,
  from_le10 (le_fixed p n) = n mod 10 ^ N.of_nat p /\ Forall (fun d => d < 10) (le_fixed p n) /\ length (le_fixed p n) = p.
Proof.
  induction p as [|p IH]; intros n.
  - cbn. repeat split; [rewrite N.mod_1_r; reflexivity | constructor].
  - cbn [le_fixed from_le10 length]. destruct (IH (n / 10)) as [H1 [H2 H3]].
    repeat split.
    + rewrite H1. rewrite Nat2N.inj_succ, N.pow_succ_r'.
      rewrite N.mod_mul_r by (try apply N.pow_nonzero; lia). lia.
    + constructor; [apply N.mod_lt; lia | exact H2].
    + rewrite H3. reflexivity.
Qed.

Lemma fixed_digits_length p n : length (fixed_digits p n) = p.
Proof. unfold fixed_digits. rewrite map_length, rev_length. apply (le_fixed_spec p n). Qed.

Lemma fixed_digits_all p n : Forall (fun c => is_digit c = true) (fixed_digits p n).
Proof. apply digit_chars_ok, le_fixed_spec. Qed.

Lemma read_fixed_digits p n : (0 < p)%nat -> read_N (fixed_digits p n) = Some (n mod 10 ^ N.of_nat p).
Proof.
  intros Hp. destruct (le_fixed_spec p n) as [H1 [H2 H3]]. unfold fixed_digits. fold digit_char.
  rewrite read_digits, H1; [reflexivity | | exact H2]. intro E. rewrite E in H3. cbn in H3. lia.
Qed.

Lemma digits_no_char (s : str) c : Forall (fun x => is_digit x = true) s -> is_digit c = false -> ~ In c s.
Proof. intros H Hc Hin. rewrite Forall_forall in H. rewrite (H c Hin) in Hc. discriminate. Qed.

(* ------------------------------------------------------------ the repaired decimal text reads back *)
Lemma read_decimal_fixed d p :
  int64_range d -> (1 <= p)%Z ->
  read_decimal (str_decimal64_fixed d p) = Some (d, p).
Proof.
  intros Hd Hp. unfold str_decimal64_fixed.
  assert (E0 : (p =? 0)%Z = false) by (apply Z.eqb_neq; lia). rewrite E0.
  set (mag := Z.abs_N d). set (q := mag / 10 ^ Z.to_N p). set (pn := Z.to_nat p).
  assert (Hmag : mag < ten20) by (unfold mag, ten20; unfold int64_range in Hd; lia).
  assert (Hq : q < ten20)
    by (unfold q; apply N.div_lt_upper_bound; [apply N.pow_nonzero; lia | pose proof (N.pow_nonzero 10 (Z.to_N p)); nia]).
  assert (Hpn : (0 < pn)%nat) by (unfold pn; lia).
  assert (Hbody : split_on 46 (show_N q ++ [46] ++ fixed_digits pn mag) = [show_N q; fixed_digits pn mag]).
  { cbn [app]. rewrite split_on_app_nosep by (apply digits_no_char; [apply show_N_digits; exact Hq | reflexivity]).
    rewrite split_on_nosep by (apply digits_no_char; [apply fixed_digits_all | reflexivity]). reflexivity. }
  assert (Hval : q * 10 ^ N.of_nat pn + mag mod 10 ^ N.of_nat pn = mag).
  { unfold q, pn. rewrite Z_nat_N. pose proof (N.div_mod mag (10 ^ Z.to_N p)) as D.
    pose proof (N.pow_nonzero 10 (Z.to_N p)). lia. }
  destruct (show_N_head q Hq) as (c & r & Es & Hc). rewrite Es in Hbody |- *.
  (* with the sign or without, the reader is left with the same two fields *)
  unfold read_decimal. destruct (Z.ltb_spec d 0) as [En|En]; cbn [app]; [change (45 =? 45) with true | rewrite Hc];
    cbv iota; change (c :: r ++ 46 :: fixed_digits pn mag) with ((c :: r) ++ [46] ++ fixed_digits pn mag);
    rewrite Hbody, <- Es, read_show_N, read_fixed_digits, fixed_digits_length, Hval by assumption;
    unfold zlen; rewrite fixed_digits_length; f_equal; f_equal; lia.
Qed.

Open Scope Z_scope.

(* ------------------------------------------------------------ JSON leaf per kind and width *)
Definition std_width (w : Z) : Prop := w = 8 \/ w = 16 \/ w = 32 \/ w = 64.

Lemma std_width_facts w : std_width w ->
  wrap64 w = w /\ u8 w = w /\ (0 <? w) = true /\ wide true (wrap32 w) = (w =? 64).
Proof. intros [->|[->|[->| ->]]]; repeat split; reflexivity. Qed.

Lemma json_int fx v w : int64_range v -> std_width w ->
  exists t, to_native fx (GInt v) (Some [w]) = Ok t /\
            json_leaf fx true t = Ok (Some (if w =? 64 then JStr (show_Z v) else JNum (show_Z v))) /\
            read_Z (show_Z v) = Some v.
Proof.
  intros Hv Hw. destruct (std_width_facts w Hw) as (E64 & _ & _ & Ewide). exists (new_int v w). split; [|split].
  - unfold to_native. cbn [opt0]. rewrite (wrap64_id v Hv), E64. reflexivity.
  - unfold json_leaf. cbn [tv_type new_int tv_opts]. rewrite tv_int_new_int, Ewide by exact Hv. reflexivity.
  - apply read_show_Z, int64_abs_bound, Hv.
Qed.

Lemma json_uint fx v w : uint64_range v -> std_width w ->
  exists t, to_native fx (GUint v) (Some [w]) = Ok t /\
            json_leaf fx true t = Ok (Some (if w =? 64 then JStr (show_Z v) else JNum (show_Z v))) /\
            read_Z (show_Z v) = Some v.
Proof.
  intros Hv Hw. destruct (std_width_facts w Hw) as (E64 & _ & _ & Ewide). exists (new_uint v w). split; [|split].
  - unfold to_native. cbn [opt0]. rewrite (u64_id v Hv), E64. reflexivity.
  - unfold json_leaf. cbn [tv_type new_uint tv_opts]. rewrite tv_uint_new_uint, Ewide by exact Hv. reflexivity.
  - apply read_show_Z, uint64_abs_bound, Hv.
Qed.

Lemma json_ll_int fx l w : l <> [] -> Forall int64_range l -> std_width w ->
  exists t, to_native fx (GLeafList (map GInt l)) (Some [w]) = Ok t /\
            json_leaf fx true t = Ok (Some (JArr (map (fun v => if w =? 64 then JStr (show_Z v) else JNum (show_Z v)) l))) /\
            Forall (fun v => read_Z (show_Z v) = Some v) l.
Proof.
  intros Hne Hl Hw. destruct (std_width_facts w Hw) as (_ & E8 & Epos & Ewide). exists (new_ll_int l w). split; [|split].
  - unfold to_native. cbn [opt0]. rewrite E8, hll_int by exact Hne. unfold ll_width. rewrite Epos. reflexivity.
  - unfold json_leaf. rewrite ll_int_list_new by exact Hl. cbn [tv_type new_ll_int bind fst snd]. rewrite Ewide. reflexivity.
  - revert Hl. apply Forall_impl. intros v Hv. apply read_show_Z, int64_abs_bound, Hv.
Qed.

Lemma json_ll_uint fx l w : l <> [] -> Forall uint64_range l -> std_width w ->
  exists t, to_native fx (GLeafList (map GUint l)) (Some [w]) = Ok t /\
            json_leaf fx true t = Ok (Some (JArr (map (fun v => if w =? 64 then JStr (show_Z v) else JNum (show_Z v)) l))) /\
            Forall (fun v => read_Z (show_Z v) = Some v) l.
Proof.
  intros Hne Hl Hw. destruct (std_width_facts w Hw) as (_ & E8 & Epos & Ewide). exists (new_ll_uint l w). split; [|split].
  - unfold to_native. cbn [opt0]. rewrite E8, hll_uint by exact Hne. unfold ll_width. rewrite Epos. reflexivity.
  - unfold json_leaf. rewrite ll_uint_list_new by exact Hl. cbn [tv_type new_ll_uint bind fst snd]. rewrite Ewide. reflexivity.
  - revert Hl. apply Forall_impl. intros v Hv. apply read_show_Z, uint64_abs_bound, Hv.
Qed.

(* strings, booleans, bytes: the JSON string / boolean / base64 string of the value itself *)
Lemma json_string fx rfc s o : exists t, to_native fx (GString s) o = Ok t /\ json_leaf fx rfc t = Ok (Some (JStr s)).
Proof. exists (new_string s). split; reflexivity. Qed.
Lemma json_bool fx rfc b o : exists t, to_native fx (GBool b) o = Ok t /\ json_leaf fx rfc t = Ok (Some (JBool b)).
Proof. exists (new_bool b). split; [reflexivity | destruct b; reflexivity]. Qed.
(* repaired code: always the base64 string; unrepaired: null for the empty value *)
Lemma json_bytes_fixed rfc b o : exists t, to_native true (GBytes b) o = Ok t /\ json_leaf true rfc t = Ok (Some (JB64 b)).
Proof. exists (new_bytes b). split; reflexivity. Qed.
Lemma json_bytes_partial rfc b o : b <> [] ->
  exists t, to_native false (GBytes b) o = Ok t /\ json_leaf false rfc t = Ok (Some (JB64 b)).
Proof. intros H. exists (new_bytes b). split; [reflexivity|]. destruct b; [contradiction | reflexivity]. Qed.
Lemma json_bytes_refuted : exists b o t, to_native false (GBytes b) o = Ok t /\ json_leaf false true t = Ok (Some JNull).
Proof. exists [], None, (new_bytes []). split; reflexivity. Qed.

(* decimal64: repaired code writes a string that reads back as the same digits and precision *)
Lemma json_decimal_fixed d p o : int64_range d -> 1 <= p <= 18 ->
  exists t, to_native true (GDecimal d p) o = Ok t /\
            json_leaf true true t = Ok (Some (JStr (str_decimal64_fixed d p))) /\
            read_decimal (str_decimal64_fixed d p) = Some (d, p).
Proof.
  intros Hd Hp. exists (new_decimal d p). split; [|split].
  - apply to_native_decimal; [exact Hd | lia | apply Z.leb_le; lia].
  - unfold json_leaf. cbn [tv_type new_decimal]. rewrite tv_decimal_new_decimal by (assumption || lia). reflexivity.
  - apply read_decimal_fixed; [exact Hd | lia].
Qed.

Lemma json_ll_decimal_fixed l p o : l <> [] -> Forall int64_range l -> 1 <= p <= 18 ->
  exists t, to_native true (GLeafList (map (fun d => GDecimal d p) l)) o = Ok t /\
            json_leaf true true t = Ok (Some (JArr (map (fun d => JStr (str_decimal64_fixed d p)) l))) /\
            Forall (fun d => read_decimal (str_decimal64_fixed d p) = Some (d, p)) l.
Proof.
  intros Hne Hl Hp. exists (new_ll_decimal l p). split; [|split].
  - unfold to_native. rewrite hll_decimal, u8_id; [reflexivity | lia | exact Hne | apply Z.leb_le; lia].
  - unfold json_leaf. rewrite ll_decimal_list_new by exact Hl. cbn [tv_type new_ll_decimal bind fst snd andb].
    rewrite u8_id by lia. reflexivity.
  - revert Hl. apply Forall_impl. intros d Hd. apply read_decimal_fixed; [exact Hd | lia].
Qed.

(* refutations on the unrepaired code *)
Lemma json_decimal_sign_refuted :
  exists d p s, int64_range d /\ 1 <= p <= 18 /\
    json_leaf false true (new_decimal d p) = Ok (Some (JStr s)) /\ read_decimal s <> Some (d, p).
Proof.
  exists (-5), 1, (B "0.5"). split; [unfold int64_range; lia|]. split; [lia|]. split; [reflexivity|].
  vm_compute. discriminate.
Qed.

Lemma json_ll_decimal_refuted :
  json_leaf false true (new_ll_decimal [15] 1) = Ok (Some (JArr [JDivFloat 15 1])).
Proof. reflexivity. Qed.

Lemma json_decimal_panic_refuted : json_leaf false true (new_decimal 5 64) = Panic.
Proof. vm_compute. reflexivity. Qed.

Lemma strval_decimal_refuted :
  str_decimal64_utils false (-5) 1 = Ok (B "0.5") /\ str_decimal64_utils false 105 2 = Ok (B "1.5").
Proof. split; vm_compute; reflexivity. Qed.

Lemma strval_decimal_fixed d p : int64_range d -> 1 <= p ->
  exists s, str_decimal64_utils true d p = Ok s /\ read_decimal s = Some (d, p).
Proof.
  intros Hd Hp. exists (str_decimal64_fixed d p). split.
  - unfold str_decimal64_utils. assert (E : (p =? 0) = false) by (apply Z.eqb_neq; lia). rewrite E. reflexivity.
  - apply read_decimal_fixed; assumption.
Qed.

(* float32: RFC 7951 rendering is the "%f" text (six fraction digits) - the digits are outside the model *)
Lemma json_float fx b : json_leaf fx true (new_float b) = Ok (Some (JFloatF (tv_float (new_float b)))).
Proof. reflexivity. Qed.

(* ------------------------------------------------------------ the hypotheses are satisfiable (non-trivial inputs) *)
Example ex_int64_extremes : int64_rangeb (-9223372036854775808) = true /\ int64_rangeb 9223372036854775807 = true.
Proof. split; reflexivity. Qed.
Example ex_uint64_extreme : uint64_rangeb 18446744073709551615 = true.
Proof. reflexivity. Qed.
Example ex_journey_int64_min : journey false (GInt (-9223372036854775808)) (Some [64]) = Ok (GInt (-9223372036854775808)).
Proof. vm_compute. reflexivity. Qed.
Example ex_journey_ll_bytes_leading_empty :
  journey false (GLeafList [GBytes []; GBytes [1; 2]%N; GBytes [3]%N]) None = Ok (GLeafList [GBytes []; GBytes [1; 2]%N; GBytes [3]%N]).
Proof. vm_compute. reflexivity. Qed.
Example ex_json_int64_string :
  json_leaf false true (new_int 9223372036854775807 64) = Ok (Some (JStr (B "9223372036854775807"))).
Proof. vm_compute. reflexivity. Qed.
Example ex_json_int32_number : json_leaf false true (new_int (-2147483648) 32) = Ok (Some (JNum (B "-2147483648"))).
Proof. vm_compute. reflexivity. Qed.
Example ex_decimal_fixed_text : str_decimal64_fixed (-5) 1 = B "-0.5" /\ str_decimal64_fixed 105 2 = B "1.05".
Proof. split; vm_compute; reflexivity. Qed.
