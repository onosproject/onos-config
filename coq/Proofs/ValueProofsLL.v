(* Proofs about Model/Value.v, part 2: the PROTO round trip of homogeneous leaf-lists *)
From Coq Require Import List NArith ZArith Bool Lia.
From OC Require Import Base.Bytes Model.Value Proofs.ValueProofs.
Import ListNotations.
Open Scope Z_scope.

(* ------------------------------------------------------------ slices *)
Lemma take_slice_app (a r : list N) : take_slice (zlen a) (a ++ r) = Ok (a, r).
Proof.
  unfold take_slice, zlen.
  assert (H1 : (Z.of_nat (length a) <? 0) = false) by (apply Z.ltb_ge; lia).
  assert (H2 : (Z.of_nat (length (a ++ r)) <? Z.of_nat (length a)) = false)
    by (apply Z.ltb_ge; rewrite app_length; lia).
  rewrite H1, H2. cbn [orb]. rewrite Nat2Z.id.
  rewrite firstn_app, Nat.sub_diag, firstn_all, firstn_O, app_nil_r.
  rewrite skipn_app, Nat.sub_diag, skipn_all. reflexivity.
Qed.

(* ------------------------------------------------------------ what handleLeafList collects *)
Lemma forallb_map_all {A B} (q : B -> bool) (c : A -> B) l : (forall x, q (c x) = true) -> forallb q (map c l) = true.
Proof. intros H. induction l as [|x l IH]; cbn; [reflexivity|]. rewrite H, IH. reflexivity. Qed.

(* of a list built with one constructor a collector of handleLeafList returns no element or every one *)
Lemma flat_map_map_none {A B C} (sel : B -> list C) (c : A -> B) l : (forall x, sel (c x) = []) -> flat_map sel (map c l) = [].
Proof. intros H. induction l as [|x l IH]; cbn; [reflexivity|]. rewrite H. exact IH. Qed.
Lemma flat_map_map_each {A B} (sel : B -> list A) (c : A -> B) l : (forall x, sel (c x) = [x]) -> flat_map sel (map c l) = l.
Proof. intros H. induction l as [|x l IH]; cbn; [reflexivity|]. rewrite H, IH. reflexivity. Qed.

(* the collectors are tried in the order of the cascade: those before the constructor's own find nothing *)
Ltac collect :=
  unfold ll_strings, ll_ints, ll_uints, ll_bools, ll_bytess, ll_digits, ll_floats;
  rewrite ?flat_map_map_none by reflexivity; rewrite flat_map_map_each by reflexivity.

Lemma precision_of_decimals p l t0 :
  l <> [] -> ll_precision (map (fun d => GDecimal d p) l) t0 = u8 p.
Proof.
  unfold ll_precision. intros Hne. destruct l as [|x l]; [contradiction|]. cbn [map fold_left].
  clear Hne x t0.
  induction l as [|y l IH]; cbn [map fold_left]; [reflexivity | exact IH].
Qed.

Lemma isnil_false {A} (l : list A) : l <> [] -> isnil l = false.
Proof. destruct l; [contradiction | reflexivity]. Qed.

(* ------------------------------------------------------------ int / decimal leaf-lists *)
Lemma signed_loop_rt l : Forall int64_range l ->
  ll_signed_loop (flat_map (fun v => [zlen (be_bytes (Z.abs_N v)); neg_opt v]) l)
                 (concat (map (fun v => be_bytes (Z.abs_N v)) l)) = Ok l.
Proof.
  induction l as [|v l IH]; intros H; [reflexivity|].
  inversion H as [|? ? Hv Hl]; subst.
  cbn [flat_map map concat app ll_signed_loop].
  rewrite take_slice_app. cbn [bind fst snd].
  rewrite IH by exact Hl. cbn [bind].
  rewrite from_be_abs, neg_opt_nonzero, int64_of_mag_abs by exact Hv. reflexivity.
Qed.

Lemma ll_int_list_new l w : Forall int64_range l -> ll_int_list (new_ll_int l w) = Ok (l, wrap32 w).
Proof. intros H. unfold ll_int_list, new_ll_int. cbn [tv_opts tv_bytes]. rewrite signed_loop_rt by exact H. reflexivity. Qed.

Lemma ll_decimal_list_new l p : Forall int64_range l -> ll_decimal_list (new_ll_decimal l p) = Ok (l, u8 p).
Proof. intros H. unfold ll_decimal_list, new_ll_decimal. cbn [tv_opts tv_bytes]. rewrite signed_loop_rt by exact H. reflexivity. Qed.

Definition ll_width (t0 : Z) : Z := if 0 <? t0 then t0 else 32.

Lemma hll_int fx l t0 : l <> [] -> handle_leaf_list fx (map GInt l) t0 = Ok (new_ll_int l (ll_width t0)).
Proof.
  intros Hne. unfold handle_leaf_list, ll_prec_ok. rewrite !forallb_map_all by reflexivity.
  collect. cbn [negb isnil]. rewrite (isnil_false l Hne). reflexivity.
Qed.

Lemma rt_ll_int fx l o :
  l <> [] -> Forall int64_range l -> journey fx (GLeafList (map GInt l)) o = Ok (GLeafList (map GInt l)).
Proof.
  intros Hne H. unfold journey, to_native. rewrite hll_int by exact Hne. cbn [bind].
  unfold to_gnmi. rewrite ll_int_list_new by exact H. reflexivity.
Qed.

Lemma hll_decimal fx p l t0 :
  l <> [] -> prec_ok fx p = true ->
  handle_leaf_list fx (map (fun d => GDecimal d p) l) t0 = Ok (new_ll_decimal l (u8 p)).
Proof.
  intros Hne Hp. unfold handle_leaf_list, ll_prec_ok. rewrite !forallb_map_all by (intro; first [exact Hp | reflexivity]).
  collect.
  cbn [negb isnil]. rewrite (isnil_false l Hne). cbn [negb].
  rewrite precision_of_decimals by exact Hne. reflexivity.
Qed.

Lemma rt_ll_decimal fx p l o :
  l <> [] -> Forall int64_range l -> 0 <= p < 256 -> prec_ok fx p = true ->
  journey fx (GLeafList (map (fun d => GDecimal d p) l)) o = Ok (GLeafList (map (fun d => GDecimal d p) l)).
Proof.
  intros Hne H Hp Hok. unfold journey, to_native. rewrite hll_decimal by assumption. cbn [bind].
  unfold to_gnmi. rewrite ll_decimal_list_new, !u8_id by assumption. reflexivity.
Qed.

(* ------------------------------------------------------------ uint leaf-lists *)
Lemma unsigned_loop_rt l :
  Forall uint64_range l ->
  ll_unsigned_loop (map (fun v => zlen (be_bytes (Z.to_N v))) l) (concat (map (fun v => be_bytes (Z.to_N v)) l)) = Ok l.
Proof.
  induction l as [|v l IH]; intros H; [reflexivity|].
  inversion H as [|? ? Hv Hl]; subst.
  cbn [map concat ll_unsigned_loop].
  rewrite take_slice_app. cbn [bind fst snd].
  rewrite IH by exact Hl. cbn [bind].
  rewrite from_be_to_N, uint64_of_mag_to_N by exact Hv. reflexivity.
Qed.

Lemma ll_uint_list_new l w : Forall uint64_range l -> ll_uint_list (new_ll_uint l w) = Ok (l, wrap32 w).
Proof. intros H. unfold ll_uint_list, new_ll_uint. cbn [tv_opts tv_bytes]. rewrite unsigned_loop_rt by exact H. reflexivity. Qed.

Lemma hll_uint fx l t0 : l <> [] -> handle_leaf_list fx (map GUint l) t0 = Ok (new_ll_uint l (ll_width t0)).
Proof.
  intros Hne. unfold handle_leaf_list, ll_prec_ok. rewrite !forallb_map_all by reflexivity.
  collect. cbn [negb isnil]. rewrite (isnil_false l Hne). reflexivity.
Qed.

Lemma rt_ll_uint fx l o :
  l <> [] -> Forall uint64_range l -> journey fx (GLeafList (map GUint l)) o = Ok (GLeafList (map GUint l)).
Proof.
  intros Hne H. unfold journey, to_native. rewrite hll_uint by exact Hne. cbn [bind].
  unfold to_gnmi. rewrite ll_uint_list_new by exact H. reflexivity.
Qed.

(* ------------------------------------------------------------ bool leaf-lists *)
Lemma hll_bool fx l t0 : l <> [] -> handle_leaf_list fx (map GBool l) t0 = Ok (new_ll_bool l).
Proof.
  intros Hne. unfold handle_leaf_list, ll_prec_ok. rewrite !forallb_map_all by reflexivity.
  collect. cbn [negb isnil]. rewrite (isnil_false l Hne). reflexivity.
Qed.

Lemma bool_bytes_rt (l : list bool) :
  map (fun b => (b =? 1)%N) (map (fun b : bool => if b then 1%N else 0%N) l) = l.
Proof. induction l as [|b l IH]; [reflexivity|]. cbn [map]. rewrite IH. destruct b; reflexivity. Qed.

Lemma rt_ll_bool fx l o : l <> [] -> journey fx (GLeafList (map GBool l)) o = Ok (GLeafList (map GBool l)).
Proof.
  intros Hne. unfold journey, to_native. rewrite hll_bool by exact Hne. cbn [bind].
  unfold to_gnmi, ll_bool_list, new_ll_bool. cbn [tv_type tv_bytes]. rewrite bool_bytes_rt. reflexivity.
Qed.

(* ------------------------------------------------------------ float leaf-lists *)
Lemma float_loop_rt l : forall fuel r,
  Forall (fun b => f32_range b /\ f32_is_nan b = false) l -> (length l <= fuel)%nat -> take_be4 r = None ->
  ll_float_loop fuel (concat (map (fun b => be4 (f32_trip b)) l) ++ r) = l.
Proof.
  induction l as [|b l IH]; intros fuel r H Hf Hr.
  - cbn [map concat app]. destruct fuel; [reflexivity|]. cbn [ll_float_loop]. rewrite Hr. reflexivity.
  - inversion H as [|? ? [Hb Hn] Hl]; subst.
    destruct fuel as [|fuel]; [cbn in Hf; lia|].
    cbn [map concat ll_float_loop]. rewrite (f32_trip_not_nan b Hn). rewrite <- app_assoc.
    rewrite take_be4_be4 by exact Hb. rewrite (f32_trip_not_nan b Hn).
    f_equal. apply IH; [exact Hl | cbn in Hf; lia | exact Hr].
Qed.

Lemma hll_float fx l t0 : l <> [] -> handle_leaf_list fx (map GFloat l) t0 = Ok (new_ll_float l).
Proof.
  intros Hne. unfold handle_leaf_list, ll_prec_ok. rewrite !forallb_map_all by reflexivity.
  collect.
  cbn [negb isnil]. rewrite (isnil_false l Hne). reflexivity.
Qed.

Lemma concat_be4_length l : length (concat (map (fun b => be4 (f32_trip b)) l)) = (4 * length l)%nat.
Proof. induction l as [|b l IH]; [reflexivity|]. cbn [map concat]. rewrite app_length, IH. cbn. lia. Qed.

Lemma rt_ll_float fx l o :
  l <> [] -> Forall (fun b => f32_range b /\ f32_is_nan b = false) l ->
  journey fx (GLeafList (map GFloat l)) o = Ok (GLeafList (map GFloat l)).
Proof.
  intros Hne H. unfold journey, to_native. rewrite hll_float by exact Hne. cbn [bind].
  unfold to_gnmi, ll_float_list, new_ll_float. cbn [tv_type tv_bytes].
  rewrite <- (app_nil_r (concat _)) at 2.
  rewrite float_loop_rt; [reflexivity | exact H | rewrite concat_be4_length; lia | reflexivity].
Qed.

(* ------------------------------------------------------------ string leaf-lists *)
Lemma split_on_app_nosep sep w s : ~ In sep w ->
  split_on sep (w ++ sep :: s) = w :: split_on sep s.
Proof.
  induction w as [|c w IH]; intros Hn.
  - cbn. rewrite N.eqb_refl. reflexivity.
  - cbn [app split_on]. destruct (c =? sep)%N eqn:E.
    + apply N.eqb_eq in E. exfalso. apply Hn. left. exact E.
    + rewrite IH by (intros Hin; apply Hn; right; exact Hin). reflexivity.
Qed.

Lemma split_on_nosep sep w : ~ In sep w -> split_on sep w = [w].
Proof.
  induction w as [|c w IH]; intros Hn; [reflexivity|].
  cbn [split_on]. destruct (c =? sep)%N eqn:E.
  - apply N.eqb_eq in E. exfalso. apply Hn. left. exact E.
  - rewrite IH by (intros Hin; apply Hn; right; exact Hin). reflexivity.
Qed.

Lemma split_join sep l : l <> [] -> Forall (fun w => ~ In sep w) l -> split_on sep (join [sep] l) = l.
Proof.
  induction l as [|w l IH]; intros Hne H; [contradiction|].
  inversion H as [|? ? Hw Hl]; subst.
  destruct l as [|w2 l].
  - cbn [join]. apply split_on_nosep. exact Hw.
  - change (join [sep] (w :: w2 :: l)) with (w ++ [sep] ++ join [sep] (w2 :: l)).
    cbn [app]. rewrite split_on_app_nosep by exact Hw. f_equal. apply IH; [discriminate | exact Hl].
Qed.

Lemma hll_string fx l t0 : l <> [] -> handle_leaf_list fx (map GString l) t0 = Ok (new_ll_string l).
Proof.
  intros Hne. unfold handle_leaf_list, ll_prec_ok. rewrite !forallb_map_all by reflexivity.
  collect. cbn [negb]. rewrite (isnil_false l Hne). reflexivity.
Qed.

Definition no_gs (s : str) : Prop := ~ In 29%N s.

Lemma rt_ll_string fx l o :
  l <> [] -> Forall no_gs l -> journey fx (GLeafList (map GString l)) o = Ok (GLeafList (map GString l)).
Proof.
  intros Hne H. unfold journey, to_native. rewrite hll_string by exact Hne. cbn [bind].
  unfold to_gnmi, ll_string_list, new_ll_string. cbn [tv_type tv_bytes].
  rewrite split_join by assumption. reflexivity.
Qed.

(* refutation: an element holding the group separator 0x1D comes back as two elements *)
Lemma ll_string_refuted : forall fx,
  exists l o, l <> [] /\ journey fx (GLeafList (map GString l)) o <> Ok (GLeafList (map GString l)).
Proof. intros fx. exists [[97; 29; 98]%N], None. split; [discriminate | destruct fx; vm_compute; discriminate]. Qed.

(* ------------------------------------------------------------ bytes leaf-lists *)
Lemma hll_bytes fx l t0 : l <> [] -> handle_leaf_list fx (map GBytes l) t0 = Ok (new_ll_bytes l).
Proof.
  intros Hne. unfold handle_leaf_list, ll_prec_ok. rewrite !forallb_map_all by reflexivity.
  collect.
  cbn [negb isnil]. rewrite (isnil_false l Hne). reflexivity.
Qed.

(* the running state of TypedLeafListBytes.List while it is inside element number (length acc):
   buf holds what has been read of it, rest what is still to come *)
Lemma opts_at acc (cur : list N) later :
  nth_error (map zlen (acc ++ cur :: later)) (length acc) = Some (zlen cur).
Proof.
  rewrite map_app, nth_error_app2 by (rewrite map_length; lia).
  rewrite map_length, Nat.sub_diag. reflexivity.
Qed.

Lemma snoc_assoc (buf : list N) x rest : buf ++ x :: rest = (buf ++ [x]) ++ rest.
Proof. rewrite <- app_assoc. reflexivity. Qed.

(* a byte inside the current element is appended to buf *)
Lemma bytes_loop_step x rest tail acc buf i startAt later :
  i - startAt = zlen buf ->
  ll_bytes_loop (x :: tail) i startAt (length acc) (map zlen (acc ++ (buf ++ x :: rest) :: later)) buf acc =
  ll_bytes_loop tail (i + 1) startAt (length acc) (map zlen (acc ++ ((buf ++ [x]) ++ rest) :: later)) (buf ++ [x]) acc.
Proof.
  intros Hi. rewrite <- (snoc_assoc buf x rest). cbn [ll_bytes_loop]. rewrite opts_at.
  replace (i - startAt =? zlen (buf ++ x :: rest)) with false; [reflexivity|].
  symmetry. apply Z.eqb_neq. rewrite Hi. unfold zlen. rewrite app_length. cbn [length]. lia.
Qed.

Lemma bytes_loop_inv : forall later,
  Forall (fun e : list N => e <> []) later ->
  forall rest acc buf i startAt,
  i - startAt = zlen buf ->
  ll_bytes_loop (rest ++ concat later) i startAt (length acc) (map zlen (acc ++ (buf ++ rest) :: later)) buf acc
  = Ok (acc ++ (buf ++ rest) :: later).
Proof.
  induction later as [|e later IHl]; intros Hl;
    (induction rest as [|x rest IH]; intros acc buf i startAt Hi;
     [|cbn [app]; rewrite bytes_loop_step by exact Hi; rewrite (snoc_assoc buf x rest);
       apply IH; unfold zlen in *; rewrite app_length; cbn [length]; lia]).
  - cbn [concat app ll_bytes_loop]. rewrite app_nil_r. reflexivity.
  - (* the element is complete: the next byte opens the next one *)
    inversion Hl as [|? ? He Hl']; subst. destruct e as [|y e]; [contradiction|].
    rewrite app_nil_r. cbn [concat app ll_bytes_loop].
    rewrite opts_at. rewrite Hi, Z.eqb_refl.
    replace (acc ++ buf :: (y :: e) :: later) with ((acc ++ [buf]) ++ ([y] ++ e) :: later)
      by (rewrite <- app_assoc; reflexivity).
    replace (S (length acc)) with (length (acc ++ [buf])) by (rewrite app_length; cbn [length]; lia).
    apply (IHl Hl'). unfold zlen in *. cbn [length]. lia.
Qed.

(* every element after the first is non-empty (an empty first element is kept) *)
Definition tail_nonempty (l : list (list N)) : Prop :=
  match l with [] => True | _ :: tl => Forall (fun e => e <> []) tl end.

Lemma bytes_list_rt l : l <> [] -> tail_nonempty l -> ll_bytes_list (new_ll_bytes l) = Ok l.
Proof.
  intros Hne Ht. destruct l as [|e0 later]; [contradiction|]. cbn [tail_nonempty] in Ht.
  unfold ll_bytes_list, new_ll_bytes. cbn [tv_bytes tv_opts concat].
  exact (bytes_loop_inv later Ht e0 [] [] 0 0 eq_refl).
Qed.

Lemma rt_ll_bytes fx l o :
  l <> [] -> tail_nonempty l -> journey fx (GLeafList (map GBytes l)) o = Ok (GLeafList (map GBytes l)).
Proof.
  intros Hne Ht. unfold journey, to_native. rewrite hll_bytes by exact Hne. cbn [bind].
  unfold to_gnmi. cbn [tv_type new_ll_bytes].
  change {| tv_bytes := concat l; tv_type := VLLBytes; tv_opts := map zlen l |} with (new_ll_bytes l).
  rewrite bytes_list_rt by assumption. reflexivity.
Qed.

(* refutation: an empty element after the first one is lost (and the elements after it are merged) *)
Lemma ll_bytes_refuted : forall fx,
  exists l o, l <> [] /\ journey fx (GLeafList (map GBytes l)) o <> Ok (GLeafList (map GBytes l)).
Proof. intros fx. exists [[1]; []; [2]; [3]]%N, None. split; [discriminate | destruct fx; vm_compute; discriminate]. Qed.
