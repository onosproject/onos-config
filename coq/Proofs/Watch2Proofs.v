(* Facts about the delivery model Watch2.v *)
From Coq Require Import List Arith Bool Lia.
From OC Require Import Model.Watch2.
Import ListNotations.

Section PerTransaction.
  Context {A : Type}.

  Lemma delivered_incl (h : list A) j k x : In x (delivered h j k) -> In x h.
  Proof.
    unfold delivered. intros Hin.
    assert (Hs : forall y, In y (skipn j h) -> In y h).
    { intros y Hy. rewrite <- (firstn_skipn j h). apply in_or_app. right. exact Hy. }
    destruct k as [|k']; [apply Hs; exact Hin|].
    destruct (nth_error h k') as [y|] eqn:E; [|apply Hs; exact Hin].
    destruct Hin as [<- | Hin]; [eapply nth_error_In; exact E | apply Hs; exact Hin].
  Qed.

  Lemma last_skipn (h : list A) j d : j < length h -> last (skipn j h) d = last h d.
  Proof.
    revert j. induction h as [|a h IH]; intros j Hj; cbn in Hj; [lia|].
    destruct j as [|j]; [reflexivity|].
    cbn [skipn]. rewrite IH by lia.
    destruct h as [|b h]; [cbn in Hj; lia | reflexivity].
  Qed.

  Lemma last_in (l : list A) d : l <> [] -> In (last l d) l.
  Proof.
    induction l as [|a l IH]; intros Hne; [congruence|].
    destruct l as [|b l]; [left; reflexivity|]. right. apply IH. discriminate.
  Qed.

  Lemma nth_error_last (h : list A) d : h <> [] -> nth_error h (length h - 1) = Some (last h d).
  Proof.
    induction h as [|a h IH]; intros Hne; [congruence|].
    destruct h as [|b h]; [reflexivity|].
    cbn [length]. replace (S (S (length h)) - 1) with (S (length (b :: h) - 1)) by (cbn; lia).
    cbn [nth_error]. rewrite IH by discriminate. reflexivity.
  Qed.

  Lemma delivered_nonempty (h : list A) j k : placement_ok h j k = true -> delivered h j k <> [].
  Proof.
    unfold placement_ok, delivered. rewrite !andb_true_iff, !Nat.leb_le. intros [[H1 H2] H3].
    destruct k as [|k']; [lia|].
    destruct (nth_error h k') eqn:E; [discriminate|].
    apply nth_error_None in E. lia.
  Qed.

  (* the latest record always reaches the watcher: by the replay or by a live event *)
  Lemma delivered_last (h : list A) j k d :
    placement_ok h j k = true -> last (delivered h j k) d = last h d.
  Proof.
    unfold placement_ok, delivered. rewrite !andb_true_iff, !Nat.leb_le. intros [[H1 H2] H3].
    destruct k as [|k']; [lia|].
    destruct (nth_error h k') as [x|] eqn:E; [|apply nth_error_None in E; lia].
    destruct (Nat.lt_ge_cases j (length h)) as [Hlt|Hge].
    - assert (Hne : skipn j h <> []).
      { intros Hnil. apply (f_equal (@length A)) in Hnil. rewrite skipn_length in Hnil. cbn in Hnil. lia. }
      destruct (skipn j h) as [|y r] eqn:Es; [congruence|].
      change (last (x :: y :: r) d) with (last (y :: r) d). rewrite <- Es. apply last_skipn. exact Hlt.
    - assert (j = length h) by lia. assert (k' = length h - 1) by lia. subst j k'.
      rewrite skipn_all. cbn.
      assert (Hne : h <> []) by (destruct h; [cbn in H2; lia | discriminate]).
      rewrite (nth_error_last h d Hne) in E. congruence.
  Qed.

  Lemma delivered_has_last (h : list A) j k d : placement_ok h j k = true -> In (last h d) (delivered h j k).
  Proof.
    intros Hp. rewrite <- (delivered_last h j k d Hp). apply last_in, delivered_nonempty, Hp.
  Qed.
End PerTransaction.

Section WholeLog.
  Context {I A : Type} (id_eqb : I -> I -> bool).

  Lemma project_app tid (a b : list (I * A)) :
    project id_eqb tid (a ++ b) = project id_eqb tid a ++ project id_eqb tid b.
  Proof. unfold project. rewrite filter_app, map_app. reflexivity. Qed.

  Lemma last_opt_nil {X} (l : list X) : last_opt l = None -> l = [].
  Proof.
    unfold last_opt. destruct (rev l) eqn:E; [|discriminate]. intros _.
    apply (f_equal (@rev X)) in E. rewrite rev_involutive in E. exact E.
  Qed.

  Lemma last_opt_some {X} (l : list X) x : last_opt l = Some x -> exists l', l = l' ++ [x].
  Proof.
    unfold last_opt. destruct (rev l) as [|y r] eqn:E; [discriminate|]. intros [= ->].
    exists (rev r). apply (f_equal (@rev X)) in E. rewrite rev_involutive in E. exact E.
  Qed.

  Lemma skipn_length_app {X} (a b : list X) : skipn (length a) (a ++ b) = b.
  Proof. induction a; cbn; auto. Qed.

  (* the watcher of one transaction sees exactly what the per-transaction model says, with the two
     positions counted in that transaction's own history; the order j <= k carries over *)
  Lemma log_delivered_project (log : list (I * A)) tid j k :
    log_delivered id_eqb log tid j k =
    delivered (project id_eqb tid log)
              (length (project id_eqb tid (firstn j log)))
              (length (project id_eqb tid (firstn k log))).
  Proof.
    unfold log_delivered.
    assert (Hj : skipn (length (project id_eqb tid (firstn j log))) (project id_eqb tid log)
                 = project id_eqb tid (skipn j log)).
    { rewrite <- (firstn_skipn j log) at 2. rewrite project_app. apply skipn_length_app. }
    unfold delivered. rewrite Hj.
    destruct (last_opt (project id_eqb tid (firstn k log))) as [x|] eqn:E.
    - apply last_opt_some in E. destruct E as [l' El'].
      rewrite El'. rewrite app_length. cbn [length]. replace (length l' + 1) with (S (length l')) by lia.
      rewrite <- (firstn_skipn k log) at 2. rewrite project_app, El'.
      rewrite <- app_assoc. cbn [app].
      rewrite nth_error_app2 by lia. rewrite Nat.sub_diag. cbn. reflexivity.
    - apply last_opt_nil in E. rewrite E. reflexivity.
  Qed.

  Lemma project_firstn_mono (log : list (I * A)) tid j k :
    j <= k -> length (project id_eqb tid (firstn j log)) <= length (project id_eqb tid (firstn k log)).
  Proof.
    intros Hjk.
    replace (firstn j log) with (firstn j (firstn k log)).
    - rewrite <- (firstn_skipn j (firstn k log)) at 2. rewrite project_app, app_length. lia.
    - rewrite firstn_firstn. f_equal. lia.
  Qed.
End WholeLog.

Section Registry.
  Context {I W : Type} (id_eqb : I -> I -> bool) (w_eqb : W -> W -> bool).
  Context (id_eqb_spec : forall a b, id_eqb a b = true <-> a = b).
  Context (w_eqb_spec : forall a b, w_eqb a b = true <-> a = b).

  Lemma id_eqb_false a b : id_eqb a b = false <-> a <> b.
  Proof.
    split; intros H.
    - intros E. apply id_eqb_spec in E. congruence.
    - destruct (id_eqb a b) eqn:E; [apply id_eqb_spec in E; contradiction | reflexivity].
  Qed.

  Lemma reg_get_set (r : list (I * list W)) t ws t' :
    reg_get id_eqb (reg_set id_eqb r t ws) t' = if id_eqb t t' then Some ws else reg_get id_eqb r t'.
  Proof.
    induction r as [|[k v] r IH]; cbn.
    - destruct (id_eqb t t'); reflexivity.
    - destruct (id_eqb k t) eqn:Ekt; cbn.
      + apply id_eqb_spec in Ekt. subst k. destruct (id_eqb t t'); reflexivity.
      + destruct (id_eqb k t') eqn:Ekt'; [|exact IH].
        apply id_eqb_spec in Ekt'. subst k. rewrite (proj2 (id_eqb_false t t')); [reflexivity|].
        apply id_eqb_false in Ekt. congruence.
  Qed.

  Lemma reg_get_del (r : list (I * list W)) t t' :
    reg_get id_eqb (reg_del id_eqb r t) t' = if id_eqb t t' then None else reg_get id_eqb r t'.
  Proof.
    induction r as [|[k v] r IH]; cbn.
    - destruct (id_eqb t t'); reflexivity.
    - destruct (id_eqb k t) eqn:Ekt; cbn.
      + apply id_eqb_spec in Ekt. subst k. rewrite IH. destruct (id_eqb t t'); reflexivity.
      + destruct (id_eqb k t') eqn:Ekt'; [|exact IH].
        apply id_eqb_spec in Ekt'. subst k. rewrite (proj2 (id_eqb_false t t')); [reflexivity|].
        apply id_eqb_false in Ekt. congruence.
  Qed.

  Lemma in_remove_watcher w ws x : In x (remove_watcher w_eqb w ws) <-> In x ws /\ x <> w.
  Proof.
    unfold remove_watcher. rewrite filter_In, negb_true_iff. split; intros [H1 H2]; split; try exact H1.
    - intros E. apply w_eqb_spec in E. congruence.
    - destruct (w_eqb x w) eqn:E; [apply w_eqb_spec in E; contradiction | reflexivity].
  Qed.

  Lemma watchers_unregister (r : list (I * list W)) t w t' :
    watchers_of id_eqb (unregister id_eqb w_eqb r t w) t' =
    if id_eqb t t' then remove_watcher w_eqb w (watchers_of id_eqb r t') else watchers_of id_eqb r t'.
  Proof.
    unfold unregister, watchers_of. destruct (reg_get id_eqb r t) as [ws|] eqn:Eg.
    - destruct (remove_watcher w_eqb w ws) as [|y ws'] eqn:Er; [rewrite reg_get_del | rewrite reg_get_set];
        (destruct (id_eqb t t') eqn:E; [|reflexivity]); apply id_eqb_spec in E; subst t'; rewrite Eg, Er; reflexivity.
    - destruct (id_eqb t t') eqn:E; [|reflexivity]. apply id_eqb_spec in E. subst t'. rewrite Eg. reflexivity.
  Qed.

  (* a watcher that leaves takes only itself out: every other watcher, of the same transaction or of
     another one, stays registered (and nobody gets registered by it) *)
  Theorem unregister_others_unaffected (r : list (I * list W)) t2 w2 t1 w1 :
    w1 <> w2 ->
    (In w1 (watchers_of id_eqb (unregister id_eqb w_eqb r t2 w2) t1) <-> In w1 (watchers_of id_eqb r t1)).
  Proof.
    intros Hne. rewrite watchers_unregister. destruct (id_eqb t2 t1); [|reflexivity].
    rewrite in_remove_watcher. tauto.
  Qed.

  Theorem unregister_removes (r : list (I * list W)) t w : ~ In w (watchers_of id_eqb (unregister id_eqb w_eqb r t w) t).
  Proof. rewrite watchers_unregister, (proj2 (id_eqb_spec t t) eq_refl), in_remove_watcher. tauto. Qed.

  Theorem register_adds (r : list (I * list W)) t w t' w' :
    In w' (watchers_of id_eqb (register id_eqb r t w) t') <->
    (t = t' /\ w' = w) \/ In w' (watchers_of id_eqb r t').
  Proof.
    unfold register, watchers_of at 1. rewrite reg_get_set.
    destruct (id_eqb t t') eqn:E.
    - apply id_eqb_spec in E. subst t'. cbn. split.
      + intros [<- | H]; [left; split; reflexivity | right; exact H].
      + intros [[_ ->] | H]; [left; reflexivity | right; exact H].
    - apply id_eqb_false in E. split; [intros H; right; exact H | intros [[H _] | H]; [contradiction | exact H]].
  Qed.
End Registry.
