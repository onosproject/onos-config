(* The worlds of Model/Watch.v within a depth bound.  Every one of them is reachable, so the bounded statement follows
   from the inductive invariant of WatchInv; nothing is enumerated. *)
From Coq Require Import List NArith Bool Lia.
From OC Require Import Model.Watch Proofs.WatchInv.
Import ListNotations.
Open Scope N_scope.

(* every world reachable from g by at most n labels of the alphabet *)
Fixpoint explore (fixed : bool) (alphabet : list label) (n : nat) (g : world) : list world :=
  match n with
  | O => [g]
  | S m => g :: flat_map (fun l => explore fixed alphabet m (wstep fixed false g l)) alphabet
  end.

Lemma explore_ok fixed alphabet n : forall g, Inv fixed g -> forallb watch_ok (explore fixed alphabet n g) = true.
Proof.
  induction n as [|n IH]; intros g HI; cbn [explore forallb]; rewrite (inv_watch_ok fixed g HI); [reflexivity|].
  apply forallb_forall. intros g' Hg'. apply in_flat_map in Hg'. destruct Hg' as (l & _ & Hg').
  exact (proj1 (forallb_forall _ _) (IH _ (inv_step fixed g l HI)) g' Hg').
Qed.

(* a schedule over the alphabet that is no longer than the bound ends in an explored world *)
Lemma explore_run fixed alphabet ls : forall n g, (length ls <= n)%nat -> incl ls alphabet ->
  In (wrun fixed false g ls) (explore fixed alphabet n g).
Proof.
  induction ls as [|l ls IH]; intros n g Hn Hin.
  - destruct n; left; reflexivity.
  - destruct n as [|n]; [cbn in Hn; lia|]. right. apply in_flat_map. exists l.
    split; [apply Hin; left; reflexivity|].
    apply IH; [cbn in Hn; lia | intros x Hx; apply Hin; right; exact Hx].
Qed.

(* one replaying all-records watcher, two records; and one live single-record watcher *)
Definition alphabet_replay_all : list label :=
  [SWrite 0; SWrite 1; SOpen 1 None true; SSnap 1; SReplay 1; STake; SSend; SFwd 1].
Definition alphabet_live_one : list label :=
  [SWrite 0; SWrite 1; SOpen 1 (Some 1) false; STake; SSend; SFwd 1].
Definition alphabet_replay_one : list label :=
  [SWrite 0; SWrite 1; SOpen 1 (Some 0) true; SSnap 1; SReplay 1; STake; SSend; SFwd 1].
Definition alphabet_two : list label :=
  [SWrite 0; SOpen 1 None true; SOpen 2 None false; SSnap 1; SReplay 1; STake; SSend; SFwd 1; SFwd 2; SCancel 1; SClose 1].

(* C15_watch_latest, bounded: for EVERY interleaving of at most 7, 7, 8, 6 and 6 steps of writes with the steps of
   Watch / event loop / watcher, whenever the system is quiescent every open watcher was last shown the
   current version of every record it is entitled to - with replay / without, all records / one record,
   and next to a watcher that is being cancelled *)
Theorem watch_latest_bounded :
  forallb watch_ok (explore true alphabet_replay_all 7 w0) = true /\
  forallb watch_ok (explore true alphabet_replay_one 7 w0) = true /\
  forallb watch_ok (explore true alphabet_live_one 8 w0) = true /\
  forallb watch_ok (explore true alphabet_two 6 w0) = true /\
  forallb watch_ok (explore false alphabet_two 6 w0) = true.
Proof. repeat apply conj; apply explore_ok, inv_w0. Qed.

(* the bound is not vacuous: quiescent worlds with deliveries are among those explored *)
Example explored_nontrivial :
  existsb (fun g => quiescent g && existsb (fun w => 1 <=? N.of_nat (length (w_delivered w))) (g_ws g))
          (explore true alphabet_replay_all 7 w0) = true.
Proof.
  apply existsb_exists.
  exists (wrun true false w0 [SWrite 0; STake; SOpen 1 None true; SSnap 1; SReplay 1; SReplay 1]).
  split; [|reflexivity].
  apply explore_run; [cbn; lia|]. intros l Hl. cbn in Hl |- *. intuition.
Qed.

