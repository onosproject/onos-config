(* Unbounded proof of latest-state-at-quiescence for Model/Watch.v (real order: listener registered BEFORE the
   replay snapshot), by an inductive invariant over every schedule of any length.

   The invariant, for every watcher that is not cancelled and has taken its replay snapshot (or needs none), and
   for every record k it is entitled to:

       delivered ++ (rest of the replay | event held by the goroutine) ++ (event the loop still has to hand to it)
                 ++ Atomix event stream                                   ends, for k, with the CURRENT version of k

   together with: the in-flight events (loop + stream) end, for every record, with its current version; record
   keys and watcher ids are unique; the loop's targets are distinct, non-empty and exist; a watcher that is not
   drained is still registered, a drained / stuck one is cancelled.  A watcher still in WReg will take its
   snapshot AFTER its registration, which re-establishes the equation whatever the loop did in between. *)
From Coq Require Import List NArith Bool Lia.
From OC Require Import Model.Watch Proofs.WatchProofs.
Import ListNotations.
Open Scope N_scope.

(* ---------------------------------------------------------------- lists of events, the store *)
Lemma last_for_app k a b :
  last_for k (a ++ b) = match last_for k b with Some v => Some v | None => last_for k a end.
Proof.
  induction a as [|e a IH]; simpl.
  - destruct (last_for k b); reflexivity.
  - rewrite IH. destruct (last_for k b); reflexivity.
Qed.

Lemma last_for_cons_some k e q v : last_for k q = Some v -> last_for k (e :: q) = Some v.
Proof. simpl. intros ->. reflexivity. Qed.

Lemma last_for_skip k a e b : ev_key e <> k -> last_for k (a ++ e :: b) = last_for k (a ++ b).
Proof.
  intro Hne. rewrite !last_for_app. simpl.
  destruct (N.eqb_spec (ev_key e) k) as [E|_]; [contradiction|].
  destruct (last_for k b); reflexivity.
Qed.

Lemma last_for_snoc k a e :
  last_for k (a ++ [e]) = if N.eqb (ev_key e) k then Some (ev_ver e) else last_for k a.
Proof. rewrite last_for_app. simpl. destruct (N.eqb (ev_key e) k); reflexivity. Qed.

Lemma lookup_set k k' v s : lookup k (set_store k' v s) = if N.eqb k' k then Some v else lookup k s.
Proof.
  induction s as [|[a x] r IH]; simpl.
  - destruct (N.eqb k' k); reflexivity.
  - destruct (N.eqb_spec a k') as [E|E]; simpl.
    + subst a. destruct (N.eqb k' k); reflexivity.
    + rewrite IH. destruct (N.eqb_spec a k) as [E2|E2]; [|reflexivity].
      subst a. destruct (N.eqb_spec k' k) as [E3|_]; [congruence | reflexivity].
Qed.

Lemma in_keys_set a k v s : In a (map fst (set_store k v s)) -> a = k \/ In a (map fst s).
Proof.
  induction s as [|[b x] r IH]; simpl.
  - intros [<-|[]]. left; reflexivity.
  - destruct (N.eqb b k); simpl.
    + intros H. right. exact H.
    + intros [<-|H]; [right; left; reflexivity|]. destruct (IH H) as [->|H']; [left; reflexivity | right; right; exact H'].
Qed.

Lemma keys_set k v s : NoDup (map fst s) -> NoDup (map fst (set_store k v s)).
Proof.
  induction s as [|[b x] r IH]; simpl; intro Hnd.
  - constructor; [simpl; tauto | constructor].
  - inversion Hnd as [|? ? Hnin Hnd']; subst.
    destruct (N.eqb_spec b k) as [E|E]; simpl.
    + constructor; assumption.
    + constructor; [|exact (IH Hnd')].
      intro Hin. destruct (in_keys_set _ _ _ _ Hin) as [->|H]; [congruence | contradiction].
Qed.

Lemma lookup_none k s : ~ In k (map fst s) -> lookup k s = None.
Proof.
  induction s as [|[a x] r IH]; simpl; [reflexivity|]. intro H.
  destruct (N.eqb_spec a k) as [E|E]; [exfalso; apply H; left; exact E | apply IH; tauto].
Qed.

Lemma lookup_in k v s : NoDup (map fst s) -> In (k, v) s -> lookup k s = Some v.
Proof.
  induction s as [|[a x] r IH]; simpl; intros Hnd Hin; [contradiction|].
  inversion Hnd as [|? ? Hnin Hnd']; subst.
  destruct Hin as [E|Hin].
  - inversion E; subst. rewrite N.eqb_refl. reflexivity.
  - destruct (N.eqb_spec a k) as [E|E]; [|exact (IH Hnd' Hin)].
    subst a. exfalso. apply Hnin. change k with (fst (k, v)). apply in_map. exact Hin.
Qed.

Lemma matches_key f a k : matches f k = true -> matches f a = false -> a <> k.
Proof. intros H1 H2 ->. congruence. Qed.

Lemma last_for_snapshot f s k :
  NoDup (map fst s) -> matches f k = true -> last_for k (snapshot f s) = lookup k s.
Proof.
  unfold snapshot. induction s as [|[a x] r IH]; simpl; intros Hnd Hm; [reflexivity|].
  inversion Hnd as [|? ? Hnin Hnd']; subst.
  destruct (matches f a) eqn:Ma; simpl.
  - rewrite (IH Hnd' Hm). destruct (N.eqb_spec a k) as [E|E].
    + subst a. rewrite (lookup_none _ _ Hnin). reflexivity.
    + destruct (lookup k r); reflexivity.
  - destruct (N.eqb_spec a k) as [E|E]; [exfalso; exact (matches_key _ _ _ Hm Ma E) | exact (IH Hnd' Hm)].
Qed.

Lemma snapshot_length f s : (length (snapshot f s) <= length s)%nat.
Proof.
  unfold snapshot. rewrite map_length. induction s as [|kv r IH]; simpl; [lia|].
  destruct (matches f (fst kv)); simpl; lia.
Qed.

Lemma existsb_eqb_in i l : existsb (N.eqb i) l = true <-> In i l.
Proof.
  rewrite existsb_exists. split.
  - intros [x [Hin E]]. apply N.eqb_eq in E. subst. exact Hin.
  - intro Hin. exists i. split; [exact Hin | apply N.eqb_refl].
Qed.

(* ---------------------------------------------------------------- watcher lists *)
Lemma find_in id ws w : find_w id ws = Some w -> In w ws /\ w_id w = id.
Proof.
  induction ws as [|x r IH]; simpl; [discriminate|].
  destruct (N.eqb_spec (w_id x) id) as [E|E].
  - intro H. inversion H; subst. split; [left; reflexivity | reflexivity].
  - intro H. destruct (IH H) as [Hin Hid]. split; [right; exact Hin | exact Hid].
Qed.

Lemma find_none_notin id ws : find_w id ws = None -> ~ In id (map w_id ws).
Proof.
  induction ws as [|x r IH]; simpl; [tauto|].
  destruct (N.eqb_spec (w_id x) id) as [E|E]; [discriminate|].
  intros H [H'|H']; [contradiction | exact (IH H H')].
Qed.

Lemma find_ids id ws : find_w id ws <> None <-> In id (map w_id ws).
Proof.
  split; [|intros Hin Hn; exact (find_none_notin _ _ Hn Hin)].
  destruct (find_w id ws) as [w|] eqn:E; [|congruence]. intros _.
  destruct (find_in _ _ _ E) as [Hin <-]. apply in_map. exact Hin.
Qed.

Lemma find_nodup ws w : NoDup (map w_id ws) -> In w ws -> find_w (w_id w) ws = Some w.
Proof.
  induction ws as [|x r IH]; simpl; intros Hnd Hin; [contradiction|].
  inversion Hnd as [|? ? Hnin Hnd']; subst.
  destruct Hin as [->|Hin]; [rewrite N.eqb_refl; reflexivity|].
  destruct (N.eqb_spec (w_id x) (w_id w)) as [E|E]; [|exact (IH Hnd' Hin)].
  exfalso. apply Hnin. rewrite E. apply in_map. exact Hin.
Qed.

Lemma ids_upd id f ws : (forall w, w_id (f w) = w_id w) -> map w_id (upd_w id f ws) = map w_id ws.
Proof.
  intro Hf. induction ws as [|x r IH]; simpl; [reflexivity|].
  destruct (N.eqb (w_id x) id); simpl; [rewrite Hf; reflexivity | rewrite IH; reflexivity].
Qed.

Lemma ids_note k ws : map w_id (map (note_write k) ws) = map w_id ws.
Proof. rewrite map_map. apply map_ext. reflexivity. Qed.

Lemma upd_length id f ws : length (upd_w id f ws) = length ws.
Proof. induction ws as [|x r IH]; simpl; [reflexivity|]. destruct (N.eqb (w_id x) id); simpl; congruence. Qed.

Lemma upd_absent id f ws : find_w id ws = None -> upd_w id f ws = ws.
Proof.
  induction ws as [|x r IH]; simpl; [reflexivity|].
  destruct (N.eqb (w_id x) id); [discriminate|]. intro H. rewrite (IH H). reflexivity.
Qed.

(* a step that rewrites the watcher found under id and moves everybody else from P to Q *)
Lemma Forall_upd (P Q : watcher -> Prop) id f ws w :
  NoDup (map w_id ws) -> find_w id ws = Some w -> Forall P ws ->
  (forall x, w_id x <> id -> P x -> Q x) -> Q (f w) -> Forall Q (upd_w id f ws).
Proof.
  intros Hnd Hf HP Hother Hself. induction ws as [|x r IH]; simpl in *; [discriminate|].
  inversion Hnd as [|? ? Hnin Hnd']; subst. inversion HP as [|? ? Px Pr]; subst.
  destruct (N.eqb_spec (w_id x) id) as [E|E].
  - injection Hf as ->. constructor; [exact Hself|].
    rewrite Forall_forall in *. intros y Hy. apply Hother; [|exact (Pr y Hy)].
    intro Ey. apply Hnin. rewrite E, <- Ey. apply in_map. exact Hy.
  - constructor; [exact (Hother x E Px) | exact (IH Hnd' Hf Pr)].
Qed.

Lemma nodup_ids_filter (p : watcher -> bool) ws : NoDup (map w_id ws) -> NoDup (map w_id (filter p ws)).
Proof.
  induction ws as [|x r IH]; simpl; intro Hnd; [constructor|].
  inversion Hnd as [|? ? Hnin Hnd']; subst.
  destruct (p x); simpl; [|exact (IH Hnd')].
  constructor; [|exact (IH Hnd')]. intro Hin. apply Hnin. exact (incl_map w_id (incl_filter p r) _ Hin).
Qed.

(* ---------------------------------------------------------------- the invariant *)
Definition pend_phase (p : wphase) : list ev :=
  match p with WReplay l => l | WHold e => [e] | _ => [] end.

Definition pend_loop (lp : loopst) (id : N) : list ev :=
  match lp with LSend e ts => if existsb (N.eqb id) ts then [e] else [] | LIdle => [] end.

Definition inflight (lp : loopst) (q : list ev) : list ev :=
  match lp with LSend e _ => [e] | LIdle => [] end ++ q.

(* everything watcher w has been shown or will be shown without any further write, oldest first *)
Definition stream (q : list ev) (lp : loopst) (w : watcher) : list ev :=
  w_delivered w ++ pend_phase (w_phase w) ++ pend_loop lp (w_id w) ++ q.

Definition wf_wb (fixed : bool) (w : watcher) : bool :=
  match w_phase w with
  | WDrained => w_cancelled w
  | WStuck => w_cancelled w && negb fixed
  | WUnreg _ => false
  | _ => w_registered w
  end.

Definition fresh_w (st : list (N * N)) (q : list ev) (lp : loopst) (w : watcher) : Prop :=
  w_cancelled w = false -> w_phase w <> WReg ->
  forall k v, matches (w_filter w) k = true -> (w_replay w = true \/ In k (w_since w)) ->
  lookup k st = Some v -> last_for k (stream q lp w) = Some v.

Definition winv (fixed : bool) (st : list (N * N)) (q : list ev) (lp : loopst) (w : watcher) : Prop :=
  wf_wb fixed w = true /\ fresh_w st q lp w.

Definition loop_ok (lp : loopst) (ws : list watcher) : Prop :=
  match lp with
  | LIdle => True
  | LSend _ ts => ts <> [] /\ NoDup ts /\ forall id, In id ts -> find_w id ws <> None
  end.

Record Inv (fixed : bool) (g : world) : Prop := {
  inv_keys : NoDup (map fst (g_store g));
  inv_ids : NoDup (map w_id (g_ws g));
  inv_loop : loop_ok (g_loop g) (g_ws g);
  inv_flight : forall k v, last_for k (inflight (g_loop g) (g_queue g)) = Some v -> lookup k (g_store g) = Some v;
  inv_ws : Forall (winv fixed (g_store g) (g_queue g) (g_loop g)) (g_ws g)
}.

Lemma inv_w0 fixed : Inv fixed w0.
Proof.
  constructor; simpl; try constructor. intros k v H. discriminate.
Qed.

Lemma pend_loop_after e rest i :
  pend_loop (after_targets e rest) i = if existsb (N.eqb i) rest then [e] else [].
Proof. destruct rest; reflexivity. Qed.

Lemma inflight_after k e rest q v :
  last_for k (inflight (after_targets e rest) q) = Some v -> last_for k (e :: q) = Some v.
Proof.
  unfold inflight. destruct rest; simpl.
  - intros ->. reflexivity.
  - intro H. exact H.
Qed.

Lemma pend_loop_inflight k lp i q v :
  last_for k (pend_loop lp i ++ q) = Some v -> last_for k (inflight lp q) = Some v.
Proof.
  unfold inflight. destruct lp as [|e ts]; simpl; [tauto|].
  destruct (existsb (N.eqb i) ts); simpl; [tauto|]. intros ->. reflexivity.
Qed.

Lemma loop_ok_ids lp ws ws' : incl (map w_id ws) (map w_id ws') -> loop_ok lp ws -> loop_ok lp ws'.
Proof.
  intros H. destruct lp as [|e ts]; simpl; [tauto|].
  intros [H1 [H2 H3]]. repeat split; try assumption. intros id Hin. apply find_ids, H, find_ids, H3, Hin.
Qed.

Lemma loop_ok_after e id rest ws : loop_ok (LSend e (id :: rest)) ws -> loop_ok (after_targets e rest) ws.
Proof.
  intros [_ [Hnd Hex]]. destruct rest as [|a r]; simpl; [exact I|].
  inversion Hnd; subst. repeat split; [discriminate | assumption |].
  intros i Hin. apply Hex. right. exact Hin.
Qed.

Lemma loop_ok_take e k ws : NoDup (map w_id ws) -> loop_ok (after_targets e (listeners k ws)) ws.
Proof.
  intro Hi. assert (H : NoDup (listeners k ws) /\ forall i, In i (listeners k ws) -> find_w i ws <> None).
  { unfold listeners. split; [apply nodup_ids_filter; exact Hi|].
    intros i Hin. apply find_ids. exact (incl_map w_id (incl_filter _ ws) _ Hin). }
  destruct (listeners k ws) as [|a r]; simpl; [exact I|].
  destruct H as [H1 H2]. repeat split; [discriminate | exact H1 | exact H2].
Qed.

Lemma wf_not_cancelled_registered fixed w : wf_wb fixed w = true -> w_cancelled w = false -> w_registered w = true.
Proof.
  unfold wf_wb. destruct (w_phase w); intros H Hc; try exact H; try congruence.
  rewrite Hc in H. discriminate.
Qed.

Lemma inv_find fixed g id w : Inv fixed g -> find_w id (g_ws g) = Some w ->
  winv fixed (g_store g) (g_queue g) (g_loop g) w.
Proof. intros HI Hf. exact (proj1 (Forall_forall _ _) (inv_ws _ _ HI) w (proj1 (find_in _ _ _ Hf))). Qed.

Lemma winv_cancelled fixed st q lp w : wf_wb fixed w = true -> w_cancelled w = true -> winv fixed st q lp w.
Proof. intros Hwf Hc. split; [exact Hwf|]. intro Hc'. congruence. Qed.

Lemma winv_finish_replay fixed st q lp w :
  w_cancelled w = true -> winv fixed st q lp (finish (cancelled_in_replay fixed) w).
Proof.
  intro Hc. apply winv_cancelled; [|exact Hc].
  unfold wf_wb, cancelled_in_replay. destruct fixed; simpl; rewrite Hc; reflexivity.
Qed.

(* w' has the subscription of w and is shown the same events in the same order *)
Lemma fresh_same_stream st q lp w lp' w' :
  fresh_w st q lp w -> w_phase w <> WReg ->
  (w_cancelled w', w_filter w', w_replay w', w_since w') = (w_cancelled w, w_filter w, w_replay w, w_since w) ->
  stream q lp' w' = stream q lp w ->
  fresh_w st q lp' w'.
Proof.
  intros H Hp E Es. injection E as Ec Ef Er Esn. unfold fresh_w. rewrite Ec, Ef, Er, Esn, Es.
  intros Hc _. exact (H Hc Hp).
Qed.

(* the loop has served listener id: nothing changes for the others *)
Lemma fresh_other st q e id rest w :
  w_id w <> id -> fresh_w st q (LSend e (id :: rest)) w -> fresh_w st q (after_targets e rest) w.
Proof.
  intros Hne H Hc Hp. specialize (H Hc Hp). unfold stream in *. rewrite pend_loop_after. simpl in H.
  destruct (N.eqb_spec (w_id w) id) as [E|_]; [contradiction | exact H].
Qed.

(* a step of one goroutine: only the watcher found under id changes *)
Lemma inv_local fixed g id f w :
  Inv fixed g -> find_w id (g_ws g) = Some w -> (forall x, w_id (f x) = w_id x) ->
  winv fixed (g_store g) (g_queue g) (g_loop g) (f w) ->
  Inv fixed (with_ws g (upd_w id f (g_ws g))).
Proof.
  intros [Hk Hi Hl Hf Hw] Efind Hid Hfw. constructor; simpl.
  - exact Hk.
  - rewrite ids_upd by exact Hid. exact Hi.
  - apply (loop_ok_ids _ (g_ws g)); [|exact Hl]. rewrite ids_upd by exact Hid. apply incl_refl.
  - exact Hf.
  - apply (Forall_upd _ _ _ _ _ w Hi Efind Hw); [tauto | exact Hfw].
Qed.

(* ---------------------------------------------------------------- every step keeps the invariant *)
Lemma inv_write fixed g k' : Inv fixed g -> Inv fixed (wstep fixed false g (SWrite k')).
Proof.
  intros [Hk Hi Hl Hf Hw]. constructor; simpl.
  - apply keys_set. exact Hk.
  - rewrite ids_note. exact Hi.
  - apply (loop_ok_ids _ (g_ws g)); [|exact Hl]. rewrite ids_note. apply incl_refl.
  - intros k v. unfold inflight. rewrite app_assoc, last_for_snoc, lookup_set. simpl.
    destruct (N.eqb k' k); [tauto | apply Hf].
  - apply Forall_map. revert Hw. apply Forall_impl. intros w [Hwf Hfr]. split; [exact Hwf|].
    (* every stream grows by the new event, which is the current version of k' *)
    intros Hc Hp k v Hm He. rewrite lookup_set. unfold stream. simpl.
    rewrite !app_assoc, last_for_snoc, <- !app_assoc. simpl.
    destruct (N.eqb_spec k' k) as [E|E]; [tauto|].
    intro Hlk. apply Hfr; try assumption.
    destruct He as [He|[He|He]]; [left; exact He | contradiction | right; exact He].
Qed.

Lemma inv_open fixed g id f rp : Inv fixed g -> Inv fixed (wstep fixed false g (SOpen id f rp)).
Proof.
  intro HI. simpl. destruct (find_w id (g_ws g)) eqn:Efind; [exact HI|].
  destruct HI as [Hk Hi Hl Hf Hw]. constructor; simpl.
  - exact Hk.
  - rewrite map_app. apply (NoDup_Add (Add_app id _ [])). rewrite app_nil_r.
    split; [exact Hi | exact (find_none_notin _ _ Efind)].
  - apply (loop_ok_ids _ (g_ws g)); [|exact Hl]. rewrite map_app. apply incl_appl, incl_refl.
  - exact Hf.
  - apply Forall_app. split; [exact Hw|]. constructor; [|constructor]. split.
    + unfold wf_wb. simpl. destruct rp; reflexivity.
    + (* with replay the watcher is still in WReg; without, nothing has been written since *)
      intros Hc Hp k v Hm He. simpl in *. destruct rp; [congruence|].
      destruct He as [He|[]]. discriminate.
Qed.

Lemma inv_take fixed g : Inv fixed g -> Inv fixed (wstep fixed false g STake).
Proof.
  intro HI. simpl. destruct (g_loop g) eqn:El; [|exact HI]. destruct (g_queue g) as [|e q] eqn:Eq; [exact HI|].
  destruct HI as [Hk Hi Hl Hf Hw]. rewrite El, Eq in *. constructor; simpl.
  - exact Hk.
  - exact Hi.
  - apply loop_ok_take. exact Hi.
  - intros k v H. apply Hf. exact (inflight_after _ _ _ _ _ H).
  - rewrite Forall_forall in *. intros w Hin. destruct (Hw w Hin) as [Hwf Hfr]. split; [exact Hwf|].
    intros Hc Hp k v Hm He Hlk. specialize (Hfr Hc Hp k v Hm He Hlk).
    unfold stream in *. rewrite pend_loop_after. simpl in Hfr.
    destruct (existsb (N.eqb (w_id w)) (listeners (ev_key e) (g_ws g))) eqn:Et; [exact Hfr|].
    (* w is not a listener of e although it is registered: e is about another record than k *)
    simpl. rewrite app_assoc in *. rewrite last_for_skip in Hfr; [exact Hfr|].
    destruct (matches (w_filter w) (ev_key e)) eqn:Mk; [|exact (matches_key _ _ _ Hm Mk)].
    exfalso. assert (Hin' : In (w_id w) (listeners (ev_key e) (g_ws g))).
    { unfold listeners. apply in_map. apply filter_In. split; [exact Hin|].
      rewrite (wf_not_cancelled_registered _ _ Hwf Hc), Mk. reflexivity. }
    apply existsb_eqb_in in Hin'. congruence.
Qed.

(* the loop has handed e to the head listener, or a drainer has swallowed it *)
Lemma inv_sent fixed g e id rest ws' :
  Inv fixed g -> g_loop g = LSend e (id :: rest) -> map w_id ws' = map w_id (g_ws g) ->
  Forall (winv fixed (g_store g) (g_queue g) (after_targets e rest)) ws' ->
  Inv fixed (with_loop g (g_queue g) (after_targets e rest) ws').
Proof.
  intros [Hk Hi Hl Hf Hw] El Eids Hws'. rewrite El in *. constructor; simpl.
  - exact Hk.
  - rewrite Eids. exact Hi.
  - apply (loop_ok_ids _ (g_ws g)); [rewrite Eids; apply incl_refl|]. exact (loop_ok_after _ _ _ _ Hl).
  - intros k v H. apply Hf. exact (inflight_after _ _ _ _ _ H).
  - exact Hws'.
Qed.

Lemma inv_send fixed g : Inv fixed g -> Inv fixed (wstep fixed false g SSend).
Proof.
  intro HI. simpl. destruct (g_loop g) as [|e [|id rest]] eqn:El; try exact HI.
  destruct (find_w id (g_ws g)) as [w|] eqn:Efind; [|exact HI].
  destruct (inv_find _ _ _ _ HI Efind) as [Hwf Hfr]. unfold wf_wb in Hwf.
  pose proof (inv_ids _ _ HI) as Hi. pose proof (inv_ws _ _ HI) as Hw. rewrite El in Hfr, Hw.
  destruct (w_phase w) eqn:Ep; try exact HI; apply (inv_sent _ _ _ id _ _ HI El).
  - apply ids_upd. reflexivity.
  - apply (Forall_upd _ _ _ _ _ w Hi Efind Hw).
    + intros x Hne [Hxf Hxr]. split; [exact Hxf | exact (fresh_other _ _ _ _ _ _ Hne Hxr)].
    + split; [exact Hwf|]. apply (fresh_same_stream _ _ _ _ _ _ Hfr); [rewrite Ep; discriminate | reflexivity |].
      (* id occurs once among the targets: e moves from the loop's debt to w into w's hands *)
      unfold stream. rewrite pend_loop_after. simpl. rewrite Ep.
      destruct (find_in _ _ _ Efind) as [_ ->]. rewrite N.eqb_refl.
      pose proof (inv_loop _ _ HI) as Hl. rewrite El in Hl. destruct Hl as [_ [Hnd _]].
      inversion Hnd as [|? ? Hnin _]; subst.
      destruct (existsb (N.eqb id) rest) eqn:Ex; [apply existsb_eqb_in in Ex; contradiction | reflexivity].
  - reflexivity.
  - rewrite Forall_forall in *. intros x Hin. destruct (Hw x Hin) as [Hxf Hxr]. split; [exact Hxf|].
    destruct (N.eq_dec (w_id x) id) as [E|E]; [|exact (fresh_other _ _ _ _ _ _ E Hxr)].
    (* x is the drained watcher itself, which is cancelled *)
    pose proof (find_nodup _ _ Hi Hin) as H1. rewrite E, Efind in H1. injection H1 as <-.
    intro Hc. congruence.
Qed.

Lemma inv_step fixed g l : Inv fixed g -> Inv fixed (wstep fixed false g l).
Proof.
  intro HI.
  destruct l as [k | id f rp | id | id | | | id | id | id | id];
    [exact (inv_write _ _ _ HI) | exact (inv_open _ _ _ _ _ HI) | | | exact (inv_take _ _ HI) | exact (inv_send _ _ HI) | | | | ];
    (* the other labels belong to watcher id: without it nothing happens, with it we know winv of it *)
    simpl; (destruct (find_w id (g_ws g)) as [w|] eqn:Efind;
      [destruct (inv_find _ _ _ _ HI Efind) as [Hwf Hfr]; unfold wf_wb in Hwf | try exact HI]).
  - (* SSnap *)
    destruct (w_phase w) eqn:Ep; try exact HI; [|discriminate].
    destruct (w_cancelled w) eqn:Ec; [destruct (w_filter w)|]; apply (inv_local _ _ _ _ w HI Efind); try reflexivity.
    + apply winv_cancelled; [exact Hwf | exact Ec].
    + apply winv_finish_replay. exact Ec.
    + (* whatever is still on its way to w is current (inv_flight); for the rest the snapshot is *)
      split; [exact Hwf|]. intros _ _ k v Hm He Hlk. unfold stream. simpl.
      rewrite last_for_app, (last_for_app k (snapshot _ _)).
      destruct (last_for k (pend_loop (g_loop g) (w_id w) ++ g_queue g)) as [v'|] eqn:El.
      * apply pend_loop_inflight, (inv_flight _ _ HI) in El. congruence.
      * rewrite (last_for_snapshot (w_filter w) _ _ (inv_keys _ _ HI) Hm), Hlk. reflexivity.
  - (* SReplay *)
    destruct (w_phase w) as [ |[|e r]| | | | | ] eqn:Ep; try exact HI.
    + rewrite Hwf. apply (inv_local _ _ _ _ w HI Efind); [reflexivity|]. split; [exact Hwf|].
      apply (fresh_same_stream _ _ _ _ _ _ Hfr); [rewrite Ep; discriminate | reflexivity |].
      unfold stream. simpl. rewrite Ep. reflexivity.
    + destruct (w_cancelled w) eqn:Ec; apply (inv_local _ _ _ _ w HI Efind); try reflexivity.
      * apply winv_finish_replay. exact Ec.
      * split; [exact Hwf|].
        apply (fresh_same_stream _ _ _ _ _ _ Hfr); [rewrite Ep; discriminate | reflexivity |].
        unfold stream. simpl. rewrite Ep, <- app_assoc. reflexivity.
  - (* SFwd *)
    destruct (w_phase w) eqn:Ep; try exact HI.
    apply (inv_local _ _ _ _ w HI Efind); [reflexivity|]. split; [exact Hwf|].
    apply (fresh_same_stream _ _ _ _ _ _ Hfr); [rewrite Ep; discriminate | reflexivity |].
    unfold stream. simpl. rewrite Ep, <- app_assoc. reflexivity.
  - (* SCancel *)
    apply (inv_local _ _ _ _ w HI Efind); [reflexivity|]. apply winv_cancelled; [|reflexivity].
    unfold wf_wb. simpl. destruct (w_phase w); try exact Hwf; try reflexivity.
    apply andb_true_iff in Hwf. rewrite (proj2 Hwf). reflexivity.
  - rewrite upd_absent by exact Efind. destruct g; exact HI.
  - (* SClose *)
    destruct (w_phase w); try exact HI. destruct (w_cancelled w) eqn:Ec; [|exact HI].
    apply (inv_local _ _ _ _ w HI Efind); [reflexivity|]. apply winv_cancelled; exact Ec.
  - (* SRegister: a no-op in the real order *)
    destruct (w_phase w) eqn:Ep; try exact HI; [rewrite Hwf; exact HI | discriminate].
Qed.

Lemma inv_run fixed ls : forall g, Inv fixed g -> Inv fixed (wrun fixed false g ls).
Proof.
  induction ls as [|l ls IH]; intros g H; simpl; [exact H|]. apply IH. apply inv_step. exact H.
Qed.

Lemma inv_reachable fixed ls : Inv fixed (wrun fixed false w0 ls).
Proof. apply inv_run. apply inv_w0. Qed.

(* ---------------------------------------------------------------- the property *)
Lemma quiescent_parts g : quiescent g = true ->
  g_queue g = [] /\ g_loop g = LIdle /\ forall w, In w (g_ws g) -> w_cancelled w = false -> w_phase w = WMain.
Proof.
  unfold quiescent. destruct (g_queue g); [|discriminate]. destruct (g_loop g); [|discriminate].
  intro H. repeat split. intros w Hin Hc. rewrite forallb_forall in H. specialize (H w Hin).
  rewrite Hc in H. simpl in H. destruct (w_phase w); try discriminate. reflexivity.
Qed.

Lemma entitled_parts w g k : entitled w g k = true ->
  matches (w_filter w) k = true /\ (w_replay w = true \/ In k (w_since w)).
Proof. unfold entitled. rewrite !andb_true_iff, orb_true_iff, existsb_eqb_in. tauto. Qed.

Lemma inv_never_loses fixed g : Inv fixed g ->
  forall w, In w (g_ws g) -> w_cancelled w = false -> w_phase w <> WReg ->
  forall k v, In (k, v) (g_store g) -> entitled w g k = true ->
  last_for k (stream (g_queue g) (g_loop g) w) = Some v.
Proof.
  intros [Hk _ _ _ Hw] w Hin Hc Hp k v Hkv He. destruct (entitled_parts _ _ _ He) as [Hm Hrs].
  rewrite Forall_forall in Hw. exact (proj2 (Hw w Hin) Hc Hp k v Hm Hrs (lookup_in _ _ _ Hk Hkv)).
Qed.

(* in a quiescent world a watcher that is not cancelled has, as the last event for every record it is
   entitled to, the current version of that record *)
Lemma inv_latest fixed g : Inv fixed g -> quiescent g = true ->
  forall w, In w (g_ws g) -> w_cancelled w = false ->
  forall k v, In (k, v) (g_store g) -> entitled w g k = true -> last_for k (w_delivered w) = Some v.
Proof.
  intros HI Hq w Hin Hc k v Hkv He. destruct (quiescent_parts g Hq) as [Eq [El Hph]].
  pose proof (Hph w Hin Hc) as Ep.
  assert (Hp : w_phase w <> WReg) by (rewrite Ep; discriminate).
  pose proof (inv_never_loses fixed g HI w Hin Hc Hp k v Hkv He) as H.
  unfold stream in H. rewrite Ep, El, Eq in H. simpl in H. rewrite app_nil_r in H. exact H.
Qed.

Lemma inv_watch_ok fixed g : Inv fixed g -> watch_ok g = true.
Proof.
  intro HI. unfold watch_ok. destruct (quiescent g) eqn:Hq; [|reflexivity]. simpl.
  apply forallb_forall. intros w Hin. destruct (w_cancelled w) eqn:Hc; [reflexivity|]. simpl.
  unfold shown_latest. apply forallb_forall. intros [k v] Hkv. simpl.
  destruct (entitled w g k) eqn:He; [|reflexivity]. simpl.
  rewrite (inv_latest fixed g HI Hq w Hin Hc k v Hkv He). apply N.eqb_refl.
Qed.

(* C15_watch_latest, unbounded: every schedule, of any length, any number of writes and watchers, with or
   without replay, all records or one, repaired or unrepaired cancel path *)
Theorem watch_latest : forall fixed ls, watch_ok (wrun fixed false w0 ls) = true.
Proof. intros fixed ls. apply (inv_watch_ok fixed). apply inv_reachable. Qed.

Theorem watch_latest_explicit : forall fixed ls,
  let g := wrun fixed false w0 ls in
  quiescent g = true ->
  forall w, In w (g_ws g) -> w_cancelled w = false ->
  forall k v, In (k, v) (g_store g) -> entitled w g k = true -> last_for k (w_delivered w) = Some v.
Proof. intros fixed ls. cbv zeta. apply (inv_latest fixed). apply inv_reachable. Qed.

(* at EVERY moment (not only at quiescence) the latest version of an entitled record is either the last thing
   shown for it or still on its way to the watcher: nothing is ever lost between store and consumer *)
Theorem watch_never_loses : forall fixed ls,
  let g := wrun fixed false w0 ls in
  forall w, In w (g_ws g) -> w_cancelled w = false -> w_phase w <> WReg ->
  forall k v, In (k, v) (g_store g) -> entitled w g k = true ->
  last_for k (stream (g_queue g) (g_loop g) w) = Some v.
Proof. intros fixed ls. cbv zeta. apply (inv_never_loses fixed). apply inv_reachable. Qed.

(* the hypotheses are not vacuous: a quiescent world with two records, a replaying all-records watcher (which is
   shown the snapshot 1@3, then the older event 1@2 from the loop, then 1@3 again: only the LAST one counts) and a
   live single-record watcher, both served *)
Definition nontrivial_schedule : list label :=
  [SWrite 0; SWrite 1; SOpen 1 None true; SOpen 2 (Some 1) false; SWrite 1; SSnap 1; STake;
   SReplay 1; SReplay 1; SReplay 1; SSend; SFwd 1; STake; SSend; SFwd 1; SSend; SFwd 2; STake; SSend; SFwd 1; SSend; SFwd 2].

Example watch_latest_nontrivial :
  let g := wrun true false w0 nontrivial_schedule in
  quiescent g = true /\
  g_store g = [(0, 1); (1, 3)] /\
  map (fun w => (w_id w, w_cancelled w, w_delivered w)) (g_ws g) =
    [(1, false, [{| ev_key := 0; ev_ver := 1 |}; {| ev_key := 1; ev_ver := 3 |}; {| ev_key := 0; ev_ver := 1 |};
                 {| ev_key := 1; ev_ver := 2 |}; {| ev_key := 1; ev_ver := 3 |}]);
     (2, false, [{| ev_key := 1; ev_ver := 2 |}; {| ev_key := 1; ev_ver := 3 |}])].
Proof. vm_compute. repeat split. Qed.
