(* C15_cancel_isolated for the repaired Watch (fixed = true): whatever happened before - any number of watchers
   cancelled at any point of their replay / select / send - the event loop is never parked for good: from EVERY
   reachable world the internal steps alone (loop, goroutines; no further write, open or cancel) reach quiescence.
   Proof: a measure that every enabled internal step of a well-chosen component decreases.
   Contrast: Proofs/WatchProofs.cancel_isolated_refuted (fixed = false: quiescence is never reached again). *)
From Coq Require Import List NArith Bool Lia PeanoNat.
From OC Require Import Model.Watch Proofs.WatchProofs Proofs.WatchInv.
Import ListNotations.
Open Scope N_scope.

(* steps of the event loop and of the watcher goroutines only *)
Definition internal (l : label) : bool :=
  match l with STake | SSend | SSnap _ | SReplay _ | SFwd _ | SClose _ => true | _ => false end.

(* goroutine steps a watcher still owes before it is back in its select (or drained) *)
Definition cost (n : nat) (w : watcher) : nat :=
  match w_phase w with WReg => S (S n) | WReplay l => S (length l) | WHold _ => 1%nat | _ => 0%nat end.

Fixpoint wsum (n : nat) (ws : list watcher) : nat :=
  match ws with [] => 0%nat | w :: r => (cost n w + wsum n r)%nat end.

Definition tlen (lp : loopst) : nat := match lp with LIdle => 0%nat | LSend _ ts => length ts end.

Definition mu (g : world) : nat :=
  (wsum (length (g_store g)) (g_ws g) + 2 * tlen (g_loop g) + length (g_queue g) * (2 * length (g_ws g) + 1))%nat.

Definition stable (p : wphase) : bool := match p with WMain | WDrained => true | _ => false end.

Lemma wsum_upd n id f ws w : find_w id ws = Some w ->
  (wsum n (upd_w id f ws) + cost n w = wsum n ws + cost n (f w))%nat.
Proof.
  induction ws as [|x r IH]; simpl; [discriminate|].
  destruct (N.eqb (w_id x) id).
  - intro H. inversion H; subst. simpl. lia.
  - intro H. specialize (IH H). simpl. lia.
Qed.

Lemma tlen_after e ts : tlen (after_targets e ts) = length ts.
Proof. destruct ts; reflexivity. Qed.

Lemma listeners_length k ws : (length (listeners k ws) <= length ws)%nat.
Proof.
  unfold listeners. rewrite map_length. induction ws as [|x r IH]; simpl; [lia|].
  destruct (w_registered x && matches (w_filter x) k); simpl; lia.
Qed.

(* the measure after a goroutine step of the watcher found under id *)
Lemma mu_local g id f w : find_w id (g_ws g) = Some w ->
  (cost (length (g_store g)) (f w) < cost (length (g_store g)) w)%nat ->
  (mu (with_ws g (upd_w id f (g_ws g))) < mu g)%nat.
Proof.
  intros Hf Hc. unfold mu. simpl. rewrite upd_length.
  pose proof (wsum_upd (length (g_store g)) id f _ _ Hf) as HS. lia.
Qed.

(* either the world is quiescent or some internal step is enabled and decreases the measure *)
Lemma progress g : Inv true g ->
  quiescent g = true \/ exists l, internal l = true /\ (mu (wstep true false g l) < mu g)%nat.
Proof.
  intros [Hk Hi Hl Hfl Hw]. rewrite Forall_forall in Hw.
  destruct (find (fun w => negb (stable (w_phase w))) (g_ws g)) as [w|] eqn:F.
  - (* a goroutine is out of its select: let it run *)
    right. apply find_some in F. destruct F as [Hin Hst].
    pose proof (find_nodup _ _ Hi Hin) as Hf. destruct (Hw w Hin) as [Hwf _]. unfold wf_wb in Hwf.
    destruct (w_phase w) as [ |pl| |e| | |rp] eqn:Ep; try discriminate.
    + exists (SSnap (w_id w)). split; [reflexivity|]. simpl. rewrite Hf, Ep.
      destruct (w_cancelled w); [destruct (w_filter w)|]; apply (mu_local _ _ _ _ Hf); unfold cost; simpl; rewrite Ep;
        try lia.
      pose proof (snapshot_length (w_filter w) (g_store g)). lia.
    + destruct pl as [|e r].
      * exists (SReplay (w_id w)). split; [reflexivity|]. simpl. rewrite Hf, Ep, Hwf.
        apply (mu_local _ _ _ _ Hf). unfold cost. simpl. rewrite Ep. simpl. lia.
      * exists (SReplay (w_id w)). split; [reflexivity|]. simpl. rewrite Hf, Ep.
        destruct (w_cancelled w); apply (mu_local _ _ _ _ Hf); unfold cost; simpl; rewrite Ep; simpl; lia.
    + exists (SFwd (w_id w)). split; [reflexivity|]. simpl. rewrite Hf, Ep.
      apply (mu_local _ _ _ _ Hf). unfold cost. simpl. rewrite Ep. lia.
    + (* WStuck does not exist in the repaired model *)
      rewrite andb_false_r in Hwf. discriminate.
  - (* every goroutine is in its select or drained: the loop can move *)
    assert (Hst : forall w, In w (g_ws g) -> stable (w_phase w) = true).
    { intros w Hin. pose proof (find_none _ _ F w Hin) as H. simpl in H. destruct (stable (w_phase w)); [reflexivity | discriminate]. }
    destruct (g_loop g) as [|e ts] eqn:El.
    + destruct (g_queue g) as [|e q] eqn:Eq.
      * left. unfold quiescent. rewrite Eq, El. apply forallb_forall. intros w Hin.
        specialize (Hst w Hin). destruct (Hw w Hin) as [Hwf _]. unfold wf_wb in Hwf.
        destruct (w_phase w); try discriminate; simpl.
        -- apply orb_true_r.
        -- rewrite Hwf. reflexivity.
      * right. exists STake. split; [reflexivity|]. simpl. rewrite El, Eq. unfold mu. simpl.
        rewrite El, Eq, tlen_after. simpl.
        pose proof (listeners_length (ev_key e) (g_ws g)). lia.
    + right. simpl in Hl. destruct Hl as [Hne [Hnd Hex]]. destruct ts as [|id rest]; [contradiction|].
      destruct (find_w id (g_ws g)) as [w|] eqn:Hf; [|exfalso; apply (Hex id); [left; reflexivity | exact Hf]].
      destruct (find_in _ _ _ Hf) as [Hin _]. specialize (Hst w Hin).
      exists SSend. split; [reflexivity|]. simpl. rewrite El, Hf.
      destruct (w_phase w) eqn:Ep; try discriminate.
      * unfold mu. simpl. rewrite El, upd_length, tlen_after. simpl.
        pose proof (wsum_upd (length (g_store g)) id (set_phase (WHold e)) _ _ Hf) as HS.
        unfold cost in HS. simpl in HS. rewrite Ep in HS. lia.
      * unfold mu. simpl. rewrite El, tlen_after. simpl. lia.
Qed.

Lemma reach_quiescent : forall n g, Inv true g -> (mu g < n)%nat ->
  exists ls, forallb internal ls = true /\ quiescent (wrun true false g ls) = true.
Proof.
  induction n as [|n IH]; intros g HI Hmu; [lia|].
  destruct (progress g HI) as [Hq | [l [Hint Hdec]]].
  - exists []. split; [reflexivity | exact Hq].
  - destruct (IH (wstep true false g l) (inv_step true g l HI)) as [ls [Hall Hq]]; [lia|].
    exists (l :: ls). split; [simpl; rewrite Hint; exact Hall | exact Hq].
Qed.

(* internal steps write nothing *)
Lemma internal_store fixed g l : internal l = true ->
  g_store (wstep fixed false g l) = g_store g /\ g_clock (wstep fixed false g l) = g_clock g.
Proof.
  destruct l; try discriminate; intros _; simpl;
    repeat match goal with |- context[match ?x with _ => _ end] => destruct x end; split; reflexivity.
Qed.

Lemma internal_run_store fixed ls : forall g, forallb internal ls = true ->
  g_store (wrun fixed false g ls) = g_store g /\ g_clock (wrun fixed false g ls) = g_clock g.
Proof.
  induction ls as [|l ls IH]; intros g H; simpl; [split; reflexivity|].
  simpl in H. apply andb_true_iff in H. destruct H as [Hl Hls].
  destruct (IH (wstep fixed false g l) Hls) as [H1 H2].
  destruct (internal_store fixed g l Hl) as [H3 H4]. split; congruence.
Qed.

(* C15_cancel_isolated: in the repaired model, from every reachable world - however many watchers were
   cancelled, wherever they were - the loop and the goroutines on their own reach a quiescent world with the
   same store, in which (by watch_latest) every watcher that is not cancelled has been shown the latest
   version of every record it is entitled to *)
Theorem cancel_isolated : forall ls,
  let g := wrun true false w0 ls in
  exists ls', forallb internal ls' = true /\
    let g' := wrun true false g ls' in
    quiescent g' = true /\ g_store g' = g_store g /\ g_clock g' = g_clock g /\
    forall w, In w (g_ws g') -> w_cancelled w = false ->
    forall k v, In (k, v) (g_store g') -> entitled w g' k = true -> last_for k (w_delivered w) = Some v.
Proof.
  intros ls. cbv zeta.
  destruct (reach_quiescent (S (mu (wrun true false w0 ls))) _ (inv_reachable true ls)) as [ls' [Hall Hq]]; [lia|].
  exists ls'. split; [exact Hall|].
  destruct (internal_run_store true ls' (wrun true false w0 ls) Hall) as [Hs Hc].
  split; [exact Hq|]. split; [exact Hs|]. split; [exact Hc|].
  apply (inv_latest true); [|exact Hq]. apply inv_run. apply inv_reachable.
Qed.

(* safety form: in the repaired model no goroutine ever ends without a drainer, and the listener the loop is
   waiting for always exists and is either ready to take the event (select / drainer) or has a step of its own *)
Theorem no_dead_listener : forall ls,
  let g := wrun true false w0 ls in
  (forall w, In w (g_ws g) -> w_phase w <> WStuck) /\
  (forall e id rest, g_loop g = LSend e (id :: rest) ->
     exists w, find_w id (g_ws g) = Some w /\ w_phase w <> WStuck /\
       (stable (w_phase w) = true -> g_loop (wstep true false g SSend) = after_targets e rest)).
Proof.
  intros ls. cbv zeta. destruct (inv_reachable true ls) as [Hk Hi Hl Hfl Hw]. rewrite Forall_forall in Hw.
  assert (Hns : forall w, In w (g_ws (wrun true false w0 ls)) -> w_phase w <> WStuck).
  { intros w Hin Ep. destruct (Hw w Hin) as [Hwf _]. unfold wf_wb in Hwf. rewrite Ep, andb_false_r in Hwf. discriminate. }
  split; [exact Hns|].
  intros e id rest El. rewrite El in Hl. destruct Hl as [_ [_ Hex]].
  destruct (find_w id (g_ws (wrun true false w0 ls))) as [w|] eqn:Hf; [|exfalso; apply (Hex id); [left; reflexivity | exact Hf]].
  exists w. destruct (find_in _ _ _ Hf) as [Hin _]. split; [reflexivity|]. split; [exact (Hns w Hin)|].
  intro Hst. simpl. rewrite El, Hf. destruct (w_phase w); try discriminate; reflexivity.
Qed.
