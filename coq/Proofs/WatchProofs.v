(* Proofs about Model/Watch.v *)
From Coq Require Import List NArith Bool Lia.
From OC Require Import Model.Watch.
Import ListNotations.
Open Scope N_scope.

(* ---------------------------------------------------------------- the order of registration and snapshot matters *)
(* hypothetical swapped order (snapshot before the listener is registered): the update that falls between
   the two is never shown - snapshot, write (event dispatched to nobody), register *)
Definition swapped_schedule : list label :=
  [SWrite 0; STake; SOpen 1 None true; SSnap 1; SWrite 0; STake; SRegister 1; SReplay 1; SReplay 1].

Example swapped_order_misses_update :
  let g := wrun true true w0 swapped_schedule in quiescent g = true /\ watch_ok g = false.
Proof. vm_compute. split; reflexivity. Qed.

Example real_order_same_schedule_ok :
  let g := settle true 6 (wrun true false w0 swapped_schedule) in quiescent g = true /\ watch_ok g = true.
Proof. vm_compute. split; reflexivity. Qed.

(* ---------------------------------------------------------------- F-10: cancel during the replay *)
(* watcher 1 replays two records; after the first one a write happens and the event loop takes its event with
   listeners [1; 2]; watcher 1 is cancelled and sees the dead context before its second replayed event *)
Definition f10_schedule : list label :=
  [SWrite 0; SWrite 1; STake; STake; SOpen 1 None true; SOpen 2 None false; SSnap 1; SReplay 1; SWrite 0; STake; SCancel 1; SReplay 1].

Definition innocent_served (g : world) : bool :=
  match find_w 2 (g_ws g) with Some w => negb (w_cancelled w) && shown_latest w g | None => false end.

(* the code before the repair (fixed = false): the loop is parked on the dead listener *)
Example f10_loop_blocked :
  let g := wrun false false w0 f10_schedule in
  g_loop g = LSend {| ev_key := 0; ev_ver := 3 |} [1; 2] /\
  (match find_w 1 (g_ws g) with Some w => w_phase w | None => WMain end) = WStuck.
Proof. vm_compute. split; reflexivity. Qed.

Lemma find_upd id id' f ws : (forall w, w_id (f w) = w_id w) ->
  find_w id (upd_w id' f ws) = if N.eqb id' id then option_map f (find_w id ws) else find_w id ws.
Proof.
  intro Hf. induction ws as [|w r IH]; simpl.
  - destruct (N.eqb id' id); reflexivity.
  - destruct (N.eqb_spec (w_id w) id') as [E|E]; simpl.
    + rewrite Hf. destruct (N.eqb_spec (w_id w) id) as [E2|E2].
      * subst. rewrite N.eqb_refl. reflexivity.
      * destruct (N.eqb_spec id' id); [congruence | reflexivity].
    + destruct (N.eqb_spec (w_id w) id) as [E2|E2].
      * destruct (N.eqb_spec id' id); [congruence | reflexivity].
      * exact IH.
Qed.

Definition parked (g : world) (e : ev) (id : N) (rest : list N) : Prop :=
  g_loop g = LSend e (id :: rest) /\ exists w, find_w id (g_ws g) = Some w /\ w_phase w = WStuck.

Lemma find_map_note k id ws : find_w id (map (note_write k) ws) = option_map (note_write k) (find_w id ws).
Proof. induction ws as [|w r IH]; simpl; [reflexivity|]. destruct (N.eqb (w_id w) id); [reflexivity | exact IH]. Qed.

Lemma find_app id ws w' : find_w id ws <> None -> find_w id (ws ++ [w']) = find_w id ws.
Proof.
  induction ws as [|w r IH]; simpl; [congruence|]. destruct (N.eqb (w_id w) id); [reflexivity | exact IH].
Qed.

(* the labels that belong to the goroutine, or the context, of one watcher *)
Definition actor (l : label) : option N :=
  match l with SSnap i | SReplay i | SFwd i | SCancel i | SClose i | SRegister i => Some i | _ => None end.

(* such a step leaves the world as it is or rewrites that watcher only *)
Lemma actor_step fixed g l i : actor l = Some i ->
  wstep fixed false g l = g \/
  exists f, (forall x, w_id (f x) = w_id x) /\ wstep fixed false g l = with_ws g (upd_w i f (g_ws g)).
Proof.
  destruct l; try discriminate; intros [= ->]; simpl;
    repeat match goal with |- context[match ?x with _ => _ end] => destruct x end;
    first [ left; reflexivity | right; eexists; split; [| reflexivity]; intro; reflexivity ].
Qed.

(* once the loop is parked on a listener whose goroutine has gone without a drainer, NO step of anybody
   ever moves it again: every later event, for every other watcher of the store, stays undelivered *)
Lemma parked_step fixed g e id rest l : parked g e id rest -> parked (wstep fixed false g l) e id rest.
Proof.
  intros [Hloop [w [Hf Hp]]].
  assert (Hsame : parked g e id rest) by (split; [exact Hloop|]; eexists; split; [exact Hf | exact Hp]).
  destruct (actor l) as [i|] eqn:Ea.
  - destruct (N.eqb_spec i id) as [->|Hne].
    + (* the stuck goroutine has no step of its own left; a cancel keeps its phase *)
      destruct l; try discriminate; injection Ea as ->; simpl; rewrite ?Hf, ?Hp; try exact Hsame.
      split; [exact Hloop|]. simpl. rewrite (find_upd id id set_cancelled _ (fun _ => eq_refl)), Hf, N.eqb_refl.
      eexists; split; [reflexivity | exact Hp].
    + destruct (actor_step fixed g l i Ea) as [-> | [f [Hfid ->]]]; [exact Hsame|].
      split; [exact Hloop|]. simpl. rewrite (find_upd id i f _ Hfid).
      destruct (N.eqb_spec i id); [contradiction|]. eexists; split; [exact Hf | exact Hp].
  - destruct l; try discriminate; simpl.
    + (* SWrite *) split; [exact Hloop|]. simpl. rewrite find_map_note, Hf. eexists; split; [reflexivity | exact Hp].
    + (* SOpen *) destruct (find_w id0 (g_ws g)) eqn:E; [exact Hsame|]. split; [exact Hloop|]. simpl.
      rewrite find_app by congruence. eexists; split; [exact Hf | exact Hp].
    + (* STake *) rewrite Hloop. exact Hsame.
    + (* SSend *) rewrite Hloop, Hf, Hp. exact Hsame.
Qed.

Lemma parked_forever fixed ls : forall g e id rest, parked g e id rest -> parked (wrun fixed false g ls) e id rest.
Proof.
  induction ls as [|l ls IH]; intros g e id rest H; simpl; [exact H|].
  apply IH. apply parked_step. exact H.
Qed.

(* C15_cancel_isolated is FALSE for the code before the repair (fixed = false): after the schedule above no continuation whatsoever
   (any steps of any component, any further writes) makes the system quiescent again - the innocent watcher 2
   is never shown version 3 of record 0, nor anything written later *)
Theorem cancel_isolated_refuted :
  forall ls, let g := wrun false false (wrun false false w0 f10_schedule) ls in
  quiescent g = false /\ g_loop g = LSend {| ev_key := 0; ev_ver := 3 |} [1; 2].
Proof.
  intros ls. cbv zeta.
  assert (H : parked (wrun false false w0 f10_schedule) {| ev_key := 0; ev_ver := 3 |} 1 [2]).
  { split; [vm_compute; reflexivity|]. eexists. split; vm_compute; reflexivity. }
  destruct (parked_forever false ls _ _ _ _ H) as [Hl _].
  split; [|exact Hl]. unfold quiescent. rewrite Hl. destruct (g_queue _); reflexivity.
Qed.

(* with the drainer also started on the replay path (repaired code) the same schedule ends with the
   innocent watcher served *)
Example f10_fixed_served :
  let g := settle true 6 (wrun true false w0 f10_schedule) in quiescent g = true /\ innocent_served g = true /\ watch_ok g = true.
Proof. vm_compute. repeat split. Qed.

(* ---------------------------------------------------------------- cancellation touches nobody else *)
(* the two steps that belong to cancelling watcher id (ctx cancel, the ctx.Done branch) leave the store, the
   event stream, the loop and every other watcher exactly as they were *)
Lemma upd_other id f ws w : w_id w <> id -> In w ws -> In w (upd_w id f ws).
Proof.
  intros Hne. induction ws as [|x r IH]; simpl; [tauto|].
  intros [->|Hin].
  - destruct (N.eqb_spec (w_id w) id); [contradiction | left; reflexivity].
  - destruct (N.eqb (w_id x) id); right; [exact Hin | exact (IH Hin)].
Qed.

Theorem cancel_touches_nobody_else : forall fixed g id l, l = SCancel id \/ l = SClose id ->
  let g' := wstep fixed false g l in
  g_store g' = g_store g /\ g_clock g' = g_clock g /\ g_queue g' = g_queue g /\ g_loop g' = g_loop g /\
  forall w, In w (g_ws g) -> w_id w <> id -> In w (g_ws g').
Proof.
  intros fixed g id l Hl. cbv zeta.
  destruct (actor_step fixed g l id) as [-> | [f [_ ->]]]; [destruct Hl as [-> | ->]; reflexivity | repeat split; auto |].
  simpl. repeat split; try reflexivity. intros w Hin Hne. apply upd_other; assumption.
Qed.

(* a drained listener never blocks the loop (repaired and unrepaired code alike once the drainer runs) *)
Theorem drained_listener_never_blocks : forall fixed g e id rest w,
  g_loop g = LSend e (id :: rest) -> find_w id (g_ws g) = Some w -> w_phase w = WDrained ->
  g_loop (wstep fixed false g SSend) = after_targets e rest /\ g_ws (wstep fixed false g SSend) = g_ws g.
Proof.
  intros fixed g e id rest w Hl Hf Hp. simpl. rewrite Hl, Hf, Hp. simpl. split; reflexivity.
Qed.
