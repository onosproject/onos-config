(* Get's filter with wildcards (Model/Wildcard.v: MatchWildcardRegexp as tokens) against the reference query semantics
   of Spec/Gnmi.v (qmatch on element lists):  for a query given as query steps - names, keys, "*" as an element name,
   [k=*], "..." as an element - and written as text the way gNMI paths are printed, the regular expression built from that
   text accepts the text of a path EXACTLY when the query steps match a prefix of the path's steps: wildcards stop at
   path element boundaries, "*" is one whole name or one whole key value, "..." one or more whole elements. *)
From Coq Require Import List NArith Bool Lia.
From OC Require Import Base.Bytes Model.Merge Model.Wildcard Spec.Gnmi
     Proofs.MergeProofs Proofs.TextPathProofs Proofs.WildcardProofs Proofs.PathAbstraction.
Import ListNotations.
Open Scope N_scope.

(* ------------------------------------------------------------------ the matcher, token by token *)
Lemma rmatch_lit_cons c ts e x s : rmatch (RLit c :: ts) e (x :: s) = (x =? c) && rmatch ts e s.
Proof. reflexivity. Qed.
Lemma rmatch_lit_nil c ts e : rmatch (RLit c :: ts) e [] = false.
Proof. reflexivity. Qed.

(* both starred tokens: some prefix over the token's characters is skipped, the rest matches what follows *)
Lemma star_iff (P : N -> bool) (f : str -> bool) s :
  (fix star (s : str) : bool := f s || match s with x :: s' => P x && star s' | [] => false end) s = true <->
  exists a r, s = a ++ r /\ forallb P a = true /\ f r = true.
Proof.
  induction s as [|x s IH].
  - rewrite orb_false_r. split; [intros H; exists [], []; auto|].
    intros (a & r & E & _ & H). symmetry in E. apply app_eq_nil in E as [_ ->]. exact H.
  - rewrite orb_true_iff, andb_true_iff, IH. split.
    + intros [H|(L & a & r & -> & La & H)]; [exists [], (x :: s); auto|].
      exists (x :: a), r. cbn. rewrite L, La. auto.
    + intros ([|y a] & r & E & La & H); cbn in E; [subst r; left; exact H|].
      injection E as <- ->. cbn in La. apply andb_true_iff in La as [L La]. right. split; [exact L|]. exists a, r. auto.
Qed.

Lemma rmatch_lstar_iff ts e s :
  rmatch (RLegalStar :: ts) e s = true <->
  exists a r, s = a ++ r /\ forallb legal_char a = true /\ rmatch ts e r = true.
Proof. exact (star_iff legal_char (rmatch ts e) s). Qed.

Definition nonl (a : str) : bool := forallb (fun x => negb (x =? 10)) a.

Lemma rmatch_astar_iff ts e s :
  rmatch (RAnyStar :: ts) e s = true <->
  exists a r, s = a ++ r /\ nonl a = true /\ rmatch ts e r = true.
Proof. exact (star_iff (fun x => negb (x =? 10)) (rmatch ts e) s). Qed.

(* ------------------------------------------------------------------ the alphabets *)
Lemma legal_char_facts c : legal_char c = true ->
  is_boundary c = false /\ c <> c_slash /\ c <> c_eq /\ c <> c_rbr /\ c <> 10 /\ c <> c_star.
Proof.
  intros L. assert (NL : forall d, legal_char d = false -> c <> d) by (intros d F ->; congruence).
  split; [apply orb_false_iff; split; apply N.eqb_neq, NL; reflexivity|]. repeat split; apply NL; reflexivity.
Qed.

(* the literal characters of a query: those of a path, without the dot (three dots are a wildcard) *)
Definition qchar (c : N) : bool := legal_char c && negb (c =? c_dot).

Lemma qchar_legal c : qchar c = true -> legal_char c = true.
Proof. unfold qchar. rewrite andb_true_iff. tauto. Qed.

Lemma qchar_plain c : qchar c = true -> plain_char c = true.
Proof.
  unfold qchar, plain_char. rewrite andb_true_iff. intros [L D]. rewrite D.
  destruct (legal_char_facts c L) as [_ [_ [_ [_ [_ H]]]]]. apply N.eqb_neq in H. rewrite H. reflexivity.
Qed.

Definition legal (s : str) : Prop := forallb legal_char s = true.
Definition qlegal (s : str) : Prop := forallb qchar s = true.

Lemma legal_in s c : legal s -> In c s -> legal_char c = true.
Proof. unfold legal. rewrite forallb_forall. auto. Qed.

Lemma qlegal_legal s : qlegal s -> legal s.
Proof. unfold qlegal, legal. rewrite !forallb_forall. intros H c HI. apply qchar_legal, H, HI. Qed.

Lemma legal_no_boundary s : legal s -> no_boundary s.
Proof. intros L c HI. apply (legal_char_facts c (legal_in s c L HI)). Qed.

Lemma legal_notin s c : legal s -> legal_char c = false -> ~ In c s.
Proof. intros L F HI. rewrite (legal_in s c L HI) in F. discriminate. Qed.

Lemma legal_no_eq s : legal s -> ~ In c_eq s.
Proof. intros L. apply (legal_notin s c_eq L). reflexivity. Qed.
Lemma legal_no_rbr s : legal s -> ~ In c_rbr s.
Proof. intros L. apply (legal_notin s c_rbr L). reflexivity. Qed.
Lemma legal_no_slash s : legal s -> ~ In c_slash s.
Proof. intros L. apply (legal_notin s c_slash L). reflexivity. Qed.

Lemma legal_nonl s : legal s -> nonl s = true.
Proof.
  unfold legal, nonl. rewrite !forallb_forall. intros H c HI. apply negb_true_iff, N.eqb_neq.
  apply (legal_char_facts c (H c HI)).
Qed.

(* paths whose names, key names and key values are over the characters "*" stands for *)
Definition lstep (s : step) : Prop :=
  match s with
  | SName n => n <> [] /\ legal n
  | SKey k v => legal k /\ legal v
  end.
Definition lpath (p : spath) : Prop := Forall lstep p.

Definition lstepb (s : step) : bool :=
  match s with
  | SName n => negb (eqb_str n []) && forallb legal_char n
  | SKey k v => forallb legal_char k && forallb legal_char v
  end.
Definition lpathb (p : spath) : bool := forallb lstepb p.

Lemma lpathb_ok p : lpathb p = true -> lpath p.
Proof.
  unfold lpathb, lpath. rewrite forallb_forall. intros H. apply Forall_forall. intros s HI. specialize (H s HI).
  destruct s as [n|k v]; cbn in *; apply andb_true_iff in H; destruct H as [H1 H2]; split; auto.
  apply negb_true_iff in H1. apply eqb_str_neq in H1. exact H1.
Qed.

Lemma lstep_wf s : lstep s -> step_wf s.
Proof.
  destruct s as [n|k v]; cbn; intros [H1 H2].
  - split; [exact H1 | apply legal_no_boundary; exact H2].
  - split; [apply legal_no_eq; exact H1 | apply legal_no_rbr; exact H2].
Qed.

Lemma lpath_wf p : lpath p -> spath_wf p.
Proof. apply Forall_impl, lstep_wf. Qed.

Lemma nonl_app a b : nonl (a ++ b) = nonl a && nonl b.
Proof. unfold nonl. apply forallb_app. Qed.

Lemma render_nonl p : lpath p -> nonl (render p) = true.
Proof.
  induction p as [|s p IH]; intros L; [reflexivity|]. inversion L as [|? ? Ls Lp]; subst.
  rewrite render_cons, nonl_app, (IH Lp), andb_true_r.
  destruct s as [n|k v]; cbn [render_step lstep] in *; destruct Ls as [H1 H2].
  - change (nonl (c_slash :: n)) with (nonl n). apply legal_nonl. exact H2.
  - change (nonl (c_lbr :: k ++ c_eq :: v ++ [c_rbr])) with (nonl (k ++ c_eq :: v ++ [c_rbr])).
    rewrite nonl_app. change (nonl (c_eq :: v ++ [c_rbr])) with (nonl (v ++ [c_rbr])). rewrite nonl_app.
    rewrite (legal_nonl k H1), (legal_nonl v H2). reflexivity.
Qed.

(* ------------------------------------------------------------------ every '/' of a path text starts an element *)
Lemma nodelim_app (d : N) (b : str) : forall (R x y : str), ~ In d b -> b ++ R = x ++ d :: y ->
  exists x', x = b ++ x' /\ R = x' ++ d :: y.
Proof.
  induction b as [|c b IH]; intros R x y Hb E; [exists x; auto|].
  destruct x as [|c' x]; cbn in E.
  - injection E as -> _. exfalso. apply Hb. left. reflexivity.
  - injection E as <- E. destruct (IH R x y) as [x' [-> HR]]; [intros HI; apply Hb; right; exact HI | exact E|].
    exists x'. auto.
Qed.

Lemma slash_split p : forall x y, lpath p -> render p = x ++ c_slash :: y ->
  exists pre p', p = pre ++ p' /\ render pre = x /\ render p' = c_slash :: y /\ starts_with_name p' = true.
Proof.
  induction p as [|s p IH]; intros x y L E; [destruct x; discriminate|].
  inversion L as [|? ? Ls Lp]; subst. rewrite render_cons in E.
  destruct x as [|c x].
  - destruct s as [n|k v]; [|cbn in E; discriminate].
    exists [], (SName n :: p). rewrite render_cons. auto.
  - assert (TAIL : forall b, render_step s = c :: b -> ~ In c_slash b ->
                   exists pre p', s :: p = pre ++ p' /\ render pre = c :: x /\ render p' = c_slash :: y /\ starts_with_name p' = true).
    { intros b Es Hb. rewrite Es in E. cbn in E. injection E as E.
      destruct (nodelim_app c_slash b (render p) x y Hb E) as [x' [-> HR]].
      destruct (IH x' y Lp HR) as [pre [p' [-> [H1 [H2 H3]]]]].
      exists (s :: pre), p'. rewrite render_cons, Es, H1. auto. }
    destruct s as [n|k v]; cbn [render_step lstep] in *; destruct Ls as [H1 H2].
    + injection E as <- E. apply (TAIL n eq_refl). apply legal_no_slash. exact H2.
    + injection E as <- E. apply (TAIL _ eq_refl). intros HI. apply in_app_or in HI. destruct HI as [HI|[HI|HI]].
      * apply (legal_no_slash k H1 HI).
      * discriminate.
      * apply in_app_or in HI. destruct HI as [HI|[HI|[]]]; [apply (legal_no_slash v H2 HI) | discriminate].
Qed.

(* ------------------------------------------------------------------ queries as text and as tokens *)
Definition qrender_step (s : qstep) : str :=
  match s with
  | QName n => c_slash :: n
  | QKey k v => c_lbr :: k ++ c_eq :: v ++ [c_rbr]
  | QAnyName => [c_slash; c_star]
  | QAnyKey k => c_lbr :: k ++ [c_eq; c_star; c_rbr]
  | QDeep => [c_slash; c_dot; c_dot; c_dot]
  end.
Definition qrender (q : list qstep) : str := concat (map qrender_step q).

Definition qtoks_step (s : qstep) : list rtok :=
  match s with
  | QName n => RLit c_slash :: map RLit n
  | QKey k v => map RLit (c_lbr :: k ++ c_eq :: v ++ [c_rbr])
  | QAnyName => [RLit c_slash; RLegalStar]
  | QAnyKey k => map RLit (c_lbr :: k ++ [c_eq]) ++ [RLegalStar; RLit c_rbr]
  | QDeep => [RLit c_slash; RAnyStar]
  end.
Definition qtoks (q : list qstep) : list rtok := concat (map qtoks_step q).

Definition qstep_wf (s : qstep) : Prop :=
  match s with
  | QName n => n <> [] /\ qlegal n
  | QKey k v => qlegal k /\ qlegal v
  | QAnyName => True
  | QAnyKey k => qlegal k
  | QDeep => True
  end.

Definition name_like (s : qstep) : bool :=
  match s with QName _ | QAnyName | QDeep => true | _ => false end.

(* "..." stands for whole elements: it is the last step or an element name / wildcard follows *)
Fixpoint deep_ok (q : list qstep) : bool :=
  match q with
  | [] => true
  | QDeep :: q' => match q' with [] => true | y :: _ => name_like y end && deep_ok q'
  | _ :: q' => deep_ok q'
  end.

Definition query_wf (q : list qstep) : Prop := Forall qstep_wf q /\ deep_ok q = true.

Definition qstep_wfb (s : qstep) : bool :=
  match s with
  | QName n => negb (eqb_str n []) && forallb qchar n
  | QKey k v => forallb qchar k && forallb qchar v
  | QAnyName => true
  | QAnyKey k => forallb qchar k
  | QDeep => true
  end.
Definition query_wfb (q : list qstep) : bool := forallb qstep_wfb q && deep_ok q.

Lemma query_wfb_ok q : query_wfb q = true -> query_wf q.
Proof.
  unfold query_wfb, query_wf. rewrite andb_true_iff, forallb_forall. intros [H D]. split; [|exact D].
  apply Forall_forall. intros s HI. specialize (H s HI). destruct s as [n|k v| |k|]; cbn in *; auto.
  - apply andb_true_iff in H. destruct H as [H1 H2]. apply negb_true_iff in H1. apply eqb_str_neq in H1. auto.
  - apply andb_true_iff in H. exact H.
Qed.

Lemma compile_star q : compile_toks (c_star :: q) = RLegalStar :: compile_toks q.
Proof. destruct q as [|c2 [|c3 q3]]; reflexivity. Qed.

Lemma compile_deep q : compile_toks (c_dot :: c_dot :: c_dot :: q) = RAnyStar :: compile_toks q.
Proof. reflexivity. Qed.

Lemma qlegal_plain s : qlegal s -> plain s = true.
Proof. unfold qlegal, plain. rewrite !forallb_forall. intros H c HI. apply qchar_plain, H, HI. Qed.

Lemma plain_cons c s : plain_char c = true -> plain s = true -> plain (c :: s) = true.
Proof. intros H1 H2. cbn. rewrite H1. exact H2. Qed.

Lemma plain_app a b : plain a = true -> plain b = true -> plain (a ++ b) = true.
Proof. unfold plain. intros H1 H2. rewrite forallb_app, H1, H2. reflexivity. Qed.

Lemma compile_qstep s rest : qstep_wf s ->
  compile_toks (qrender_step s ++ rest) = qtoks_step s ++ compile_toks rest.
Proof.
  destruct s as [n|k v| |k|]; cbn [qrender_step qtoks_step qstep_wf].
  - intros [_ Hn]. change ((c_slash :: n) ++ rest) with (c_slash :: (n ++ rest)).
    rewrite compile_plain_cons by reflexivity. rewrite (compile_plain_app n rest (qlegal_plain n Hn)). reflexivity.
  - intros [Hk Hv]. apply compile_plain_app. apply plain_cons; [reflexivity|]. apply plain_app; [apply qlegal_plain; exact Hk|].
    apply plain_cons; [reflexivity|]. apply plain_app; [apply qlegal_plain; exact Hv | reflexivity].
  - intros _. cbn [app]. rewrite compile_plain_cons by reflexivity. rewrite compile_star. reflexivity.
  - intros Hk. change ((c_lbr :: k ++ [c_eq; c_star; c_rbr]) ++ rest) with (c_lbr :: ((k ++ [c_eq; c_star; c_rbr]) ++ rest)).
    rewrite <- app_assoc. change ([c_eq; c_star; c_rbr] ++ rest) with ([c_eq] ++ c_star :: c_rbr :: rest).
    rewrite app_assoc. change (c_lbr :: (k ++ [c_eq]) ++ c_star :: c_rbr :: rest) with ((c_lbr :: k ++ [c_eq]) ++ c_star :: c_rbr :: rest).
    rewrite compile_plain_app.
    + rewrite compile_star, compile_plain_cons by reflexivity. rewrite <- app_assoc. reflexivity.
    + apply plain_cons; [reflexivity|]. apply plain_app; [apply qlegal_plain; exact Hk | reflexivity].
  - intros _. cbn [app]. rewrite compile_plain_cons by reflexivity. rewrite compile_deep. reflexivity.
Qed.

Lemma compile_qrender q : Forall qstep_wf q -> compile_toks (qrender q) = qtoks q.
Proof.
  induction q as [|s q IH]; intros F; [reflexivity|]. inversion F as [|? ? Fs Fq]; subst.
  unfold qrender, qtoks in *. cbn [map concat]. rewrite (compile_qstep s _ Fs), (IH Fq). reflexivity.
Qed.

(* ------------------------------------------------------------------ the end of the expression *)
Fixpoint ends_deep (q : list qstep) : bool :=
  match q with
  | [] => false
  | [s] => match s with QDeep => true | _ => false end
  | _ :: q' => ends_deep q'
  end.

Lemma qrender_last q : q <> [] -> Forall qstep_wf q ->
  exists t c, qrender q = t ++ [c] /\ c <> c_slash /\ (ends_deep q = false -> c <> c_dot).
Proof.
  induction q as [|s q IH]; intros NE F; [congruence|]. inversion F as [|? ? Fs Fq]; subst.
  destruct q as [|s2 q2].
  - unfold qrender. cbn [map concat]. rewrite app_nil_r. destruct s as [n|k v| |k|]; cbn [qrender_step qstep_wf] in *.
    + destruct Fs as [Hn Ln]. destruct (exists_last Hn) as [t [c ->]]. exists (c_slash :: t), c. split; [reflexivity|].
      assert (Q : qchar c = true).
      { unfold qlegal in Ln. rewrite forallb_forall in Ln. apply Ln. apply in_or_app. right. left. reflexivity. }
      unfold qchar in Q. apply andb_true_iff in Q. destruct Q as [L Dt]. apply negb_true_iff, N.eqb_neq in Dt.
      destruct (legal_char_facts c L) as [_ [H _]]. auto.
    + exists (c_lbr :: k ++ c_eq :: v), c_rbr. split; [cbn; rewrite <- app_assoc; reflexivity|]. split; discriminate.
    + exists [c_slash], c_star. split; [reflexivity|]. split; discriminate.
    + exists (c_lbr :: k ++ [c_eq; c_star]), c_rbr. split; [cbn; rewrite <- app_assoc; reflexivity|]. split; discriminate.
    + exists [c_slash; c_dot; c_dot], c_dot. split; [reflexivity|]. split; discriminate.
  - destruct (IH ltac:(discriminate) Fq) as (t & c & E & H).
    exists (qrender_step s ++ t), c. split; [|exact H].
    unfold qrender in *. cbn [map concat] in *. rewrite E, app_assoc. reflexivity.
Qed.

Lemma ends_with_last suf d t c : c <> d -> ends_with (suf ++ [d]) (t ++ [c]) = false.
Proof.
  intros H. destruct (ends_with _ _) eqn:S; [|reflexivity]. apply suffixb_spec in S as [r S].
  rewrite app_assoc in S. apply app_inj_tail in S as [_ S]. congruence.
Qed.

Lemma compile_end_query q : Forall qstep_wf q -> ends_deep q = false -> compile_end (qrender q) false = EndBoundary.
Proof.
  intros F D. destruct q as [|s0 q0]; [reflexivity|].
  destruct (qrender_last (s0 :: q0) ltac:(discriminate) F) as (t & c & E & H1 & H2).
  pose proof (ends_with_last [] c_slash t c H1) as A. pose proof (ends_with_last [c_dot; c_dot] c_dot t c (H2 D)) as Bd.
  cbn [app] in A, Bd. unfold compile_end. rewrite E, A, Bd. reflexivity.
Qed.

(* ------------------------------------------------------------------ "..." in the reference semantics *)
Definition deep_aux (f : spath -> bool) : spath -> bool :=
  fix deep (p : spath) : bool :=
    match p with
    | [] => false
    | _ :: p' => (starts_with_name p' && f p') || deep p'
    end.

Lemma qmatch_deep q' p :
  qmatch (QDeep :: q') p = starts_with_name p && match q' with [] => true | _ => deep_aux (qmatch q') p end.
Proof. destruct q'; reflexivity. Qed.

Lemma deep_aux_iff f p : deep_aux f p = true <->
  exists pre p', pre <> [] /\ p = pre ++ p' /\ starts_with_name p' = true /\ f p' = true.
Proof.
  induction p as [|s p IH]; cbn [deep_aux].
  - split; [discriminate|]. intros [pre [p' [NE [E _]]]]. destruct pre; [congruence | discriminate].
  - change ((fix deep (p0 : spath) : bool := match p0 with [] => false | _ :: p'0 => starts_with_name p'0 && f p'0 || deep p'0 end) p)
      with (deep_aux f p).
    rewrite orb_true_iff, andb_true_iff, IH. split.
    + intros [[H1 H2]|[pre [p' [NE [-> H]]]]].
      * exists [s], p. split; [discriminate|]. auto.
      * exists (s :: pre), p'. split; [discriminate|]. auto.
    + intros [pre [p' [NE [E [H1 H2]]]]]. destruct pre as [|s0 pre]; [congruence|]. cbn in E. injection E as <- ->.
      destruct pre as [|s1 pre]; [left; auto|]. right. exists (s1 :: pre), p'. split; [discriminate|]. auto.
Qed.

(* ------------------------------------------------------------------ the main induction *)
Lemma qtoks_first s : exists c ts, qtoks_step s = RLit c :: ts /\ is_boundary c = true /\ (name_like s = true -> c = c_slash).
Proof.
  destruct s as [n|k v| |k|]; cbn; eexists; eexists; (split; [reflexivity|]); split; try reflexivity; try discriminate.
Qed.

(* the end conditions that can occur with a query: never the exact one; the open one only after a final "..." *)
Definition end_for (e : rend) (q : list qstep) : Prop :=
  e <> EndExact /\ (q <> [] -> e = EndOpen -> ends_deep q = true).

Lemma end_for_tail e s q : end_for e (s :: q) -> end_for e q.
Proof.
  intros [H1 H2]. split; [exact H1|]. intros NE E. specialize (H2 ltac:(discriminate) E).
  destruct q as [|s2 q2]; [congruence|]. destruct s; exact H2.
Qed.

Lemma qtoks_head y q e r : rmatch (qtoks (y :: q)) e r = true ->
  exists c r', r = c :: r' /\ is_boundary c = true /\ (name_like y = true -> c = c_slash).
Proof.
  unfold qtoks. cbn [map concat]. destruct (qtoks_first y) as (c & ts & -> & B & N). cbn [app].
  destruct r as [|x r]; [discriminate|]. rewrite rmatch_lit_cons, andb_true_iff, N.eqb_eq. intros [-> _]. exists c, r. auto.
Qed.

(* what is left after a name or a "*" has been consumed starts at a boundary *)
Lemma rest_bstart e s q r : end_for e (s :: q) -> (match s with QDeep => False | _ => True end) ->
  rmatch (qtoks q) e r = true -> bstart r.
Proof.
  intros [H1 H2] NS H. destruct q as [|y q].
  - cbn in H. destruct e; [congruence | | destruct r; [exact I | exact H]].
    specialize (H2 ltac:(discriminate) eq_refl). destruct s; try discriminate. contradiction.
  - apply qtoks_head in H as (c & r' & -> & B & _). exact B.
Qed.

Lemma strip_prefix_none_head (c x : N) l s : c <> x -> strip_prefix (c :: l) (x :: s) = None.
Proof. intros H. cbn. apply N.eqb_neq in H. rewrite H. reflexivity. Qed.

Lemma lstep_readable s : lstep s -> readable s.
Proof. intros H. apply step_wf_readable, lstep_wf, H. Qed.

(* a step written out in the query must be the path's next step: steps are uniquely readable (step_split) *)
Lemma lit_step_match s t p0 ts e : readable s -> readable t -> (forall r, rmatch ts e r = true -> bstart r) ->
  rmatch (map RLit (render_step s) ++ ts) e (render (t :: p0)) = eqb_step s t && rmatch ts e (render p0).
Proof.
  intros Ws Wt HB. rewrite rmatch_lits_app, render_cons. apply eq_true_iff_eq. rewrite andb_true_iff, eqb_step_eq. split.
  - destruct (strip_prefix _ _) as [r|] eqn:S; [|discriminate]. intros H. apply strip_prefix_some in S.
    destruct (step_split t s (render p0) r Wt Ws (render_bstart p0) (HB r H) S) as [-> ->]. auto.
  - intros [-> H]. rewrite strip_prefix_app. exact H.
Qed.

(* a step with "*" for its name or its key value (mk a: the step with a in that place, written pre ++ a ++ suf):
   the path's next step is such a step, again because steps are uniquely readable *)
Lemma star_step_match (mk : str -> step) pre suf t p0 ts e :
  (forall a, render_step (mk a) = pre ++ a ++ suf) -> (forall a, legal a -> readable (mk a)) -> readable t ->
  (forall r, rmatch ts e r = true -> bstart r) ->
  (rmatch (map RLit pre ++ RLegalStar :: map RLit suf ++ ts) e (render (t :: p0)) = true <->
   exists a, legal a /\ t = mk a /\ rmatch ts e (render p0) = true).
Proof.
  intros Hmk Wmk Wt HB. rewrite rmatch_lits_app, render_cons. split.
  - destruct (strip_prefix _ _) as [r1|] eqn:S; [|discriminate]. apply strip_prefix_some in S. intros H.
    apply rmatch_lstar_iff in H as (a & r & -> & La & H). rewrite rmatch_lits_app in H.
    destruct (strip_prefix suf r) as [r'|] eqn:S2; [|discriminate]. apply strip_prefix_some in S2. subst r.
    assert (S' : render_step t ++ render p0 = render_step (mk a) ++ r') by (rewrite Hmk, <- !app_assoc; exact S).
    destruct (step_split t (mk a) (render p0) r' Wt (Wmk a La) (render_bstart p0) (HB r' H) S') as [-> ->].
    exists a. auto.
  - intros (a & La & -> & H). rewrite Hmk, <- !app_assoc, strip_prefix_app. apply rmatch_lstar_iff.
    exists a, (suf ++ render p0). split; [reflexivity|]. split; [exact La|]. rewrite rmatch_lits_app, strip_prefix_app. exact H.
Qed.

Theorem steps_match q : forall e p, Forall qstep_wf q -> deep_ok q = true -> lpath p -> end_for e q ->
  rmatch (qtoks q) e (render p) = qmatch q p.
Proof.
  induction q as [|s q IH]; intros e p F D L EF.
  - cbn. destruct EF as [H _]. destruct e; [congruence | reflexivity|].
    pose proof (render_bstart p) as B. destruct (render p); [reflexivity | exact B].
  - inversion F as [|? ? Fs Fq]; subst.
    assert (Dq : deep_ok q = true).
    { destruct s; try exact D. cbn [deep_ok] in D. apply andb_true_iff in D. apply D. }
    pose proof (end_for_tail e s q EF) as EFq.
    assert (IHq : forall p0, lpath p0 -> rmatch (qtoks q) e (render p0) = qmatch q p0).
    { intros p0 L0. apply IH; assumption. }
    pose proof (fun NS r => rest_bstart e s q r EF NS) as HB.
    unfold qtoks. cbn [map concat]. fold (qtoks q).
    destruct p as [|t p0]; [destruct s; reflexivity|]. inversion L as [|? ? Ls Lp]; subst.
    destruct s as [m|k v| |k|]; cbn [qtoks_step qstep_wf] in *.
    + (* an element name *)
      destruct Fs as [Nm Lm]. change (RLit c_slash :: map RLit m) with (map RLit (render_step (SName m))).
      rewrite lit_step_match, (IHq p0 Lp);
        [destruct t; reflexivity | apply legal_no_boundary, qlegal_legal, Lm | apply lstep_readable, Ls | exact (HB I)].
    + (* a key with its value *)
      destruct Fs as [Lk Lv]. change (c_lbr :: k ++ c_eq :: v ++ [c_rbr]) with (render_step (SKey k v)).
      rewrite lit_step_match, (IHq p0 Lp); [destruct t; reflexivity | | apply lstep_readable, Ls | exact (HB I)].
      split; [apply legal_no_eq, qlegal_legal, Lk | apply legal_no_rbr, qlegal_legal, Lv].
    + (* "*" as an element name *)
      change ([RLit c_slash; RLegalStar] ++ qtoks q) with (map RLit [c_slash] ++ RLegalStar :: map RLit [] ++ qtoks q).
      apply eq_true_iff_eq.
      rewrite (star_step_match SName [c_slash] [] t p0 (qtoks q) e);
        [| intros a; cbn; rewrite app_nil_r; reflexivity | intros a La; apply legal_no_boundary, La
         | apply lstep_readable, Ls | exact (HB I)].
      split.
      * intros (a & _ & -> & H). cbn. rewrite <- IHq; assumption.
      * destruct t as [n|]; [|discriminate]. cbn. intros H. exists n. split; [apply Ls|].
        split; [reflexivity | rewrite IHq; assumption].
    + (* [k=*] *)
      rename Fs into Lk. rewrite <- app_assoc.
      change ([RLegalStar; RLit c_rbr] ++ qtoks q) with (RLegalStar :: map RLit [c_rbr] ++ qtoks q).
      apply eq_true_iff_eq.
      rewrite (star_step_match (SKey k) (c_lbr :: k ++ [c_eq]) [c_rbr] t p0 (qtoks q) e);
        [| intros a; cbn; rewrite <- app_assoc; reflexivity
         | intros a La; split; [apply legal_no_eq, qlegal_legal, Lk | apply legal_no_rbr, La]
         | apply lstep_readable, Ls | exact (HB I)].
      split.
      * intros (a & _ & -> & H). cbn. rewrite eqb_str_refl. rewrite <- IHq; assumption.
      * destruct t as [|k' v']; [discriminate|]. cbn. rewrite andb_true_iff, eqb_str_eq. intros [<- H].
        exists v'. split; [apply Ls|]. split; [reflexivity | rewrite IHq; assumption].
    + (* "..." *)
      cbn [app]. rewrite qmatch_deep.
      destruct t as [n|k' v']; [|reflexivity].
      cbn [lstep] in Ls. destruct Ls as [Nn Ln]. rewrite render_cons. cbn [render_step app starts_with_name is_name andb].
      rewrite rmatch_lit_cons, N.eqb_refl. cbn [andb].
      apply eq_true_iff_eq. rewrite rmatch_astar_iff.
      destruct q as [|y q2].
      * (* the last step: whatever follows *)
        split; [reflexivity|]. intros _. exists (n ++ render p0), []. rewrite app_nil_r. split; [reflexivity|]. split.
        -- rewrite nonl_app, (legal_nonl n Ln), (render_nonl p0 Lp). reflexivity.
        -- cbn. destruct EF as [H _]. destruct e; [congruence | reflexivity | reflexivity].
      * cbn [deep_ok] in D. apply andb_true_iff in D. destruct D as [NL _].
        rewrite deep_aux_iff. split.
        -- intros [a [r [E [Na H]]]].
           destruct (qtoks_head y q2 e r H) as (c & r' & -> & _ & Hc). specialize (Hc NL). subst c.
           assert (E2 : render (SName n :: p0) = (c_slash :: a) ++ c_slash :: r').
           { rewrite render_cons. cbn [render_step app]. rewrite E. reflexivity. }
           destruct (slash_split (SName n :: p0) (c_slash :: a) r' L E2) as [pre [p' [Ep [R1 [R2 SN]]]]].
           exists pre, p'. split; [intros ->; discriminate|]. split; [exact Ep|]. split; [exact SN|].
           assert (Lp' : lpath p').
           { unfold lpath in *. rewrite Ep in L. apply Forall_app in L. apply L. }
           rewrite <- IHq by exact Lp'. rewrite R2. exact H.
        -- intros [pre [p' [NE [Ep [SN H]]]]]. destruct pre as [|s0 pre]; [congruence|]. cbn in Ep. injection Ep as <- ->.
           assert (Lpre : lpath pre /\ lpath p').
           { unfold lpath in *. apply Forall_app in Lp. exact Lp. }
           destruct Lpre as [Lpre Lp'].
           exists (n ++ render pre), (render p'). split; [rewrite render_app, app_assoc; reflexivity|]. split.
           ++ rewrite nonl_app, (legal_nonl n Ln), (render_nonl pre Lpre). reflexivity.
           ++ rewrite IHq by exact Lp'. exact H.
Qed.

(* ------------------------------------------------------------------ MatchWildcardRegexp on the texts *)
Theorem wildcard_elements q p : query_wf q -> lpath p ->
  match_wildcard (qrender q) false (render p) = qmatch q p.
Proof.
  intros [F D] L. unfold match_wildcard. rewrite (compile_qrender q F). apply steps_match; try assumption.
  split.
  - unfold compile_end. destruct (_ || _); discriminate.
  - intros NE E. destruct (ends_deep q) eqn:ED; [reflexivity|].
    rewrite (compile_end_query q F ED) in E. discriminate.
Qed.

(* Get's filter: exactly the live values whose path the query steps match *)
Theorem get_filter_elements values q : query_wf q ->
  (forall pv, In pv (map snd values) -> exists sp, lpath sp /\ pv_path pv = render sp) ->
  forall pv, In pv (get_filter values (qrender q)) <->
             In pv (map snd values) /\ pv_deleted pv = false /\
             exists sp, lpath sp /\ pv_path pv = render sp /\ qmatch q sp = true.
Proof.
  intros Q HV pv. unfold get_filter. rewrite filter_In, andb_true_iff, negb_true_iff. split.
  - intros [HI [HM HD]]. split; [exact HI|]. split; [exact HD|].
    destruct (HV pv HI) as [sp [L E]]. exists sp. split; [exact L|]. split; [exact E|].
    rewrite E, (wildcard_elements q sp Q L) in HM. exact HM.
  - intros [HI [HD [sp [L [E HM]]]]]. split; [exact HI|]. split; [|exact HD].
    rewrite E, (wildcard_elements q sp Q L). exact HM.
Qed.
