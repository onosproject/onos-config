(* Get's filter for wildcard-free queries: exactly the addressed node and what lies beneath it at path element
   boundaries. *)
From Coq Require Import List NArith Bool.
From OC Require Import Base.Bytes Model.Merge Model.Wildcard Proofs.MergeProofs Proofs.TextPathProofs.
Import ListNotations.
Open Scope N_scope.

Definition plain_char (c : N) : bool := negb (c =? c_star) && negb (c =? c_dot).
Definition plain (q : str) : bool := forallb plain_char q.

Lemma compile_plain_cons c q : plain_char c = true -> compile_toks (c :: q) = RLit c :: compile_toks q.
Proof.
  unfold plain_char. rewrite andb_true_iff, !negb_true_iff. intros [H1 H2].
  destruct q as [|c2 [|c3 q3]]; cbn [compile_toks]; rewrite H1, ?H2; reflexivity.
Qed.

Lemma compile_plain_app l rest : plain l = true -> compile_toks (l ++ rest) = map RLit l ++ compile_toks rest.
Proof.
  induction l as [|c l IH]; intros H; [reflexivity|]. cbn [plain forallb] in H. apply andb_true_iff in H.
  destruct H as [Hc Hl]. cbn [app map]. rewrite (compile_plain_cons c _ Hc), (IH Hl). reflexivity.
Qed.

Lemma rmatch_lits_app l : forall ts e s,
  rmatch (map RLit l ++ ts) e s = match strip_prefix l s with Some r => rmatch ts e r | None => false end.
Proof.
  induction l as [|c l IH]; intros ts e s; [reflexivity|]. cbn [map app strip_prefix].
  destruct s as [|x s]; [reflexivity|]. cbn [rmatch]. rewrite N.eqb_sym.
  destruct (c =? x); cbn [andb]; [apply IH | reflexivity].
Qed.

Lemma strip_prefix_nil_eq q p : strip_prefix q p = Some [] <-> p = q.
Proof.
  split; [intros H; apply strip_prefix_some in H; rewrite app_nil_r in H; exact H|].
  intros ->. rewrite <- (app_nil_r q) at 2. apply strip_prefix_app.
Qed.

(* a wildcard-free query that does not end in "/" selects the node itself and everything strictly beneath it
   at a path element boundary - nothing else (in particular not /a/bc for /a/b) *)
Theorem get_literal_exact q p :
  plain q = true -> q <> [] -> q <> [c_slash] -> ends_with [c_slash] q = false ->
  match_wildcard q false p = eqb_str p q || is_path_below p q.
Proof.
  intros HP H1 H2 HS. unfold match_wildcard, compile_end. rewrite HS.
  assert (HD : ends_with [c_dot; c_dot; c_dot] q = false).
  { destruct (ends_with [c_dot; c_dot; c_dot] q) eqn:E; [|reflexivity]. exfalso.
    unfold ends_with in E. apply suffixb_spec in E. destruct E as [r ->].
    unfold plain in HP. rewrite forallb_app in HP. apply andb_true_iff in HP. destruct HP as [_ HP].
    cbn in HP. discriminate. }
  rewrite HD. cbn [orb]. rewrite <- (app_nil_r q) at 1. rewrite (compile_plain_app q [] HP), rmatch_lits_app.
  rewrite (below_proper p q (conj H1 H2)). cbn [compile_toks rmatch].
  destruct (eqb_str p q) eqn:E.
  - apply eqb_str_eq in E. rewrite (proj2 (strip_prefix_nil_eq q p) E). reflexivity.
  - destruct (strip_prefix q p) as [[|c r]|] eqn:S; try reflexivity.
    apply strip_prefix_nil_eq, eqb_str_eq in S. congruence.
Qed.

(* what Get returns for such a query: the live stored values at or beneath q *)
Theorem get_filter_literal values q :
  plain q = true -> q <> [] -> q <> [c_slash] -> ends_with [c_slash] q = false ->
  get_filter values q =
  filter (fun pv => (eqb_str (pv_path pv) q || is_path_below (pv_path pv) q) && negb (pv_deleted pv)) (map snd values).
Proof.
  intros HP H1 H2 HS. unfold get_filter. apply filter_ext. intros pv.
  rewrite (get_literal_exact q (pv_path pv) HP H1 H2 HS). reflexivity.
Qed.

(* the root query returns every live value whose path starts a path element *)
Lemma get_root_all p : match_wildcard [] false p = match p with [] => true | c :: _ => is_boundary c end.
Proof. reflexivity. Qed.
