(* C01 - A multi-target Set is committed on all of its targets or on none.
   Statements only.  Model: Model/Proto2.v (the v2 transaction / proposal / configuration / mastership /
   connection reconcilers, one invocation = an ordered effect list, a step executes any PREFIX of it, so every
   theorem below quantifies over all change sets, all verdicts and device answers (oracle), all interleavings of
   whole and partial reconcile invocations, and every crash point between two persisted effects).
   The theorems hold for EVERY pure layer (how values are merged is a parameter of the model).

   How the theorems decide the property.  The request's share for target t is proposal (t, i) of transaction i.
   - C01_values_only_by_commit: the stored configuration of a target (c_values, what Get returns) is altered by one
     kind of step only: the Commit of a proposal that is in its Commit phase (COMMITTING, no Apply, no Abort) on top
     of its predecessor, and the new values are exactly commit_merge of the snapshot - for all worlds, no hypothesis.
   - C01_phase_order, C01_agreement, C01_no_mixed: a proposal is in Commit only after its own validation is done and
     only if its transaction is in Commit, which needs the transaction's Validate phase done, which means EVERY
     listed proposal exists and is validated; Commit and Abort never coexist in one transaction.
   - C01_reject_never_commits: if the model of any one target rejects its share (p_validate = FAILED) then no
     proposal of that transaction has a Commit phase, in that world and in every later world (any continuation
     [ls], crashes included); hence by C01_values_only_by_commit no named target's configuration is ever altered
     by it (C05_rejected_never_alters states the combination); once the transaction reconciler has looked
     (t_validate = FAILED) the transaction is FAILED with the failure of a failed proposal and is in its Abort phase.
   - C01_all_or_none_at_fixpoint: when no reconciler has anything left to do (idle), every transaction has either
     all listed proposals COMMITTED or no proposal with a Commit phase at all.
   - C01_forward (monotonicity of every step): the proposal list of a transaction, once set, never changes; the
     details of a proposal and the targets of a transaction never change; phases only move forward
     (absent -> in progress -> done / failed, never back); records and configurations are never deleted.
   VALUE LEVEL, on the executable instance (Model/P2Inst.v over the concrete pure layer Model/P2Pure.v; second part of
   this file).  Worlds are x_run ls for label lists with labels_wfb ls = true (every request a wf_change: unique proper
   keys = paths, no update beneath a delete of the same request - the excluded overlap is the open finding F-14 - and
   values live at leaves) and completes (every reconcile invocation runs to its end; the well-formedness of the stored
   maps, Proofs/P2PureReach*.v reach_inv, is an invariant of exactly those worlds).  [live (view overlay C)] is what
   Get returns for the target (live leaves not beneath a tombstone, sorted by path).
   - C01_commit_contains_change: the commit step of proposal (t, i) of a Change (COMMITTING, on top of its predecessor)
     moves Committed.Index to i, and afterwards the live view of t shows p = v for every update (p, v) of the change
     and nothing at or beneath any deleted path of the change - for every Go-map iteration order (o_order).  No
     hypothesis on the indexes already stored: a stored value that store() skips because it carries the same index
     says the same (idx_compat, part of the invariant).
   - C01_untouched_targets_keep_values: a complete step changes the live view of a target only if it is the commit of
     a proposal of THAT target; C01_other_target_keeps: a step of proposal (t', i) leaves the live view of every other
     target unchanged.
   - C01_committed_value_persists: a live stored value of a target survives every complete step unless the step is
     the commit of a proposal of that target whose values touch its path (hold the path or delete a path above it).
   - C01_all_or_none_values_partial: at a fixed point (no reconciler has anything left to do) of such a run, for every
     transaction EITHER every listed proposal is COMMITTED and the live view of each named target shows every update
     of its share, unless a LATER commit of that target touched the path - that commit step is exhibited as a position
     of the run after the proposal's own commit step ([touched_in]) - OR no proposal of the transaction has a Commit
     phase and no step of any of its proposals, anywhere in the run, altered the live view of any target.
     Named premise: committed_means_merged ls - every proposal that is COMMITTED at the end was
     merged by a commit step of the run that found Committed.Index = PrevIndex (reconcileCommit marks a proposal
     COMMITTED without merging when the index is elsewhere; that this cannot happen is a statement about the cursors).
   - C01_all_or_none_values: the same statement WITHOUT that premise - it is proved for every run of complete
     invocations (Proofs/P2PureAtomicMerged.v: committed_means_merged_holds, through the invariants B_inv - no proposal
     lies strictly between a proposal and its PrevIndex - and J_inv - a proposal that is neither COMMITTED nor aborting
     nor applying has its index above Committed.Index).
     For the deleted paths of a change this theorem states only what holds right after the commit
     (C01_commit_contains_change); their persistence is C01_deleted_path_stays_deleted (end of this file): after the
     commit of a change that deletes d, at the end of any continuation of the run nothing is live at or beneath d unless
     a later commit step of that target - exhibited as a position of the run - carries a live value at or beneath d
     (Proofs/P2PureAtomicDeleted.v: a commit adds to the live view only paths of non-deleted values of its own change).
   What remains partial: "contains all of that request's changes" as a statement about the merged VALUES for every
   pure layer (values = fold of commit_merge along the per-target chain) is not proved; the value-level theorems
   below are about the concrete pure layer and runs of complete invocations.  A committing proposal whose
   configuration's Committed.Index is not its PrevIndex is marked COMMITTED without a merge by the code
   (reconcileCommit); what a committing proposal can find there in a reachable world is C02_commit_guard
   (Committed.Index = PrevIndex, or >= its own index), which is not part of this file.  The answer to the caller (SetResponse) is C08. *)
From stdpp Require Import gmap.
From RecordUpdate Require Import RecordUpdate.
From Coq Require Import NArith.
From OC Require Import Model.Proto2 Proofs.P2Base Proofs.P2Phases Proofs.P2_Order Proofs.P2_OrderStep.
Open Scope N_scope.

Section C01.
  Context {V Ch Req D : Type}.
  Context (candidate : V -> Ch -> V) (candidate_rb : V -> Ch -> V) (rollback_of : V -> Ch -> Ch)
          (overlay : V -> V -> V) (commit_merge : N -> N -> V -> V -> Ch -> V)
          (payload : N -> V -> Ch -> option Req) (record_applied : N -> N -> V -> V -> V -> Ch -> V)
          (touched : N -> V -> Ch -> V) (restore : V -> V -> V)
          (resync_payload : V -> list (option Req)) (doc_ok : V -> bool)
          (dev_apply : D -> Req -> D) (stamp : N -> Ch -> Ch) (v_empty : V) (d_empty : D) (ch_empty : Ch).
  Notation reach := (@reach V Ch Req D candidate candidate_rb rollback_of overlay commit_merge payload record_applied
                            touched restore resync_payload doc_ok dev_apply stamp v_empty d_empty ch_empty).
  Notation step := (@step V Ch Req D candidate candidate_rb rollback_of overlay commit_merge payload record_applied
                          touched restore resync_payload doc_ok dev_apply stamp v_empty d_empty ch_empty).
  Notation reconcile := (@reconcile V Ch Req D candidate candidate_rb rollback_of overlay commit_merge payload record_applied
                                    touched restore resync_payload doc_ok stamp v_empty d_empty ch_empty).

  (* in every reachable world no transaction has one proposal in its Commit phase and another in its Abort phase *)
  Theorem C01_no_mixed : forall (w : @world V Ch Req D) i t t' (P Q : @prop Ch),
    reach w -> props w !! (t, i) = Some P -> props w !! (t', i) = Some Q ->
    ~ (is_Some (p_commit P) /\ is_Some (p_abort Q)).
  Proof. exact (no_mixed_commit_abort candidate candidate_rb rollback_of overlay commit_merge payload record_applied touched restore
                  resync_payload doc_ok dev_apply stamp v_empty d_empty ch_empty). Qed.

  Theorem C01_phase_order : forall (w : @world V Ch Req D) k (P : @prop Ch),
    reach w -> props w !! k = Some P ->
    (is_Some (p_validate P) -> p_init P = Some Done) /\
    (is_Some (p_commit P) -> p_validate P = Some Done) /\
    (is_Some (p_apply P) -> p_commit P = Some Done) /\
    (is_Some (p_abort P) -> p_commit P = None /\ p_apply P = None) /\
    p_commit P <> Some Failed /\ p_abort P <> Some Failed /\
    (p_validate P = Some Failed -> is_Some (p_vfail P)).
  Proof. exact (proposal_phase_order candidate candidate_rb rollback_of overlay commit_merge payload record_applied touched restore
                  resync_payload doc_ok dev_apply stamp v_empty d_empty ch_empty). Qed.

  (* a phase that is done on a transaction is done on every proposal it lists, and every listed proposal exists *)
  Theorem C01_agreement : forall (w : @world V Ch Req D) i (T : @txn Ch) tg t,
    reach w -> txs w !! i = Some T -> t_props T = Some tg -> In t tg ->
    exists P, props w !! (t, i) = Some P /\
      (t_init T = Some Done -> p_init P = Some Done) /\
      (t_validate T = Some Done -> p_validate P = Some Done) /\
      (t_commit T = Some Done -> p_commit P = Some Done) /\
      (t_apply T = Some Done -> p_apply P = Some Done) /\
      (t_abort T = Some Done -> p_abort P = Some Done).
  Proof. exact (tx_prop_agreement candidate candidate_rb rollback_of overlay commit_merge payload record_applied touched restore
                  resync_payload doc_ok dev_apply stamp v_empty d_empty ch_empty). Qed.

  (* every step moves every record forward ([mono], Proofs/P2_Order.v: proposal list, details and targets kept,
     every phase forward in the order absent < in progress < done / failed, nothing deleted) *)
  Theorem C01_forward : forall (w : @world V Ch Req D) l, reach w -> mono w (step w l).
  Proof. exact (step_mono candidate candidate_rb rollback_of overlay commit_merge payload record_applied touched restore
                  resync_payload doc_ok dev_apply stamp v_empty d_empty ch_empty). Qed.

  (* a rejected share: no proposal of the transaction ever has a Commit phase, whatever happens afterwards *)
  Theorem C01_reject_never_commits : forall (w : @world V Ch Req D) t i (P : @prop Ch) (ls : list (@label Ch)),
    reach w -> props w !! (t, i) = Some P -> p_validate P = Some Failed ->
    let w' := fold_left step ls w in
    (forall t' Q, props w' !! (t', i) = Some Q -> p_commit Q = None) /\
    (forall T, txs w' !! i = Some T ->
       t_commit T = None /\
       (t_validate T = Some Failed ->
          t_state T = TFailed /\ is_Some (t_abort T) /\
          exists t0 P0, props w' !! (t0, i) = Some P0 /\ p_validate P0 = Some Failed /\
                        t_failure T = p_vfail P0 /\ is_Some (p_vfail P0))).
  Proof. exact (reject_never_commits candidate candidate_rb rollback_of overlay commit_merge payload record_applied touched restore
                  resync_payload doc_ok dev_apply stamp v_empty d_empty ch_empty). Qed.

  (* single step, no hypothesis on the world: committed values change only by the commit of a committing proposal *)
  Theorem C01_values_only_by_commit : forall (w : @world V Ch Req D) l t (C C' : @config V),
    cfgs w !! t = Some C -> cfgs (step w l) !! t = Some C' -> c_values C' <> c_values C ->
    exists i n o (P : @prop Ch), l = LRec (CtlProp (t, i)) n o /\ props w !! (t, i) = Some P /\
      p_commit P = Some Doing /\ p_apply P = None /\ p_abort P = None /\ c_committed C = p_prev P /\ (0 < n)%nat /\
      c_values C' = commit_merge (o_order o) i (c_values C) (view overlay C) (rb_change ch_empty P).
  Proof. exact (values_only_by_commit candidate candidate_rb rollback_of overlay commit_merge payload record_applied touched restore
                  resync_payload doc_ok dev_apply stamp v_empty d_empty ch_empty). Qed.

  Theorem C01_all_or_none_at_fixpoint : forall (w : @world V Ch Req D),
    reach w -> (forall c o, fst (reconcile o w c) = []) ->
    forall i (T : @txn Ch), txs w !! i = Some T ->
      (forall t, In t (default [] (t_props T)) -> exists P, props w !! (t, i) = Some P /\ p_commit P = Some Done) \/
      (forall t P, props w !! (t, i) = Some P -> p_commit P = None).
  Proof. exact (all_or_none_at_fixpoint candidate candidate_rb rollback_of overlay commit_merge payload record_applied touched restore
                  resync_payload doc_ok dev_apply stamp v_empty d_empty ch_empty). Qed.
End C01.
Print Assumptions C01_no_mixed.
Print Assumptions C01_phase_order.
Print Assumptions C01_agreement.
Print Assumptions C01_forward.
Print Assumptions C01_reject_never_commits.
Print Assumptions C01_values_only_by_commit.
Print Assumptions C01_all_or_none_at_fixpoint.

(** * Value level: the executable instance (Model/P2Inst.v) *)
From OC Require Import Base.Bytes Model.P2Pure Model.P2Inst Proofs.P2_ConvergeEx Proofs.P2PureApplyDefs Proofs.P2PureApplyBase
     Proofs.P2PureApplyInst Proofs.P2PureReachLabels Proofs.P2PureAtomicCommit Proofs.P2PureAtomicFrame Proofs.P2PureAtomicAll.

Theorem C01_commit_contains_change :
  forall (ls : list Label) t i n (o : oracle) (P : Prop2) (C C' : Cfg) c,
  labels_wfb (ls ++ [LRec (CtlProp (t, i)) n o]) = true -> completes p2_init (ls ++ [LRec (CtlProp (t, i)) n o]) ->
  props (x_run ls) !! (t, i) = Some P -> p_details P = PChange c -> cfgs (x_run ls) !! t = Some C ->
  p_commit P = Some Doing -> p_apply P = None -> p_abort P = None -> c_committed C = p_prev P ->
  cfgs (p2_step (x_run ls) (LRec (CtlProp (t, i)) n o)) !! t = Some C' ->
  c_committed C' = i /\
  (forall p u, In (p, u) c -> pv_deleted u = false -> In (p, pv_val u) (live (view overlay C'))) /\
  (forall d u, In (d, u) c -> pv_deleted u = true ->
     forall k x, In (k, x) (live (view overlay C')) -> k <> d /\ ~ Below k d).
Proof. exact commit_contains_change_run. Qed.

Theorem C01_untouched_targets_keep_values :
  forall (ls : list Label) (l : Label) t (C C' : Cfg),
  labels_wfb (ls ++ [l]) = true -> completes p2_init (ls ++ [l]) ->
  cfgs (x_run ls) !! t = Some C -> cfgs (p2_step (x_run ls) l) !! t = Some C' ->
  live (view overlay C') = live (view overlay C) \/
  exists i n o (P : Prop2), l = LRec (CtlProp (t, i)) n o /\ props (x_run ls) !! (t, i) = Some P /\
    p_commit P = Some Doing /\ p_apply P = None /\ p_abort P = None /\ c_committed C = p_prev P /\ (0 < n)%nat.
Proof. exact live_view_frame_run. Qed.

Theorem C01_other_target_keeps :
  forall (ls : list Label) t' i n o t (C C' : Cfg),
  labels_wfb (ls ++ [LRec (CtlProp (t', i)) n o]) = true -> completes p2_init (ls ++ [LRec (CtlProp (t', i)) n o]) -> t' <> t ->
  cfgs (x_run ls) !! t = Some C -> cfgs (p2_step (x_run ls) (LRec (CtlProp (t', i)) n o)) !! t = Some C' ->
  live (view overlay C') = live (view overlay C).
Proof. exact other_target_keeps_run. Qed.

Theorem C01_committed_value_persists :
  forall (ls : list Label) (l : Label) t (C C' : Cfg) p e,
  labels_wfb (ls ++ [l]) = true -> completes p2_init (ls ++ [l]) ->
  cfgs (x_run ls) !! t = Some C -> cfgs (p2_step (x_run ls) l) !! t = Some C' ->
  P2Pure.lookup p (c_values C) = Some e -> pv_deleted e = false ->
  P2Pure.lookup p (c_values C') = Some e \/
  exists i n o (P : Prop2), l = LRec (CtlProp (t, i)) n o /\ props (x_run ls) !! (t, i) = Some P /\
    p_commit P = Some Doing /\ p_apply P = None /\ p_abort P = None /\ c_committed C = p_prev P /\
    touches (rb_change [] P) p.
Proof. exact live_value_persists_run. Qed.

Theorem C01_all_or_none_values_partial :
  forall ls : list Label,
  labels_wfb ls = true -> completes p2_init ls -> (forall c o, fst (p2_reconcile o (x_run ls) c) = []) ->
  committed_means_merged ls ->
  forall i (T : Txn), txs (x_run ls) !! i = Some T ->
    (forall t, In t (default [] (t_props T)) ->
       exists (P : Prop2) (C : Cfg), props (x_run ls) !! (t, i) = Some P /\ p_commit P = Some Done /\ cfgs (x_run ls) !! t = Some C /\
         forall c p u, p_details P = PChange c -> In (p, u) c -> pv_deleted u = false ->
           In (p, pv_val u) (live (view overlay C)) \/
           exists ls1 ls2 n o, ls = ls1 ++ LRec (CtlProp (t, i)) n o :: ls2 /\
                               touched_in (x_run (ls1 ++ [LRec (CtlProp (t, i)) n o])) ls2 t p) \/
    ((forall t P, props (x_run ls) !! (t, i) = Some P -> p_commit P = None) /\
     forall ls1 ls2 t n o t' (C C' : Cfg), ls = ls1 ++ LRec (CtlProp (t, i)) n o :: ls2 ->
       cfgs (x_run ls1) !! t' = Some C -> cfgs (p2_step (x_run ls1) (LRec (CtlProp (t, i)) n o)) !! t' = Some C' ->
       live (view overlay C') = live (view overlay C)).
Proof. exact all_or_none_values_partial. Qed.
Print Assumptions C01_commit_contains_change.
Print Assumptions C01_untouched_targets_keep_values.
Print Assumptions C01_other_target_keeps.
Print Assumptions C01_committed_value_persists.
Print Assumptions C01_all_or_none_values_partial.

(* the premise [committed_means_merged] discharged (Proofs/P2PureAtomicMerged.v): in a run of complete invocations every
   commit step finds Committed.Index = PrevIndex, so every COMMITTED proposal was merged *)
From OC Require Import Proofs.P2PureAtomicMerged.
Theorem C01_all_or_none_values :
  forall ls : list Label,
  labels_wfb ls = true -> completes p2_init ls -> (forall c o, fst (p2_reconcile o (x_run ls) c) = []) ->
  forall i (T : Txn), txs (x_run ls) !! i = Some T ->
    (forall t, In t (default [] (t_props T)) ->
       exists (P : Prop2) (C : Cfg), props (x_run ls) !! (t, i) = Some P /\ p_commit P = Some Done /\ cfgs (x_run ls) !! t = Some C /\
         forall c p u, p_details P = PChange c -> In (p, u) c -> pv_deleted u = false ->
           In (p, pv_val u) (live (view overlay C)) \/
           exists ls1 ls2 n o, ls = ls1 ++ LRec (CtlProp (t, i)) n o :: ls2 /\
                               touched_in (x_run (ls1 ++ [LRec (CtlProp (t, i)) n o])) ls2 t p) \/
    ((forall t P, props (x_run ls) !! (t, i) = Some P -> p_commit P = None) /\
     forall ls1 ls2 t n o t' (C C' : Cfg), ls = ls1 ++ LRec (CtlProp (t, i)) n o :: ls2 ->
       cfgs (x_run ls1) !! t' = Some C -> cfgs (p2_step (x_run ls1) (LRec (CtlProp (t, i)) n o)) !! t' = Some C' ->
       live (view overlay C') = live (view overlay C)).
Proof. exact all_or_none_values. Qed.
Print Assumptions C01_all_or_none_values.

(* deletions persist (Proofs/P2PureAtomicDeleted.v): after the commit step of a Change that deletes path d, at the end
   of every continuation of well-formed labels and complete invocations nothing is live at d or beneath d in what Get
   returns for the target, UNLESS a later commit step of a proposal of the same target (a Change, or a Rollback whose
   values are p_rbvalues) merged values holding a non-deleted value at d or beneath d; that step is exhibited as a
   position of the continuation.  (A commit step adds to the live view only paths of non-deleted values of what it
   merges: commit_adds.) *)
From OC Require Import Proofs.P2PureAtomicDeleted.
Theorem C01_deleted_path_stays_deleted :
  forall (ls1 ls2 : list Label) t i n (o : oracle) (P : Prop2) (C : Cfg) c d u,
  labels_wfb (ls1 ++ LRec (CtlProp (t, i)) n o :: ls2) = true ->
  completes p2_init (ls1 ++ LRec (CtlProp (t, i)) n o :: ls2) ->
  props (x_run ls1) !! (t, i) = Some P -> p_details P = PChange c -> cfgs (x_run ls1) !! t = Some C ->
  p_commit P = Some Doing -> p_apply P = None -> p_abort P = None -> c_committed C = p_prev P ->
  In (d, u) c -> pv_deleted u = true ->
  (exists C' : Cfg, cfgs (x_run (ls1 ++ LRec (CtlProp (t, i)) n o :: ls2)) !! t = Some C' /\
                    forall k x, In (k, x) (live (view overlay C')) -> k <> d /\ ~ Below k d) \/
  (exists ls2a ls2b j n' o' (Q : Prop2),
     ls2 = ls2a ++ LRec (CtlProp (t, j)) n' o' :: ls2b /\
     props (fold_left p2_step ls2a (x_run (ls1 ++ [LRec (CtlProp (t, i)) n o]))) !! (t, j) = Some Q /\
     p_commit Q = Some Doing /\
     exists k v, In (k, v) (rb_change [] Q) /\ pv_deleted v = false /\ (k = d \/ Below k d)).
Proof. exact deleted_path_stays_deleted_run. Qed.
Print Assumptions C01_deleted_path_stays_deleted.
