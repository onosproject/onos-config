(* C04 - A connected device converges to the stored configuration.
   Statements only.  Model: Model/Proto2.v (the v2 transaction / proposal / configuration / mastership / connection
   reconcilers, one invocation = an ordered effect list, a step executes any PREFIX of it).  The theorems of the
   Section hold for EVERY pure layer (how values are merged, what is sent to the device: arguments of the model),
   all worlds, labels and oracles.  The device and the applied values of the configuration (aview = the Atomix map
   c_avalues overlaid on the values inlined in the entry) are compared through an abstraction given as two more
   arguments: abs_dev (what the device holds), abs_app (what an applied-values map stands for);
   agrees w t := the configuration of t exists and abs_dev (device of t) = abs_app (aview).
   The pure layer's own obligations are NAMED predicates of Proofs/P2_Converge.v, each in a pointwise form (X_at: at
   the values one invocation works on - what the run-time monitors check on every observed step of the real code and
   what the Examples of Proofs/P2_ConvergeEx.v establish on the executable instance) and a global form (X := for all
   values).  They appear as hypotheses of the theorems that need them, never as assumptions of the file:
     apply_sound_at, status_sound_at (restore_sound_at, restore_cut_sound_at, inline_sound_at), resync_sound_empty_at,
     resync_sound_same_at, apply_idem_at, resync_total, and commit_apply_agree (only named).

   How the theorems decide the property.
   (a) Frame.  C04_device_changes_only_by_ok_requests, C04_device_state_is_fold, C04_restart_empties: the device of a
       target changes only by LDevRestart or by the OK-answered requests among the executed effects of ONE reconcile
       invocation, and its state afterwards is the fold of dev_apply over exactly those requests, in order.
       C04_not_quiet_cases: such an invocation is the apply of a proposal of that target or the re-push of its
       configuration, with every guard of the code passed (sent_by_apply / sent_by_resync of Proofs/P2_Cursor.v).
   (b) Everything else is quiet.  C04_quiet_invocation / C04_status_updates_keep_agreement: an invocation of ANY
       controller (transaction, configuration when it does not re-push, mastership, connection, proposal
       initialize / validate / commit / abort / refused or transient apply / passing a failed proposal) cut after ANY
       prefix leaves the device untouched and keeps what the applied values stand for - the commit writes the COMMITTED
       map and copies the loaded applied values into the entry (inline_sound_at), a status update stores the loaded
       applied values again (restore_sound_at; restore_cut_sound_at for the cut between map and entry write).
       C04_refused_or_transient_keeps_agreement: whatever the device answers but OK, any controller, any prefix.
       C04_applied_values_change_only: the applied map is only ever written with the loaded applied values again or
       with record_applied of an OK-answered apply: "restricted to the transactions whose apply did not fail".
   (c) C04_apply_keeps_agreement_partial: a complete apply answered OK (the entry write reached, k >= 3) keeps the
       agreement and moves Applied.Index to the proposal.  C04_resync_establishes_agreement_partial: a complete re-push
       answered OK, from an empty device (after a restart) or an agreeing one (connection replaced), establishes the
       agreement with state SYNCHRONIZED and applied term = term; C04_nothing_new_before_resync (every reachable
       world: a proposal change is sent only outside SYNCHRONIZING with applied term = term, a re-push only in
       SYNCHRONIZING) and C04_unsynced_no_apply: in a new term nothing is sent for any proposal before the re-push has
       completed - this is the one entry for "reachable when the change was made" and "connected later" (the guard of
       reconcileApply is the only way to the device).  C04_restart_empties, C04_quiet_keeps_device,
       C04_restart_breaks_only_until_resync: the restart empties the device; while nothing is answered OK it stays
       empty; once the configuration is in a new term (connection replaced: C10_new_term_after_reassign) the world is
       in the domain of the run theorem.
   (d) C04_converged_inv / C04_converged_partial: along ANY run made of environment labels and COMPLETE reconcile
       invocations (crun; the pure-layer obligations hold at the values of each step: pure_ok, implied by the global
       forms through C04_pure_ok_global), started in a reachable world where the device agrees or is empty with the
       configuration not synchronised in its current term (conv), every world whose configuration is SYNCHRONIZED
       with applied term = term satisfies agrees - no restart of that device and no switch of the target to
       "persistent" inside the run (a persistent target is never re-pushed: stated behaviour).  No premise on
       transactions in flight is needed: between two complete invocations the agreement holds even then.
   Instance (Model/P2Pure.v): C04_lagging_delete_converges, C04_overlap_apply_refuted, C04_resync_order_nonwf_refuted
   and the C04_*_P2Pure theorems (the instance meets the obligations for all well-formed values, see (2)) below the Section.  C04_lagging_delete_converges is the scenario of finding F-23 (repaired in /repo, commit 13d170a):
   /a/b = 1 applied; device unreachable; "delete /a" and "/a/c = 3" committed; device back, both applied; connection
   replaced once more.  Before the repair the recording loop of reconcileApply, visiting the tombstone of /a before the
   cascaded tombstone of /a/c, removed the former again (applyChangeToConfig dropped the deleted ancestors of EVERY
   value it set, tombstones included): /a/b stayed live in Applied.Values although the device had deleted it, and the
   next re-push put it back on the device.  With the repair, in every Go map order of the loops: all transactions APPLIED,
   configuration SYNCHRONIZED, device = applied values = committed configuration, before and after the last re-push.

   What remains partial.
   (1) Invocations cut between the device request and the entry write leave the device AHEAD of the record (complete
       = k >= 3 for the apply, the whole list for the re-push).  C04_cut_apply_retry_partial covers the cut right after
       the request: the retry re-sends the same request and restores the agreement under apply_idem_at.  The cut
       after the applied-map write (k = 2) needs in addition that recording the same change twice stands for the same
       (an idempotence obligation on record_applied, not stated); a re-push cut in the middle needs the re-push to be
       restartable (resync from a prefix-pushed device), not stated.  On the instance a cut at k = 2 can leave a live
       value inlined in the entry beneath a tombstone of the map; a re-push in that state depends on the (Go map)
       order of its groups (C04_resync_order_nonwf_refuted) until the retried apply repairs it - a transaction is then
       still in flight, which the property text excludes.
   (2) The pure-layer obligations are premises of the theorems of the Section.  For the executable instance
       (Model/P2Pure.v; abs_dev = sorted device leaves, abs_app = live leaves) they are proved for all values
       (Proofs/P2PureApply{Defs,Base,Sem,Sound,Status,Resync,Inst,Ex}.v) under boolean well-formedness predicates:
         C04_apply_sound_P2Pure        apply_sound_at, every Go map order, every committed view, every device, if
                                       wf_apply inl m ch := wf_pair inl m && wf_change ch && idx_compat m ch
                                       (keys unique / key = path / paths proper in inl, m, ch; no LIVE value beneath a
                                       tombstone in overlay inl m nor in ch - a delete beneath a delete is fine, this is
                                       what a rollback of a re-creation looks like; a stored value and a change value of the
                                       same path and index say the same, because store() skips equal indexes);
         C04_status_sound_P2Pure       restore_sound_at, restore_cut_sound_at, inline_sound_at under wfk inl && wfk m only;
         C04_apply_idem_P2Pure         unconditional (equality of the device lists);
         C04_resync_sound_{empty,same}_P2Pure   under wfk va && no_live_below va; C04_resync_total_P2Pure;
         C04_wf_initial_P2Pure, C04_record_applied_wf_P2Pure, C04_restore_wf_P2Pure, C04_inline_wf_P2Pure: the predicates hold
                                       initially and for what an OK apply / a status update / the commit's inlining leave
                                       behind (store() even leaves NO entry beneath a tombstone);
         C04_apply_keeps_agreement_P2Pure, C04_cut_apply_retry_P2Pure, C04_resync_establishes_agreement_P2Pure,
         C04_pure_ok_P2Pure            the protocol theorems with the instance plugged in: no obligation premise left, only the
                                       well-formedness of the values of the step (wf_apply_at / wf_step);
         C04_converged_P2Pure_partial  the run theorem over crun_wf (wf_step at every step as a premise);
         C04_reach_wf_P2Pure / C04_converged_P2Pure / C04_converged_reach_P2Pure: wf_step is an INVARIANT of every world
                                       reached from the initial world by labels satisfying the boolean labels_wfb (each
                                       northbound change a wf_change; no updated path of the run beneath another updated path
                                       of the same target - values live at leaves) and complete invocations; hence the run
                                       theorem for the instance with NO obligation premise, NO per-step premise and NO start
                                       condition: whenever the configuration of t is SYNCHRONIZED in its current term the
                                       device holds the live leaves of the applied values (device of t not restarted, t not
                                       persistent, as in C04_converged_partial).  The invariant (Proofs/P2PureReachInv.v):
                                       every stored / inlined map has unique proper keys and holds only values carried
                                       verbatim from the stamped change of an existing proposal, or tombstones whose index is
                                       0 or that of a proposal not updating that path - so equal path and index mean equal
                                       content (idx_compat for every proposal); every recorded rollback value set is a
                                       well-formed change (rollback_of specification of Proofs/P2PureRollbackRb.v + leaves);
                                       after every complete invocation no live value lies beneath a tombstone in the stored
                                       committed map, in the loaded view, in the loaded applied values.  Not covered: cut
                                       invocations (C04_restore_cut_wf_refuted is where the pair leaves the domain);
         C04_leaf_hypothesis_needed    the leaf part of labels_wfb cannot be dropped: two well-formed requests and a rollback
                                       end APPLIED / SYNCHRONIZED with the device not holding the applied values (the rollback
                                       values are "delete /a/b + update /a/b/c": the F-14 overlap made by the controller);
         C04_good_run_P2Pure           all premises decided (run_premises) on a non-trivial run in several Go map orders;
         C04_wf_runs_P2Pure            crun_wf is checked step by step (run_ok, sound) on the F-23 scenario in every order and
                                       on a run with cascade, re-creation beneath tombstones, rollback, new term.
       Each hypothesis is needed: C04_overlap_apply_refuted (delete + update of related paths in one change: device-side
       facet of the open finding F-14-C03), C04_apply_sound_live_below_refuted, C04_apply_sound_same_index_refuted,
       C04_resync_live_below_refuted, C04_resync_order_nonwf_refuted.  On the code before the repair of F-23 the obligations FAIL for a
       delete applied with a lagging committed view (the general theorem asks nothing of the view).
   (3) "restricted to the transactions whose apply did not fail" is C04_applied_values_change_only (protocol level);
       that a refused change leaves no trace in the values is restore_sound_at.
   (4) "the stored configuration" of the text is the COMMITTED one; the theorems compare the device with the APPLIED
       values.  That both stand for the same at quiescence (Applied.Index = Committed.Index, no failed apply) is
       the named predicate commit_apply_agree (commit_merge versus record_applied), proved nowhere.
   (5) Nothing applied yet (Applied.Index = 0): the configuration reconciler reports SYNCHRONIZED without a re-push;
       conv carries "Applied.Index = 0 -> the applied values stand for the empty device" as part of the start
       condition (preserved by the run theorem). *)
From stdpp Require Import gmap.
From RecordUpdate Require Import RecordUpdate.
From Coq Require Import NArith.
From OC Require Import Proofs.P2PureApplyDefs Proofs.P2PureApplyInst Proofs.P2PureApplyEx Proofs.P2PureReachRun Proofs.P2PureReachLabels
     Proofs.P2PureReachInit Proofs.P2PureReachEx.
From OC Require Import Base.Bytes Model.P2Pure Model.Proto2 Model.P2Inst Proofs.P2Base Proofs.P2_Cursor Proofs.P2_Term Proofs.P2_Converge
     Proofs.P2_ConvergeEx.
Open Scope N_scope.

Section C04.
  Context {V Ch Req D : Type}.
  Context (candidate : V -> Ch -> V) (candidate_rb : V -> Ch -> V) (rollback_of : V -> Ch -> Ch)
          (overlay : V -> V -> V) (commit_merge : N -> N -> V -> V -> Ch -> V)
          (payload : N -> V -> Ch -> option Req) (record_applied : N -> N -> V -> V -> V -> Ch -> V)
          (touched : N -> V -> Ch -> V) (restore : V -> V -> V)
          (resync_payload : V -> list (option Req)) (doc_ok : V -> bool)
          (dev_apply : D -> Req -> D) (stamp : N -> Ch -> Ch) (v_empty : V) (d_empty : D) (ch_empty : Ch).
  Context {A : Type} (abs_dev : D -> A) (abs_app : V -> A).
  Notation world := (@world V Ch Req D).
  Notation config := (@config V).
  Notation prop := (@prop Ch).
  Notation label := (@label Ch).
  Notation reach := (@reach V Ch Req D candidate candidate_rb rollback_of overlay commit_merge payload record_applied
                            touched restore resync_payload doc_ok dev_apply stamp v_empty d_empty ch_empty).
  Notation step := (@step V Ch Req D candidate candidate_rb rollback_of overlay commit_merge payload record_applied
                          touched restore resync_payload doc_ok dev_apply stamp v_empty d_empty ch_empty).
  Notation reconcile := (@reconcile V Ch Req D candidate candidate_rb rollback_of overlay commit_merge payload record_applied
                                    touched restore resync_payload doc_ok stamp v_empty d_empty ch_empty).
  Notation rec_prop := (@rec_prop V Ch Req D candidate candidate_rb rollback_of overlay commit_merge payload record_applied
                                  touched restore doc_ok v_empty d_empty ch_empty).
  Notation view := (@view V overlay).
  Notation aview := (@aview V overlay).
  Notation dev_answer := (@dev_answer V Ch Req D d_empty).
  Notation rb_change := (@rb_change Ch ch_empty).
  Notation dstate_of := (@dstate_of V Ch Req D d_empty).
  Notation ok_reqs := (@ok_reqs V Ch Req).
  Notation agrees := (@agrees V Ch Req D overlay d_empty A abs_dev abs_app).
  Notation conv := (@conv V Ch Req D overlay d_empty A abs_dev abs_app).
  Notation sent_by_apply := (@sent_by_apply V Ch Req D overlay payload d_empty ch_empty).
  Notation sent_by_resync := (@sent_by_resync V Ch Req D overlay resync_payload d_empty).
  Notation apply_sound_at := (apply_sound_at overlay payload record_applied dev_apply v_empty abs_dev abs_app).
  Notation status_sound_at := (status_sound_at overlay restore v_empty abs_app).
  Notation restore_sound_at := (restore_sound_at overlay restore v_empty abs_app).
  Notation resync_sound_empty_at := (resync_sound_empty_at resync_payload dev_apply d_empty abs_dev abs_app).
  Notation resync_sound_same_at := (resync_sound_same_at resync_payload dev_apply abs_dev abs_app).
  Notation apply_idem_at := (apply_idem_at dev_apply abs_dev).
  Notation loaded := (loaded overlay v_empty).
  Notation crun := (crun candidate candidate_rb rollback_of overlay commit_merge payload record_applied touched restore
                         resync_payload doc_ok dev_apply stamp v_empty d_empty ch_empty abs_dev abs_app).
  Notation pure_ok := (pure_ok overlay payload record_applied restore resync_payload dev_apply v_empty d_empty ch_empty abs_dev abs_app).
  Notation avalues_written := (avalues_written overlay record_applied restore d_empty ch_empty).

  (** (a) frame *)
  Theorem C04_device_changes_only_by_ok_requests : forall (w : world) (l : label) t,
    devs (step w l) !! t <> devs w !! t ->
    l = LDevRestart t \/ exists c k o, l = LRec c k o /\ ok_reqs t (firstn k (fst (reconcile o w c))) <> [].
  Proof. exact (device_changes_only_by_ok_requests candidate candidate_rb rollback_of overlay commit_merge payload record_applied
                  touched restore resync_payload doc_ok dev_apply stamp v_empty d_empty ch_empty). Qed.

  Theorem C04_device_state_is_fold : forall (w : world) c k o t,
    dstate_of (step w (LRec c k o)) t = fold_left dev_apply (ok_reqs t (firstn k (fst (reconcile o w c)))) (dstate_of w t).
  Proof. exact (device_state_after_invocation candidate candidate_rb rollback_of overlay commit_merge payload record_applied
                  touched restore resync_payload doc_ok dev_apply stamp v_empty d_empty ch_empty). Qed.

  Theorem C04_restart_empties : forall (w : world) t, dstate_of (step w (LDevRestart t)) t = d_empty.
  Proof. exact (restart_empties candidate candidate_rb rollback_of overlay commit_merge payload record_applied
                  touched restore resync_payload doc_ok dev_apply stamp v_empty d_empty ch_empty). Qed.

  Theorem C04_not_quiet_cases : forall (o : oracle) (w : world) c t,
    ok_reqs t (fst (reconcile o w c)) <> [] ->
    (exists i m term r, c = CtlProp (t, i) /\ sent_by_apply w o t i m term r COk) \/
    (exists m term r, c = CtlCfg t /\ sent_by_resync w o t m term r COk).
  Proof. exact (not_quiet_cases candidate candidate_rb rollback_of overlay commit_merge payload record_applied
                  touched restore resync_payload doc_ok stamp v_empty d_empty ch_empty). Qed.

  (** (b) quiet invocations, every prefix *)
  Theorem C04_quiet_invocation : forall (w : world) c k o t (C : config),
    status_sound_at (pair_of C) -> cfgs w !! t = Some C -> ok_reqs t (fst (reconcile o w c)) = [] ->
    devs (step w (LRec c k o)) !! t = devs w !! t /\
    exists C', cfgs (step w (LRec c k o)) !! t = Some C' /\ abs_app (aview C') = abs_app (aview C).
  Proof. exact (quiet_invocation candidate candidate_rb rollback_of overlay commit_merge payload record_applied
                  touched restore resync_payload doc_ok dev_apply stamp v_empty d_empty ch_empty abs_app). Qed.

  Theorem C04_status_updates_keep_agreement : forall (w : world) c k o t,
    (forall C, cfgs w !! t = Some C -> status_sound_at (pair_of C)) ->
    ok_reqs t (fst (reconcile o w c)) = [] -> agrees w t -> agrees (step w (LRec c k o)) t.
  Proof. exact (quiet_keeps_agreement candidate candidate_rb rollback_of overlay commit_merge payload record_applied
                  touched restore resync_payload doc_ok dev_apply stamp v_empty d_empty ch_empty abs_dev abs_app). Qed.

  Theorem C04_refused_or_transient_keeps_agreement : forall (w : world) c k o t,
    (forall C, cfgs w !! t = Some C -> status_sound_at (pair_of C)) ->
    (forall C, cfgs w !! t = Some C -> dev_answer w t (c_term C) o <> COk) ->
    agrees w t ->
    agrees (step w (LRec c k o)) t /\ devs (step w (LRec c k o)) !! t = devs w !! t.
  Proof. exact (refused_keeps_agreement candidate candidate_rb rollback_of overlay commit_merge payload record_applied
                  touched restore resync_payload doc_ok dev_apply stamp v_empty d_empty ch_empty abs_dev abs_app). Qed.

  Theorem C04_applied_values_change_only : forall (w : world) (l : label) t (C C' : config),
    cfgs w !! t = Some C -> cfgs (step w l) !! t = Some C' -> c_avalues C' <> c_avalues C ->
    exists c k o, l = LRec c k o /\ avalues_written o w c t C (c_avalues C').
  Proof. exact (avalues_change_only candidate candidate_rb rollback_of overlay commit_merge payload record_applied
                  touched restore resync_payload doc_ok dev_apply stamp v_empty d_empty ch_empty abs_dev abs_app). Qed.

  (** (c) apply, re-push, restart *)
  Theorem C04_apply_keeps_agreement_partial : forall (o : oracle) (w : world) t i m term r (k : nat),
    (forall (C : config) (P : prop), cfgs w !! t = Some C -> props w !! (t, i) = Some P ->
       apply_sound_at (o_order o) i (c_ainline C) (c_avalues C) (view C) (rb_change P) r (dstate_of w t)) ->
    sent_by_apply w o t i m term r COk -> (3 <= k)%nat -> agrees w t ->
    let w' := step w (LRec (CtlProp (t, i)) k o) in
    agrees w' t /\ dstate_of w' t = dev_apply (dstate_of w t) r /\
    exists (C : config) (P : prop) (C' : config), cfgs w !! t = Some C /\ props w !! (t, i) = Some P /\
      cfgs w' !! t = Some C' /\ c_applied C' = i /\ c_applied C < i /\
      aview C' = loaded (record_applied (o_order o) i (c_avalues C) (aview C) (view C) (rb_change P)) /\
      c_state C' = c_state C /\ c_aterm C' = c_aterm C /\ c_term C' = c_term C.
  Proof. exact (apply_keeps_agreement candidate candidate_rb rollback_of overlay commit_merge payload record_applied
                  touched restore resync_payload doc_ok dev_apply stamp v_empty d_empty ch_empty abs_dev abs_app). Qed.

  Theorem C04_cut_apply_retry_partial : forall (o o' : oracle) (w : world) t i m term r (k' : nat),
    (forall (C : config) (P : prop), cfgs w !! t = Some C -> props w !! (t, i) = Some P ->
       apply_sound_at (o_order o') i (c_ainline C) (c_avalues C) (view C) (rb_change P) r (dstate_of w t)) ->
    apply_idem_at (dstate_of w t) r -> agrees w t -> sent_by_apply w o t i m term r COk ->
    let w1 := step w (LRec (CtlProp (t, i)) 1 o) in
    dstate_of w1 t = dev_apply (dstate_of w t) r /\ cfgs w1 = cfgs w /\
    (dev_answer w1 t term o' = COk -> (3 <= k')%nat ->
     sent_by_apply w1 o' t i m term r COk /\ agrees (step w1 (LRec (CtlProp (t, i)) k' o')) t).
  Proof. exact (cut_apply_retry candidate candidate_rb rollback_of overlay commit_merge payload record_applied
                  touched restore resync_payload doc_ok dev_apply stamp v_empty d_empty ch_empty abs_dev abs_app). Qed.

  Theorem C04_resync_establishes_agreement_partial :
    forall (o : oracle) (w : world) t m term r (rs : list Req) (k : nat) (C : config),
    restore_sound_at (c_ainline C) (c_avalues C) -> sent_by_resync w o t m term r COk -> cfgs w !! t = Some C ->
    resync_payload (aview C) = map Some rs -> (length rs + 2 <= k)%nat ->
    (resync_sound_empty_at (aview C) rs /\ dstate_of w t = d_empty) \/
    (resync_sound_same_at (aview C) rs (dstate_of w t) /\ agrees w t) ->
    let w' := step w (LRec (CtlCfg t) k o) in
    agrees w' t /\ dstate_of w' t = fold_left dev_apply rs (dstate_of w t) /\
    exists C', cfgs w' !! t = Some C' /\ c_state C' = CSynchronized /\ c_aterm C' = c_term C' /\ c_term C' = c_term C /\
               c_applied C' = c_applied C /\ c_applied C <> 0 /\ abs_app (aview C') = abs_app (aview C).
  Proof. exact (resync_establishes_agreement candidate candidate_rb rollback_of overlay commit_merge payload record_applied
                  touched restore resync_payload doc_ok dev_apply stamp v_empty d_empty ch_empty abs_dev abs_app). Qed.

  Theorem C04_nothing_new_before_resync : forall (w : world) (l : label) evs t m term og r a,
    reach w -> devlog (step w l) = devlog w ++ evs -> In (DevSet t m term og r a) evs ->
    exists C, cfgs w !! t = Some C /\
      match og with
      | Some i => c_state C <> CSynchronizing /\ c_aterm C = c_term C /\ exists k o, l = LRec (CtlProp (t, i)) k o
      | None => c_state C = CSynchronizing /\ exists k o, l = LRec (CtlCfg t) k o
      end.
  Proof. exact (no_change_before_resync candidate candidate_rb rollback_of overlay commit_merge payload record_applied
                  touched restore resync_payload doc_ok dev_apply stamp v_empty d_empty ch_empty). Qed.

  Theorem C04_unsynced_no_apply : forall (o : oracle) (w : world) k t (C : config),
    cfgs w !! t = Some C -> unsynced C -> ok_reqs t (fst (rec_prop o w k)) = [].
  Proof. exact (unsynced_no_apply candidate candidate_rb rollback_of overlay commit_merge payload record_applied
                  touched restore resync_payload doc_ok stamp v_empty d_empty ch_empty). Qed.

  Theorem C04_quiet_keeps_device : forall (w : world) c k o t,
    ok_reqs t (fst (reconcile o w c)) = [] -> dstate_of (step w (LRec c k o)) t = dstate_of w t.
  Proof. exact (quiet_keeps_device candidate candidate_rb rollback_of overlay commit_merge payload record_applied
                  touched restore resync_payload doc_ok dev_apply stamp v_empty d_empty ch_empty). Qed.

  Theorem C04_restart_breaks_only_until_resync : forall (w : world) t (C : config),
    cfgs w !! t = Some C -> targets w !! t <> Some true -> (c_applied C = 0 -> abs_app (aview C) = abs_dev d_empty) ->
    unsynced C -> conv (step w (LDevRestart t)) t.
  Proof. exact (restart_then_resync candidate candidate_rb rollback_of overlay commit_merge payload record_applied
                  touched restore resync_payload doc_ok dev_apply stamp v_empty d_empty ch_empty abs_dev abs_app). Qed.

  (** (d) runs of complete invocations *)
  Theorem C04_pure_ok_global : forall (w : world) t (l : label),
    status_sound overlay restore v_empty abs_app -> apply_sound overlay payload record_applied dev_apply v_empty abs_dev abs_app ->
    resync_sound_empty resync_payload dev_apply d_empty abs_dev abs_app -> resync_sound_same resync_payload dev_apply abs_dev abs_app ->
    resync_total resync_payload -> pure_ok w t l.
  Proof. exact (pure_ok_global overlay payload record_applied restore resync_payload dev_apply v_empty d_empty ch_empty abs_dev abs_app). Qed.

  Theorem C04_converged_inv : forall (w w' : world) t, reach w -> conv w t -> crun t w w' -> reach w' /\ conv w' t.
  Proof. exact (converged candidate candidate_rb rollback_of overlay commit_merge payload record_applied
                  touched restore resync_payload doc_ok dev_apply stamp v_empty d_empty ch_empty abs_dev abs_app). Qed.

  Theorem C04_converged_partial : forall (w w' : world) t (C' : config),
    reach w -> conv w t -> crun t w w' ->
    cfgs w' !! t = Some C' -> c_state C' = CSynchronized -> c_aterm C' = c_term C' -> agrees w' t.
  Proof. exact (converged_synchronized candidate candidate_rb rollback_of overlay commit_merge payload record_applied
                  touched restore resync_payload doc_ok dev_apply stamp v_empty d_empty ch_empty abs_dev abs_app). Qed.
End C04.

(** the executable instance: the F-23 scenario, and two values outside the well-formed ones where an obligation fails *)
Theorem C04_lagging_delete_converges :
  Forall (fun ord =>
    lag_summary (x_run (l_lag_b (x_oracle_ord ord))) =
      ([(1, TApplied); (3, TApplied); (2, TApplied)],
       [(3, 3, CSynchronized, 2, 2, [(B "/a/c", B "3")], [(B "/a/c", B "3")])], [[(B "/a/c", B "3")]]) /\
    @agrees cmap cmap req dstate overlay nil _ abs_dev_i abs_app_i (x_run (l_lag_b (x_oracle_ord ord))) 1 /\
    lag_summary (x_run (l_lag_c (x_oracle_ord ord))) =
      ([(1, TApplied); (3, TApplied); (2, TApplied)],
       [(3, 3, CSynchronized, 3, 3, [(B "/a/c", B "3")], [(B "/a/c", B "3")])], [[(B "/a/c", B "3")]]) /\
    @agrees cmap cmap req dstate overlay nil _ abs_dev_i abs_app_i (x_run (l_lag_c (x_oracle_ord ord))) 1) ords6.
Proof. exact lagging_delete_converges. Qed.

Theorem C04_overlap_apply_refuted :
  wf_change ch_overlap = false /\
  payload 2 [] ch_overlap = Some (mkReq [B "/a"] []) /\ payload 2 [] (rev ch_overlap) = Some (mkReq [B "/a"] []) /\
  abs_dev_i [] = abs_app_i (overlay [] []) /\
  abs_dev_i (dev_apply [] (mkReq [B "/a"] [])) = [] /\
  map (fun ord => abs_app_i (loaded overlay nil (record_applied ord 2 [] (overlay [] []) [] ch_overlap))) [0; 1; 2; 3] =
    [[(B "/a/b", B "1")]; []; []; [(B "/a/b", B "1")]] /\
  ~ apply_sound_at overlay payload record_applied dev_apply nil abs_dev_i abs_app_i 0 2 [] [] [] ch_overlap (mkReq [B "/a"] []) [].
Proof. exact apply_sound_overlap_refuted. Qed.

Theorem C04_resync_order_nonwf_refuted : exists r1 r2,
  resync_payload va_nonwf = [Some r1; Some r2] /\ wf_applied va_nonwf = false /\ abs_app_i va_nonwf = [] /\
  abs_dev_i (fold_left dev_apply [r1; r2] []) = [] /\
  abs_dev_i (fold_left dev_apply [r2; r1] []) = [(B "/a/b", B "1")].
Proof. exact resync_order_matters_nonwf. Qed.


(** the executable instance MEETS the pure-layer obligations: proved for ALL values satisfying the boolean
    well-formedness predicates of Proofs/P2PureApplyDefs.v (proofs: Proofs/P2PureApply{Base,Sem,Sound,Status,Resync,Inst}.v)
      wfk m          keys unique, key = path of the value, path neither "" nor "/"
      no_live_below  no LIVE value beneath a tombstone
      wf_pair inl m  := wfk inl && wfk m && no_live_below (overlay inl m)      (inlined applied values, stored applied map)
      wf_change ch   := wfk ch && no_live_below ch                             (no delete + update of related paths: F-14)
      idx_compat m ch   a stored value and a change value of the same path and index say the same
      wf_apply inl m ch := wf_pair inl m && wf_change ch && idx_compat m ch    (NOTHING is asked of the committed view)
    every Go map order [ord], every committed view [vw], every device state *)
Theorem C04_apply_sound_P2Pure : forall ord i inl m vw ch req d,
  wf_apply inl m ch = true ->
  apply_sound_at overlay payload record_applied dev_apply nil abs_dev_i abs_app_i ord i inl m vw ch req d.
Proof. exact P2PureApplyInst.apply_sound_inst. Qed.

Theorem C04_status_sound_P2Pure : forall p : cmap * cmap,
  wfk p.1 = true -> wfk p.2 = true -> status_sound_at overlay restore nil abs_app_i p.
Proof. exact P2PureApplyInst.status_sound_inst. Qed.

(* for every device state and every request, as lists *)
Theorem C04_apply_idem_P2Pure : forall d req, apply_idem_at dev_apply abs_dev_i d req.
Proof. exact P2PureApplyInst.apply_idem_inst. Qed.

Theorem C04_resync_sound_empty_P2Pure : forall va reqs,
  wfk va = true -> no_live_below va = true -> resync_sound_empty_at resync_payload dev_apply nil abs_dev_i abs_app_i va reqs.
Proof. exact P2PureApplyInst.resync_sound_empty_inst. Qed.

Theorem C04_resync_sound_same_P2Pure : forall va reqs d,
  wfk va = true -> no_live_below va = true -> resync_sound_same_at resync_payload dev_apply abs_dev_i abs_app_i va reqs d.
Proof. exact P2PureApplyInst.resync_sound_same_inst. Qed.

Theorem C04_resync_total_P2Pure : resync_total resync_payload.
Proof. exact P2PureApplyResync.resync_total_P2Pure. Qed.

(* the predicates hold initially and are preserved by what the complete invocations store on the applied side: the record
   of an OK apply (entry written: inline values cleared), a status update (entry written), the commit's inlining;
   what store() leaves behind holds no entry at all beneath a tombstone *)
Theorem C04_wf_initial_P2Pure : wf_pair [] [] = true /\ wf_apply [] [] [] = true.
Proof. exact P2PureApplyInst.wf_initial. Qed.

Theorem C04_record_applied_wf_P2Pure : forall ord i inl m vw ch,
  wf_apply inl m ch = true ->
  wf_pair [] (record_applied ord i m (overlay inl m) vw ch) = true /\
  no_entry_below (record_applied ord i m (overlay inl m) vw ch) = true.
Proof. exact P2PureApplySound.record_applied_wf. Qed.

Theorem C04_restore_wf_P2Pure : forall inl m, wfk inl = true -> wfk m = true ->
  wf_pair [] (restore m (overlay inl m)) = true /\ no_entry_below (restore m (overlay inl m)) = true /\
  wfk (restore m (overlay inl m)) = true.
Proof. exact P2PureApplyStatus.restore_wf. Qed.

Theorem C04_inline_wf_P2Pure : forall inl m, wf_pair inl m = true -> wf_pair (overlay inl m) m = true.
Proof. exact P2PureApplyStatus.inline_wf. Qed.

(* NOT preserved: the pair between the map write and the entry write of a status update (wfk stays, no_live_below can go:
   an inlined live value whose stored counterpart was a tombstone beneath a tombstone comes back through the overlay);
   what the pair stands for is unchanged there (restore_cut_sound) *)
Theorem C04_restore_cut_wf_refuted :
  wf_pair P2PureApplyStatus.cut_inl P2PureApplyStatus.cut_m = true /\ wf_pair P2PureApplyStatus.cut_inl (restore P2PureApplyStatus.cut_m (overlay P2PureApplyStatus.cut_inl P2PureApplyStatus.cut_m)) = false /\
  P2PureApplyDefs.abs_app (overlay P2PureApplyStatus.cut_inl (restore P2PureApplyStatus.cut_m (overlay P2PureApplyStatus.cut_inl P2PureApplyStatus.cut_m))) = P2PureApplyDefs.abs_app (overlay P2PureApplyStatus.cut_inl P2PureApplyStatus.cut_m).
Proof. exact P2PureApplyStatus.restore_cut_wf_refuted. Qed.

(* each hypothesis of wf_apply / of the re-push is needed *)
Theorem C04_apply_sound_live_below_refuted :
  wf_pair [] nlb_m = false /\ wfk nlb_m = true /\ P2PureApplyDefs.wf_change nlb_ch = true /\ idx_compat nlb_m nlb_ch = true /\
  abs_dev_i [] = abs_app_i (overlay [] nlb_m) /\
  payload 3 [] nlb_ch = Some (mkReq [] [(B "/a/b", B "0")]) /\
  abs_dev_i (dev_apply [] (mkReq [] [(B "/a/b", B "0")])) = [(B "/a/b", B "0")] /\
  abs_app_i (loaded overlay nil (record_applied 0 3 nlb_m (overlay [] nlb_m) [] nlb_ch)) = [(B "/a/b", B "0"); (B "/a/c", B "2")].
Proof. exact P2PureApplyEx.apply_sound_live_below_refuted. Qed.

Theorem C04_apply_sound_same_index_refuted :
  wf_pair [] idx_m = true /\ P2PureApplyDefs.wf_change idx_ch = true /\ idx_compat idx_m idx_ch = false /\
  abs_dev_i [(B "/a", B "1")] = abs_app_i (overlay [] idx_m) /\
  payload 5 [] idx_ch = Some (mkReq [] [(B "/a", B "2")]) /\
  abs_dev_i (dev_apply [(B "/a", B "1")] (mkReq [] [(B "/a", B "2")])) = [(B "/a", B "2")] /\
  abs_app_i (loaded overlay nil (record_applied 0 5 idx_m (overlay [] idx_m) [] idx_ch)) = [(B "/a", B "1")].
Proof. exact P2PureApplyEx.apply_sound_same_index_refuted. Qed.

Theorem C04_resync_live_below_refuted : exists r,
  resync_payload nlb_m = [Some (mkReq [B "/a"] []); Some r] /\ wfk nlb_m = true /\ no_live_below nlb_m = false /\
  abs_app_i nlb_m = [] /\ abs_dev_i (fold_left dev_apply [mkReq [B "/a"] []; r] []) = [(B "/a/c", B "2")].
Proof. exact P2PureApplyEx.resync_live_below_refuted. Qed.

(** the protocol theorems with the instance plugged in: the obligation premises are gone, what remains is the
    well-formedness of the values the step works on (wf_apply_at w t i: wf_apply of the applied values of t and the change of
    proposal (t, i); wf_step w t l: wfk of both components and, per label, wf_apply_at / no_live_below of the applied view) *)
Theorem C04_pure_ok_P2Pure : forall (w : Wd) t (l : Label),
  wf_step w t l ->
  pure_ok overlay payload record_applied restore resync_payload dev_apply nil nil nil abs_dev_i abs_app_i w t l.
Proof. exact P2PureApplyInst.pure_ok_inst. Qed.

Theorem C04_apply_keeps_agreement_P2Pure : forall (o : oracle) (w : Wd) t i m term r (k : nat),
  wf_apply_at w t i -> i_sent_by_apply w o t i m term r COk -> (3 <= k)%nat -> i_agrees w t ->
  let w' := p2_step w (LRec (CtlProp (t, i)) k o) in
  i_agrees w' t /\ i_dstate_of w' t = dev_apply (i_dstate_of w t) r /\
  exists (C : Cfg) (P : Prop2) (C' : Cfg), cfgs w !! t = Some C /\ props w !! (t, i) = Some P /\
    cfgs w' !! t = Some C' /\ c_applied C' = i /\ c_applied C < i /\
    aview overlay C' = record_applied (o_order o) i (c_avalues C) (aview overlay C) (view overlay C) (rb_change nil P) /\
    c_state C' = c_state C /\ c_aterm C' = c_aterm C /\ c_term C' = c_term C /\
    wfk (aview overlay C') = true /\ no_entry_below (aview overlay C') = true.
Proof. exact P2PureApplyInst.apply_keeps_agreement_inst. Qed.

Theorem C04_cut_apply_retry_P2Pure : forall (o o' : oracle) (w : Wd) t i m term r (k' : nat),
  wf_apply_at w t i -> i_agrees w t -> i_sent_by_apply w o t i m term r COk ->
  let w1 := p2_step w (LRec (CtlProp (t, i)) 1 o) in
  i_dstate_of w1 t = dev_apply (i_dstate_of w t) r /\ cfgs w1 = cfgs w /\
  (dev_answer (nil : dstate) w1 t term o' = COk -> (3 <= k')%nat ->
   i_sent_by_apply w1 o' t i m term r COk /\ i_agrees (p2_step w1 (LRec (CtlProp (t, i)) k' o')) t).
Proof. exact P2PureApplyInst.cut_apply_retry_inst. Qed.

Theorem C04_resync_establishes_agreement_P2Pure :
  forall (o : oracle) (w : Wd) t m term r (rs : list req) (k : nat) (C : Cfg),
  wfk (c_ainline C) = true -> wfk (c_avalues C) = true -> no_live_below (aview overlay C) = true ->
  i_sent_by_resync w o t m term r COk -> cfgs w !! t = Some C ->
  resync_payload (aview overlay C) = map Some rs -> (length rs + 2 <= k)%nat ->
  i_dstate_of w t = [] \/ i_agrees w t ->
  let w' := p2_step w (LRec (CtlCfg t) k o) in
  i_agrees w' t /\ i_dstate_of w' t = fold_left dev_apply rs (i_dstate_of w t) /\
  exists C' : Cfg, cfgs w' !! t = Some C' /\ c_state C' = CSynchronized /\ c_aterm C' = c_term C' /\ c_term C' = c_term C /\
             c_applied C' = c_applied C /\ c_applied C <> 0 /\ abs_app_i (aview overlay C') = abs_app_i (aview overlay C).
Proof. exact P2PureApplyInst.resync_establishes_agreement_inst. Qed.

(* partial: crun_wf = a run of environment labels and complete invocations in which wf_step holds at EVERY step, as a
   premise, from any reachable world satisfying conv.  That wf_step holds in every world reached from the initial one
   by well-formed labels and complete invocations is C04_reach_wf_P2Pure below; the cut states are outside
   (C04_restore_cut_wf_refuted) *)
Theorem C04_converged_P2Pure_partial : forall (w w' : Wd) t (C' : Cfg),
  i_reach w -> i_conv w t -> crun_wf t w w' ->
  cfgs w' !! t = Some C' -> c_state C' = CSynchronized -> c_aterm C' = c_term C' -> i_agrees w' t.
Proof. exact P2PureApplyInst.converged_inst. Qed.

(* crun_wf is decidable step by step (run_ok, sound: run_ok_crun_wf) and holds on non-trivial runs: the lagging-delete scenario
   of F-23 in every Go map order, and a run with a cascading delete, a re-creation beneath the tombstones, the rollback of that
   change (a delete beneath a delete), a connection loss and the re-push in a new term; the agreement at its end is then a
   consequence of the theorem *)
Theorem C04_wf_runs_P2Pure :
  Forall (fun ord => run_ok 1 (lag_rest (x_oracle_ord ord)) (x_run lag_start) = true) ords6 /\
  Forall (fun ord => run_ok 1 (big_rest (x_oracle_ord ord)) (x_run big_start) = true) [0; 1; 2; 5] /\
  i_agrees (x_run (big_start ++ big_rest (x_oracle_ord 1))) 1.
Proof. exact (conj P2PureApplyEx.lag_run_wf (conj P2PureApplyEx.big_run_wf P2PureApplyEx.big_run_agrees)). Qed.


(** the well-formedness is an INVARIANT of the instance (Proofs/P2PureReach{Pure,Inv,Eff,Dyn,Run,Labels,Init,Ex}.v).
    labels_wfb ls (boolean, on the label list - the only environment hypothesis): every change of every northbound request
      (LChange) is a wf_change - unique proper keys = paths, no update beneath a delete of the same request (finding F-14
      excluded) - and no updated path of the run lies beneath another updated path of the same target (values live at
      leaves: what a schema guarantees; C04_leaf_hypothesis_needed shows it cannot be dropped).  Rollbacks need nothing.
    completes p2_init ls: every reconcile invocation of the run executes all its effects (the run theorem is about complete
      invocations anyway; the cut between a map write and the entry write is where the pair leaves the domain:
      C04_restore_cut_wf_refuted).
    quiet_env t ls: no restart of the device of t, t never declared persistent (as in C04_converged_partial). *)
Theorem C04_reach_wf_P2Pure : forall (ls : list Label) t (l : Label),
  labels_wfb ls = true -> completes p2_init ls -> wf_step (x_run ls) t l.
Proof. exact P2PureReachLabels.reach_wf_step. Qed.

(* the run theorem for the executable instance: no obligation premise, no per-step premise, no start condition *)
Theorem C04_converged_P2Pure : forall (ls : list Label) t (C' : Cfg),
  labels_wfb ls = true -> completes p2_init ls -> quiet_env t ls ->
  cfgs (x_run ls) !! t = Some C' -> c_state C' = CSynchronized -> c_aterm C' = c_term C' -> i_agrees (x_run ls) t.
Proof. exact P2PureReachInit.converged_from_init. Qed.

(* the same from any world of such a run that satisfies the start condition conv (device agreeing, or empty with the
   configuration not synchronised in its term): restarts and "persistent" switches are allowed BEFORE that world *)
Theorem C04_converged_reach_P2Pure : forall (ls0 ls : list Label) t (C' : Cfg),
  labels_wfb (ls0 ++ ls) = true -> completes p2_init (ls0 ++ ls) -> quiet_env t ls -> i_conv (x_run ls0) t ->
  cfgs (x_run (ls0 ++ ls)) !! t = Some C' -> c_state C' = CSynchronized -> c_aterm C' = c_term C' ->
  i_agrees (x_run (ls0 ++ ls)) t.
Proof. exact P2PureReachLabels.converged_reach. Qed.

(* the premises are decidable (run_premises, sound: checked_from_init) and hold on a non-trivial run: cascade, re-creation
   beneath the tombstone, rollback of that change, connection loss, re-push in a new term - in several Go map orders *)
Theorem C04_good_run_P2Pure :
  Forall (fun ord => run_premises 1 (good_run ord) = true) [0; 1; 2; 5] /\ i_agrees (x_run (good_run 1)) 1.
Proof. exact (conj P2PureReachEx.good_run_premises P2PureReachEx.good_run_agrees_from_init). Qed.

(* values must live at leaves: every request well-formed, every invocation complete - the request "/a/b = 1, /a/b/c = 2" on
   a configuration holding /a/b/c and its rollback leave all transactions APPLIED, the configuration SYNCHRONIZED, the
   applied values {/a/b = 1, /a/b/c = 5} and the device empty: the rollback values recorded at validation are
   "delete /a/b, update /a/b/c" - the delete/update overlap of finding F-14, produced by the controller itself *)
Theorem C04_leaf_hypothesis_needed :
  forallb label_wfb (leaf_run 0) = true /\ completesb p2_init (leaf_run 0) = true /\ quietb 1 (leaf_run 0) = true /\
  labels_wfb (leaf_run 0) = false /\
  (match props (x_run (leaf_run 0)) !! (1, 2) with
   | Some P => option_map (fun rb => (map (fun kv => (fst kv, pv_val (snd kv), pv_deleted (snd kv), pv_index (snd kv))) rb, wf_changeb rb)) (p_rbvalues P)
   | None => None
   end) = Some ([(B "/a/b", [], true, 0); (B "/a/b/c", B "5", false, 1)], false) /\
  lag_summary (x_run (leaf_run 0)) =
    ([(1, TApplied); (3, TApplied); (2, TApplied)],
     [(3, 3, CSynchronized, 1, 1, [(B "/a/b", B "1"); (B "/a/b/c", B "5")], [])], [[]]) /\
  ~ i_agrees (x_run (leaf_run 0)) 1.
Proof. exact P2PureReachEx.leaf_hypothesis_needed. Qed.

Print Assumptions C04_device_changes_only_by_ok_requests.
Print Assumptions C04_device_state_is_fold.
Print Assumptions C04_restart_empties.
Print Assumptions C04_not_quiet_cases.
Print Assumptions C04_quiet_invocation.
Print Assumptions C04_status_updates_keep_agreement.
Print Assumptions C04_refused_or_transient_keeps_agreement.
Print Assumptions C04_applied_values_change_only.
Print Assumptions C04_apply_keeps_agreement_partial.
Print Assumptions C04_cut_apply_retry_partial.
Print Assumptions C04_resync_establishes_agreement_partial.
Print Assumptions C04_nothing_new_before_resync.
Print Assumptions C04_unsynced_no_apply.
Print Assumptions C04_quiet_keeps_device.
Print Assumptions C04_restart_breaks_only_until_resync.
Print Assumptions C04_pure_ok_global.
Print Assumptions C04_converged_inv.
Print Assumptions C04_converged_partial.
Print Assumptions C04_lagging_delete_converges.
Print Assumptions C04_overlap_apply_refuted.
Print Assumptions C04_resync_order_nonwf_refuted.
Print Assumptions C04_apply_sound_P2Pure.
Print Assumptions C04_status_sound_P2Pure.
Print Assumptions C04_apply_idem_P2Pure.
Print Assumptions C04_resync_sound_empty_P2Pure.
Print Assumptions C04_resync_sound_same_P2Pure.
Print Assumptions C04_resync_total_P2Pure.
Print Assumptions C04_wf_initial_P2Pure.
Print Assumptions C04_record_applied_wf_P2Pure.
Print Assumptions C04_restore_wf_P2Pure.
Print Assumptions C04_inline_wf_P2Pure.
Print Assumptions C04_restore_cut_wf_refuted.
Print Assumptions C04_apply_sound_live_below_refuted.
Print Assumptions C04_apply_sound_same_index_refuted.
Print Assumptions C04_resync_live_below_refuted.
Print Assumptions C04_pure_ok_P2Pure.
Print Assumptions C04_apply_keeps_agreement_P2Pure.
Print Assumptions C04_cut_apply_retry_P2Pure.
Print Assumptions C04_resync_establishes_agreement_P2Pure.
Print Assumptions C04_converged_P2Pure_partial.
Print Assumptions C04_wf_runs_P2Pure.
Print Assumptions C04_reach_wf_P2Pure.
Print Assumptions C04_converged_P2Pure.
Print Assumptions C04_converged_reach_P2Pure.
Print Assumptions C04_good_run_P2Pure.
Print Assumptions C04_leaf_hypothesis_needed.
