(* C06 - Rolling back the latest change restores exactly the previous state.
   PROTOCOL part (Section C06; proofs in Proofs/P2_Rollback.v; model Model/Proto2.v: reconcileValidate /
   reconcileCommit of the proposal reconciler, reconcileInitialize / reconcileValidate of the transaction reconciler):
   the pure layer is a parameter and every theorem holds for EVERY pure layer, every world, every oracle.
   VALUE part (after the section; proofs in Proofs/P2PureRollback*.v; the concrete pure layer Model/P2Pure.v):
   "restores exactly" - the commit of the rollback values recorded at validation undoes the commit of the change.
   [validating w t i P C] = the proposal is VALIDATING and its predecessor is committed; [initializing w i T] = the
   transaction is INITIALIZING, has no proposal list and is not held back by transaction i-1; [refused t i P f] = the
   single effect "proposal Validate FAILED with failure f"; [init_failed i T f] = the single effect "transaction
   FAILED with f, Initialize FAILED, Abort started".
   How the theorems decide the property:
   * refused: C06_refused_not_latest (RollbackIndex <> configuration index -> FORBIDDEN), C06_refused_missing (no
     proposal at that index -> NOT_FOUND), C06_refused_rollback_of_rollback (-> FORBIDDEN); at transaction level
     C06_tx_refused_missing (NOT_FOUND in Initialize), C06_tx_refused_rollback_of_rollback (FORBIDDEN).  The two
     proposal-level cases (b), (c) are defensive: in reachable worlds the transaction-level check fires first
     (Examples z_missing_hyps / z_rb_of_rb_hyps use constructed worlds, all others reachable ones).
   * "alters nothing": each refusal is ONE effect on the proposal / transaction record; C06_refusal_fails_transaction
     (a proposal that failed validation fails its transaction, which enters Abort); C06_values_written_only_by_commit
     (an invocation that writes a committed path-value map is the commit branch of a proposal reconciler) and
     C06_values_written_only_by_committing_tx (in every REACHABLE world that proposal's transaction has a Commit phase
     and no Abort phase - from the phase invariant J, i.e. C01), hence C06_refused_alters_nothing: no invocation, no
     prefix, on ANY target of a transaction that has an Abort phase writes stored values (the other targets of a
     multi-target rollback abort too).
   * "uses the recorded values": C06_change_records_rollback_values (what a change records at validation),
     C06_rollback_uses_recorded_values (a validated rollback proposal carries exactly RollbackIndex and
     RollbackValues of the proposal it rolls back), C06_rollback_commit_replays (its commit merges exactly those
     values and sets the configuration index to the recorded index; the resulting configuration).
   * "restores exactly" (value level, UNBOUNDED: all stored maps, views, changes, all iteration orders ord1 / ord2 of
     AddDeleteChildren's and reconcileCommit's loops, all orders of reconcileValidate's loop = the list order of ch):
     C06_rollback_restores_values: rb = rollback_of vw ch recorded on the view vw of the stored map m, the change
     committed (m1 = commit_merge ord1 i m vw ch), then the rollback values committed (m2 = commit_merge ord2 j m1
     (overlay [] m1) rb) => live (overlay [] m2) = live vw (and live m2 = live vw): Get shows exactly the values it
     showed before the change - overwritten values, values deleted together with everything beneath them, and no path
     that did not exist before.  C06_rollback_restores_values_any_view: the same for ANY loaded views vw1, vw2 of m1,
     m2 (same Go map, any list order).  Premise [rollback_wf i j m vw ch] (boolean, Proofs/P2PureRollbackBool.v):
     keys unique; key = path of the value, never "" or "/"; vw is the same Go map as m (what Get loads when the
     entry's inline copy is covered by the stored map); no LIVE value beneath a tombstone in vw; no update of ch
     beneath a delete of ch (the excluded overlap is the open finding F-14); no update of ch has a live value of vw
     beneath it (values live at leaves); ch is stamped with its transaction index i, stored indexes are < i,
     0 < i < j.  Satisfiable: Example ex_wf (overwrite, delete of a list entry with leaves, new value beneath a
     tombstone, leaf delete, new path, delete beneath a tombstone, delete of a tombstone, an inline copy); each of
     clean / no-delete-above-update / updates-are-leaves is NEEDED (Examples clean_needed,
     no_delete_above_update_needed, leaves_needed: the statement fails without it for some order).  Preserved:
     C06_rollback_wf_preserved (the change's commit gives a well-formed stored map with nothing at all beneath a
     tombstone and indexes < j; its empty-inline view is the same map), C06_rollback_wf_preserved_by_rollback (so
     does the rollback's commit).
   * the candidate the model plugin validates for the rollback: C06_rollback_restores_values_candidate -
     live (candidate_rb (overlay [] m1) (permute ord rb)) = live vw under the same rollback_wf, for every Go map order
     ord in which reconcileValidate applies the rollback values (and C06_rollback_restores_values_candidate_any_view:
     any loaded view of m1, any list order of rb): the verdict is taken on exactly the configuration the rollback
     restores.  This is the REPAIRED code (/repo 3342112: the rollback values are applied with applyChangeToConfig).
     Before it they overwrote the loaded values, the tombstone of a deleted container still covered the restored
     subtree and the plugin was shown the configuration without it - finding F-24 (the statement fails for stored
     {/a/c=1}, change = delete of /a); the function before the repair and this witness are the regression Example
     candidate_regression_F24 (Proofs/P2PureRollbackEx.v).
   PARTIAL / missing at protocol level: the protocol theorems are single-invocation facts.  The reach-level statement
   "whenever a rollback proposal is VALIDATED its recorded values equal those the change recorded when IT was
   validated" additionally needs: the configuration index is only ever the index of a proposal that has finished
   validation (so the source fields are frozen when they are copied).  That follows from the cursor / chain invariants
   (Committed.Index moves only by a proposal's commit, commit only after VALIDATED) of Proofs/P2_Cursor*.v
   and is not proved here.  The value-level theorems are about the pure functions; that the view loaded at
   commit time is the one loaded at validation time, and that the entry's inline copy is covered by the stored map
   (hypothesis sameb vw m), are protocol facts not proved here. *)
From stdpp Require Import gmap.
From RecordUpdate Require Import RecordUpdate.
From Coq Require Import NArith.
From OC Require Import Base.Bytes Model.P2Pure Model.Proto2 Model.P2Inst Proofs.P2Base Proofs.P2Phases Proofs.P2_Failure Proofs.P2_Crash Proofs.P2_Rollback Proofs.P2_RollbackFrozen.
From OC Require Import Proofs.P2PureRollbackBool Proofs.P2PureRollbackEx.
Open Scope N_scope.

Section C06.
  Context {V Ch Req D : Type}.
  Context (candidate : V -> Ch -> V) (candidate_rb : V -> Ch -> V) (rollback_of : V -> Ch -> Ch)
          (overlay : V -> V -> V) (commit_merge : N -> N -> V -> V -> Ch -> V)
          (payload : N -> V -> Ch -> option Req) (record_applied : N -> N -> V -> V -> V -> Ch -> V)
          (touched : N -> V -> Ch -> V) (restore : V -> V -> V)
          (resync_payload : V -> list (option Req)) (doc_ok : V -> bool)
          (dev_apply : D -> Req -> D) (stamp : N -> Ch -> Ch) (v_empty : V) (d_empty : D) (ch_empty : Ch).
  Notation world := (@world V Ch Req D).
  Notation apply_eff := (@apply_eff V Ch Req D dev_apply d_empty).
  Notation rec_tx := (@rec_tx V Ch Req D stamp).
  Notation rec_prop := (@rec_prop V Ch Req D candidate candidate_rb rollback_of overlay commit_merge payload record_applied
                                  touched restore doc_ok v_empty d_empty ch_empty).
  Notation reconcile := (@reconcile V Ch Req D candidate candidate_rb rollback_of overlay commit_merge payload record_applied
                                    touched restore resync_payload doc_ok stamp v_empty d_empty ch_empty).
  Notation step := (@step V Ch Req D candidate candidate_rb rollback_of overlay commit_merge payload record_applied
                          touched restore resync_payload doc_ok dev_apply stamp v_empty d_empty ch_empty).
  Notation reach := (@reach V Ch Req D candidate candidate_rb rollback_of overlay commit_merge payload record_applied
                            touched restore resync_payload doc_ok dev_apply stamp v_empty d_empty ch_empty).
  Notation dev_answer := (@dev_answer V Ch Req D d_empty).
  Notation dev_of := (@dev_of V Ch Req D d_empty).
  Notation view := (@view V overlay).
  Notation aview := (@aview V overlay).
  Notation rb_change := (@rb_change Ch ch_empty).
  Notation sendable := (@sendable V Ch Req D overlay payload ch_empty).
  Notation merge_rerun_stable := (@merge_rerun_stable V Ch overlay commit_merge).

  (* (a) not the change the configuration reflects *)
  Theorem C06_refused_not_latest :
    ∀ (o : oracle) (w : world) (t i : N) (P : prop) (C : config) (ri : N),
    validating w t i P C
    → o_plugin o = true
    → p_details P = PRollback ri → c_index C ≠ ri → rec_prop o w (t, i) = refused t i P FForbidden.
  Proof. exact (@rollback_not_latest V Ch Req D candidate candidate_rb rollback_of overlay commit_merge payload record_applied touched restore doc_ok v_empty d_empty ch_empty). Qed.

  (* (b) no proposal at that index *)
  Theorem C06_refused_missing :
    ∀ (o : oracle) (w : world) (t i : N) (P : prop) (C : config) (ri : N),
    validating w t i P C
    → o_plugin o = true
    → p_details P = PRollback ri
    → c_index C = ri → props w !! (t, ri) = None → rec_prop o w (t, i) = refused t i P FNotFound.
  Proof. exact (@rollback_missing V Ch Req D candidate candidate_rb rollback_of overlay commit_merge payload record_applied touched restore doc_ok v_empty d_empty ch_empty). Qed.

  (* (c) the proposal at that index is a rollback *)
  Theorem C06_refused_rollback_of_rollback :
    ∀ (o : oracle) (w : world) (t i : N) (P : prop) (C : config) (ri : N) (Q : prop) (rj : N),
    validating w t i P C
    → o_plugin o = true
    → p_details P = PRollback ri
    → c_index C = ri
    → props w !! (t, ri) = Some Q
    → p_details Q = PRollback rj → rec_prop o w (t, i) = refused t i P FForbidden.
  Proof. exact (@rollback_of_rollback V Ch Req D candidate candidate_rb rollback_of overlay commit_merge payload record_applied touched restore doc_ok v_empty d_empty ch_empty). Qed.

  (* transaction level: the index does not exist *)
  Theorem C06_tx_refused_missing :
    ∀ (w : world) (i : N) (T : txn) (ri : N),
    initializing w i T
    → t_details T = TRollback ri → txs w !! ri = None → rec_tx w i = init_failed i T FNotFound.
  Proof. exact (@tx_rollback_missing V Ch Req D stamp). Qed.

  (* transaction level: the index is a rollback *)
  Theorem C06_tx_refused_rollback_of_rollback :
    ∀ (w : world) (i : N) (T : txn) (ri : N) (R : txn) (rj : N),
    initializing w i T
    → t_details T = TRollback ri
    → txs w !! ri = Some R → t_details R = TRollback rj → rec_tx w i = init_failed i T FForbidden.
  Proof. exact (@tx_rollback_of_rollback V Ch Req D stamp). Qed.

  (* a failed validation fails the transaction and starts its Abort *)
  Theorem C06_refusal_fails_transaction :
    ∀ (w : world) (i : N) (T : txn) (tg : list N),
    txs w !! i = Some T
    → t_apply T = None
    → t_abort T = None
    → t_commit T = None
    → t_validate T = Some Doing
    → t_props T = Some tg
    → (∀ t : N, In t tg → ∃ p : prop, props w !! (t, i) = Some p ∧ is_Some (p_validate p))
    → (∃ (t : N) (p : prop),
    In t tg ∧ props w !! (t, i) = Some p ∧ p_validate p = Some Failed)
    → ∃ (t : N) (p : prop),
    In t tg
    ∧ props w !! (t, i) = Some p
    ∧ p_validate p = Some Failed
    ∧ rec_tx w i =
    ([EPutTx i
    (T <| t_state := TFailed |> <| t_failure := p_vfail p |> <| t_abort :=
    Some Doing |> <| t_validate := Some Failed |>)], RDone).
  Proof. exact (@tx_validate_failed V Ch Req D stamp). Qed.

  (* who writes committed values *)
  Theorem C06_values_written_only_by_commit :
    ∀ (o : oracle) (w : world) (c : ctrl) (t : N) (v : V),
    In (EPutValues t v) (reconcile o w c).1
    → ∃ (t' i : N) (P : prop) (C : config),
    c = CtlProp (t', i) ∧ committing w t' i P C ∧ c_committed C = p_prev P.
  Proof. exact (@values_written_only_by_commit V Ch Req D candidate candidate_rb rollback_of overlay commit_merge payload record_applied touched restore resync_payload doc_ok stamp v_empty d_empty ch_empty). Qed.

  (* ... in reachable worlds: a transaction with a Commit phase and no Abort phase *)
  Theorem C06_values_written_only_by_committing_tx :
    ∀ (o : oracle) (w : world) (c : ctrl) (t : N) (v : V),
    reach w
    → In (EPutValues t v) (reconcile o w c).1
    → ∃ (t' i : N) (T : txn),
    c = CtlProp (t', i) ∧ txs w !! i = Some T ∧ is_Some (t_commit T) ∧ t_abort T = None.
  Proof. exact (@values_written_only_by_committing_tx V Ch Req D candidate candidate_rb rollback_of overlay commit_merge payload record_applied touched restore resync_payload doc_ok dev_apply stamp v_empty d_empty ch_empty). Qed.

  (* a transaction with an Abort phase never writes stored values, on any target, in any prefix *)
  Theorem C06_refused_alters_nothing :
    ∀ (o : oracle) (w : world) (i : N) (T : txn) (t : N) (k : nat),
    reach w
    → txs w !! i = Some T
    → is_Some (t_abort T)
    → ∀ (t' : N) (v : V), ¬ In (EPutValues t' v) (take k (reconcile o w (CtlProp (t, i))).1).
  Proof. exact (@aborted_tx_writes_no_values V Ch Req D candidate candidate_rb rollback_of overlay commit_merge payload record_applied touched restore resync_payload doc_ok dev_apply stamp v_empty d_empty ch_empty). Qed.

  (* what a change records when validated *)
  Theorem C06_change_records_rollback_values :
    ∀ (o : oracle) (w : world) (t i : N) (P : prop) (C : config) (ch : Ch),
    validating w t i P C
    → o_plugin o = true
    → p_details P = PChange ch
    → doc_ok (candidate (view C) ch) = true
    → o_verdict o = true
    → rec_prop o w (t, i) =
    ([EPutProp (t, i)
    (P <| p_rbindex := c_index C |> <| p_rbvalues := Some (rollback_of (view C) ch) |> <|
    p_validate := Some Done |>)], RDone).
  Proof. exact (@change_records V Ch Req D candidate candidate_rb rollback_of overlay commit_merge payload record_applied touched restore doc_ok v_empty d_empty ch_empty). Qed.

  (* a validated rollback carries exactly the recorded index and values *)
  Theorem C06_rollback_uses_recorded_values :
    ∀ (o : oracle) (w : world) (t i : N) (P : prop) (C : config) (ri : N) (Q : prop) (ch : Ch),
    validating w t i P C
    → o_plugin o = true
    → p_details P = PRollback ri
    → c_index C = ri
    → props w !! (t, ri) = Some Q
    → p_details Q = PChange ch
    → doc_ok (candidate_rb (view C) (default ch_empty (p_rbvalues Q))) = true
    → o_verdict o = true
    → rec_prop o w (t, i) =
    ([EPutProp (t, i)
    (P <| p_rbindex := p_rbindex Q |> <| p_rbvalues := p_rbvalues Q |> <| p_validate
    := Some Done |>)], RDone).
  Proof. exact (@rollback_accepted V Ch Req D candidate candidate_rb rollback_of overlay commit_merge payload record_applied touched restore doc_ok v_empty d_empty ch_empty). Qed.

  (* its commit merges exactly those and restores the recorded index *)
  Theorem C06_rollback_commit_replays :
    ∀ (o : oracle) (w : world) (t i : N) (P : prop) (C : config) (ri : N),
    committing w t i P C
    → c_committed C = p_prev P
    → p_details P = PRollback ri
    → rec_prop o w (t, i) =
    ([EPutValues t
    (commit_merge (o_order o) i (c_values C) (view C) (default ch_empty (p_rbvalues P)));
    EPutCfg t
    (C <| c_index := p_rbindex P |> <| c_committed := i |> <| c_inline := v_empty |> <|
    c_ainline := aview C |>); EPutProp (t, i) (P <| p_commit := Some Done |>)],
    requeue_next t P)
    ∧ (∀ k : nat,
    (2 <= k)%nat
    → ∃ C' : config,
    cfgs (step w (LRec (CtlProp (t, i)) k o)) !! t = Some C'
    ∧ c_index C' = p_rbindex P
    ∧ c_committed C' = i
    ∧ c_values C' =
    commit_merge (o_order o) i (c_values C) (view C)
    (default ch_empty (p_rbvalues P))).
  Proof. exact (@rollback_commit V Ch Req D candidate candidate_rb rollback_of overlay commit_merge payload record_applied touched restore resync_payload doc_ok dev_apply stamp v_empty d_empty ch_empty). Qed.

  (* what a validation recorded - the rollback values, the rollback index - and the details of the proposal never change
     once the proposal is validated: ANY step (every label, oracle, crash prefix) from ANY world *)
  Theorem C06_recorded_values_frozen : forall (w : world) l k (P P' : @prop Ch),
    props w !! k = Some P -> props (step w l) !! k = Some P' -> p_validate P = Some Done ->
    p_details P' = p_details P /\ p_rbvalues P' = p_rbvalues P /\ p_rbindex P' = p_rbindex P.
  Proof. exact (@recorded_frozen V Ch Req D candidate candidate_rb rollback_of overlay commit_merge payload record_applied touched restore resync_payload doc_ok dev_apply stamp v_empty d_empty ch_empty). Qed.

  (* ... along any list of steps in whose worlds the proposal is validated *)
  Theorem C06_recorded_values_frozen_run : forall (ls : list (@label Ch)) (w : world) k (P P' : @prop Ch),
    props w !! k = Some P -> props (fold_left step ls w) !! k = Some P' -> p_validate P = Some Done ->
    @stays_validated V Ch Req D candidate candidate_rb rollback_of overlay commit_merge payload record_applied touched restore resync_payload doc_ok dev_apply stamp v_empty d_empty ch_empty k w ls ->
    p_details P' = p_details P /\ p_rbvalues P' = p_rbvalues P /\ p_rbindex P' = p_rbindex P.
  Proof. exact (@recorded_frozen_run V Ch Req D candidate candidate_rb rollback_of overlay commit_merge payload record_applied touched restore resync_payload doc_ok dev_apply stamp v_empty d_empty ch_empty). Qed.

End C06.

(** Value level: the concrete pure layer Model/P2Pure.v *)

(* rolling back restores exactly what Get showed, for every iteration order of every loop *)
Theorem C06_rollback_restores_values :
  forall (ord1 ord2 i j : N) (m vw ch : cmap),
  rollback_wf i j m vw ch = true ->
  let rb := rollback_of vw ch in
  let m1 := commit_merge ord1 i m vw ch in
  let vw1 := overlay nil m1 in
  let m2 := commit_merge ord2 j m1 vw1 rb in
  live (overlay nil m2) = live vw /\ live m2 = live vw.
Proof. exact restores_values. Qed.

(* ... for any loaded views of the stored maps (same Go map, any list order) *)
Theorem C06_rollback_restores_values_any_view :
  forall (ord1 ord2 i j : N) (m vw ch vw1 vw2 : cmap),
  rollback_wf i j m vw ch = true ->
  let rb := rollback_of vw ch in
  let m1 := commit_merge ord1 i m vw ch in
  nodupb vw1 = true -> sameb vw1 m1 = true ->
  let m2 := commit_merge ord2 j m1 vw1 rb in
  nodupb vw2 = true -> sameb vw2 m2 = true ->
  live vw2 = live vw.
Proof. exact restores_values_any_view. Qed.

(* the hypotheses on the stored map are re-established by the change's commit ... *)
Theorem C06_rollback_wf_preserved :
  forall (ord i j : N) (m vw ch : cmap),
  rollback_wf i j m vw ch = true ->
  let m1 := commit_merge ord i m vw ch in
  wfb m1 = true /\ cleanb m1 = true /\ prunedb m1 = true /\ olderb j m1 = true /\
  sameb (overlay nil m1) m1 = true /\ wfb (overlay nil m1) = true /\ cleanb (overlay nil m1) = true.
Proof. exact commit_preserves_wf. Qed.

(* ... and by the rollback's commit *)
Theorem C06_rollback_wf_preserved_by_rollback :
  forall (ord1 ord2 i j : N) (m vw ch : cmap),
  rollback_wf i j m vw ch = true ->
  let rb := rollback_of vw ch in
  let m1 := commit_merge ord1 i m vw ch in
  let m2 := commit_merge ord2 j m1 (overlay nil m1) rb in
  wfb m2 = true /\ cleanb m2 = true.
Proof. exact rollback_commit_preserves_wf. Qed.

(* the candidate the model plugin validates for the rollback shows exactly the restored configuration, for every Go map
   order [ord] in which reconcileValidate applies the rollback values (repaired code, /repo 3342112, finding F-24;
   regression Example candidate_regression_F24 for the function before the repair) *)
Theorem C06_rollback_restores_values_candidate :
  forall (ord1 ord i j : N) (m vw ch : cmap),
  rollback_wf i j m vw ch = true ->
  let rb := rollback_of vw ch in
  let m1 := commit_merge ord1 i m vw ch in
  live (candidate_rb (overlay nil m1) (permute ord rb)) = live vw.
Proof. exact candidate_restored. Qed.

(* ... for any loaded view of the stored map and any list order of the rollback values *)
Theorem C06_rollback_restores_values_candidate_any_view :
  forall (ord1 i j : N) (m vw ch vw1 rb' : cmap),
  rollback_wf i j m vw ch = true ->
  let rb := rollback_of vw ch in
  let m1 := commit_merge ord1 i m vw ch in
  nodupb vw1 = true -> sameb vw1 m1 = true -> nodupb rb' = true -> sameb rb' rb = true ->
  live (candidate_rb vw1 rb') = live vw.
Proof. exact candidate_restored_any_view. Qed.

Print Assumptions C06_refused_not_latest.
Print Assumptions C06_refused_missing.
Print Assumptions C06_refused_rollback_of_rollback.
Print Assumptions C06_tx_refused_missing.
Print Assumptions C06_tx_refused_rollback_of_rollback.
Print Assumptions C06_refusal_fails_transaction.
Print Assumptions C06_values_written_only_by_commit.
Print Assumptions C06_values_written_only_by_committing_tx.
Print Assumptions C06_refused_alters_nothing.
Print Assumptions C06_change_records_rollback_values.
Print Assumptions C06_rollback_uses_recorded_values.
Print Assumptions C06_rollback_commit_replays.
Print Assumptions C06_recorded_values_frozen.
Print Assumptions C06_recorded_values_frozen_run.
Print Assumptions C06_rollback_restores_values.
Print Assumptions C06_rollback_restores_values_any_view.
Print Assumptions C06_rollback_wf_preserved.
Print Assumptions C06_rollback_wf_preserved_by_rollback.
Print Assumptions C06_rollback_restores_values_candidate.
Print Assumptions C06_rollback_restores_values_candidate_any_view.

(** Step and run level: the executable instance Model/P2Inst.v (Proofs/P2PureRollbackRun.v) *)
From OC Require Import Proofs.P2_ConvergeEx Proofs.P2PureReachRun Proofs.P2PureReachLabels Proofs.P2PureRollbackRun
     Proofs.P2PureRollbackQuiet.

(* two commit steps: in an invariant world w0 the complete commit step of the Change proposal (t, i) writes the entry C1;
   in an invariant world w1 whose entry of t holds the same stored map, the complete commit step of a Rollback proposal
   (t, j) that carries the rollback values recorded on the view the change was committed on restores exactly what Get
   showed before the change - for every pair of Go map orders *)
Theorem C06_rollback_restores_steps_partial :
  forall (Lf : N -> str -> Prop) (w0 w1 : Wd) (t i j : N) (n n' : nat) (o o' : oracle) (P R : Prop2)
         (C C1 C1' C2 : Cfg) (c : cmap) (ri : N),
  Inv Lf w0 -> props w0 !! (t, i) = Some P -> p_details P = PChange c -> cfgs w0 !! t = Some C ->
  p_commit P = Some Doing -> p_apply P = None -> p_abort P = None -> c_committed C = p_prev P -> (2 <= n)%nat ->
  cfgs (p2_step w0 (LRec (CtlProp (t, i)) n o)) !! t = Some C1 ->
  Inv Lf w1 -> cfgs w1 !! t = Some C1' -> c_values C1' = c_values C1 ->
  props w1 !! (t, j) = Some R -> p_details R = PRollback ri ->
  p_rbvalues R = Some (rollback_of (view overlay C) c) ->
  p_commit R = Some Doing -> p_apply R = None -> p_abort R = None -> c_committed C1' = p_prev R -> (2 <= n')%nat ->
  cfgs (p2_step w1 (LRec (CtlProp (t, j)) n' o')) !! t = Some C2 ->
  rollback_wf i j (c_values C) (view overlay C) c = true ->
  live (view overlay C2) = live (view overlay C).
Proof. exact rollback_two_commits. Qed.

(* runs of complete invocations from the initial world: lc the commit step of the Change proposal (t, i), lr the commit
   step of the Rollback proposal (t, j) of (t, i), no commit step of a proposal of t in between ([quiet]).  Hypotheses
   that are NOT derived from the run (statements about the worlds x_run ls1 and x_run (ls1 ++ [lc] ++ ls2), checkable
   on a dumped run): the rollback proposal carries rollback_of (view C) c (the validation history that records it is
   not lifted to runs), rollback_wf on the values the change is committed on, and [quiet] itself *)
Theorem C06_rollback_restores_run_partial :
  forall (ls1 ls2 : list Label) (t i j : N) (n n' : nat) (o o' : oracle) (P R : Prop2) (C C1' C2 : Cfg) (c : cmap),
  let lc := LRec (CtlProp (t, i)) n o in
  let lr := LRec (CtlProp (t, j)) n' o' in
  let ls := ls1 ++ [lc] ++ ls2 ++ [lr] in
  labels_wfb ls = true -> completes p2_init ls ->
  props (x_run ls1) !! (t, i) = Some P -> p_details P = PChange c -> cfgs (x_run ls1) !! t = Some C ->
  p_commit P = Some Doing -> p_apply P = None -> p_abort P = None -> c_committed C = p_prev P ->
  quiet t (x_run (ls1 ++ [lc])) ls2 ->
  props (x_run (ls1 ++ [lc] ++ ls2)) !! (t, j) = Some R -> p_details R = PRollback i ->
  cfgs (x_run (ls1 ++ [lc] ++ ls2)) !! t = Some C1' ->
  p_commit R = Some Doing -> p_apply R = None -> p_abort R = None -> c_committed C1' = p_prev R ->
  p_rbvalues R = Some (rollback_of (view overlay C) c) ->
  rollback_wf i j (c_values C) (view overlay C) c = true ->
  cfgs (x_run ls) !! t = Some C2 ->
  live (view overlay C2) = live (view overlay C).
Proof. exact rollback_restores_run. Qed.

(* the same with the hypothesis [quiet] (a statement about every world between the two commits) DERIVED from the run:
   it is enough that the rollback proposal directly follows the change in the proposal chain of the target
   (p_prev R = i, one field of one record).  Committed.Index of t is i right after lc and p_prev R = i right before lr; it
   never decreases (C02_cursors_monotone) and every complete commit step of a proposal of t moves it strictly upwards
   (commit_step_moves: C02_links_ordered + the proposal indexes are positive), so no commit step of t lies in between
   (quiet_from_cursor, Proofs/P2PureRollbackQuiet.v).  Still not derived from the run: the recorded rollback values and
   rollback_wf, as above. *)
Theorem C06_rollback_restores_run_chain_partial :
  forall (ls1 ls2 : list Label) (t i j : N) (n n' : nat) (o o' : oracle) (P R : Prop2) (C C1' C2 : Cfg) (c : cmap),
  let lc := LRec (CtlProp (t, i)) n o in
  let lr := LRec (CtlProp (t, j)) n' o' in
  let ls := ls1 ++ [lc] ++ ls2 ++ [lr] in
  labels_wfb ls = true -> completes p2_init ls ->
  props (x_run ls1) !! (t, i) = Some P -> p_details P = PChange c -> cfgs (x_run ls1) !! t = Some C ->
  p_commit P = Some Doing -> p_apply P = None -> p_abort P = None -> c_committed C = p_prev P ->
  props (x_run (ls1 ++ [lc] ++ ls2)) !! (t, j) = Some R -> p_details R = PRollback i -> p_prev R = i ->
  cfgs (x_run (ls1 ++ [lc] ++ ls2)) !! t = Some C1' ->
  p_commit R = Some Doing -> p_apply R = None -> p_abort R = None -> c_committed C1' = p_prev R ->
  p_rbvalues R = Some (rollback_of (view overlay C) c) ->
  rollback_wf i j (c_values C) (view overlay C) c = true ->
  cfgs (x_run ls) !! t = Some C2 ->
  live (view overlay C2) = live (view overlay C).
Proof. exact rollback_restores_run_prev. Qed.

(* between two worlds of a run of complete invocations in which Committed.Index of t is the same there is no commit step
   of a proposal of t (and hence, quiet_keeps_values, the stored values of t are the same) *)
Theorem C06_no_commit_between_equal_cursors :
  forall (t : N) (ls : list Label) (w : Wd),
  i_reach w -> completes w ls -> i_committed_of (fold_left p2_step ls w) t = i_committed_of w t -> quiet t w ls.
Proof. exact quiet_from_cursor. Qed.

Print Assumptions C06_rollback_restores_steps_partial.
Print Assumptions C06_rollback_restores_run_partial.
Print Assumptions C06_rollback_restores_run_chain_partial.
Print Assumptions C06_no_commit_between_equal_cursors.
