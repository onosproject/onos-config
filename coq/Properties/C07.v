(* C07 - A crash between any two store writes loses nothing and repeats nothing (protocol part).
   Statements only; proofs in Proofs/P2_Crash.v (reusing Proofs/P2_Failure.v, Proofs/P2Phases.v).  Model: Model/Proto2.v.
   One reconcile invocation is an ordered effect list; the step [LRec c k o] executes its first k effects.  A process
   stop, an error returned by a store call and a version conflict that the controller swallows are therefore all "a
   prefix", and the controllers keep no state between invocations (the stores are the only state), so "restart" is just
   "the controllers run again".  Theorems hold for EVERY pure layer, every world / label / oracle.
   How the theorems decide the property:
   * C07_prefix_is_step (true by definition of [step]; stated so that it is visible) and C07_invariants_survive_crash /
     C07_any_invariant_survives_crash: every invariant proved over [reach] holds after a crash at any point - the phase
     invariant J of Proofs/P2Phases.v (C01: Commit and Abort never mixed), and, through the general form, the
     invariants of the other proof files over Proto2 (cursor / chain / order / term invariants: Proofs/P2_Cursor*.v,
     P2_Order*.v, P2_Term.v), which are all of the form "I init, I preserved by every step".
   * Re-run of an interrupted invocation ("no change merged twice or skipped"):
     - commit: C07_commit_effects (the three effects: path-value map, entry, proposal).  The configuration store's
       Update is ONE call of the controller but TWO persisted effects, the path-value map being written BEFORE the
       version-checked entry.  C07_resume_commit_partial: for every cut at a store-call boundary (named predicate
       [store_boundary k]: not between those two effects) re-running the invocation to its end gives exactly the world
       of ONE uninterrupted commit - nothing merged twice, nothing skipped (C07_resume_commit_after_store is the
       detailed form for the cut before the proposal write: the committed index has left the predecessor, the re-run
       only writes the proposal; both need PrevIndex <> index, an invariant of the chain).
       The cut INSIDE the store call: C07_resume_commit_torn (the committed index has not moved, the re-run merges
       AGAIN on top of the values already written), C07_resume_commit_torn_partial (same configurations and proposals
       as uninterrupted PROVIDED the pure layer's merge is stable under repetition: named predicate
       [merge_rerun_stable]; it holds e.g. for plain sets: Example y_commit_hyps), and the OPEN finding F-08c
       (signature c07_torn_commit_remerge, same root cause as the store finding F-08: two Atomix primitives that are
       not written atomically; repair not small): C07_resume_commit_torn_refuted + C07_merge_rerun_unstable_refuted - for
       a Set that deletes /a and sets /a/c in one request the torn commit ends with an empty stored configuration
       where the uninterrupted run has /a/c = 2 (labels: Proofs/P2_Crash.v y_torn, k = 1 vs k = 3).  The harness cannot
       cut inside a store call (its crash points are store-call boundaries and device calls), so this finding is
       exhibited on the model only, by a step that the store code demonstrably allows (values written before the
       version-checked entry write).
     - apply: C07_resume_apply_resend (stopped after the device accepted the request, nothing stored: the re-run sends
       the SAME request again - allowed by the property text - and the device decides again), C07_resume_apply (stopped
       after the configuration entry write: the re-run only writes the proposal; same world as uninterrupted given
       applied term <= mastership term).
     - refused apply (finding F-17, repaired): before the repair the order was [device; applied values; entry with
       Applied.Index := i; proposal FAILED]; cut after the entry write (stop, or conflict swallowed by
       updateProposalStatus) the re-run took the guard Applied.Index >= i and recorded the proposal APPLIED, the
       transaction ended APPLIED although the device had refused (witness then: [LTarget 1; LConnUp 10 1; LChange {/a=1}] ++
       13 rounds ++ [LRec (CtlProp (1,1)) 3 (answer InvalidArgument)] ++ 4 rounds -> TApplied, device untouched).  The repaired
       code writes the failure first: C07_resume_apply_refused_resend (k = 1: nothing stored, request re-sent),
       C07_resume_apply_refused (k >= 2: proposal FAILED with the class, devices untouched, the re-run completes the
       move of the applied index and never rewrites the proposal), C07_failed_is_final, and the regression
       C07_refused_apply_crash_regression (every cut point of the old witness ends FAILED).
     - abort (finding F-18, repaired): before the repair, cut after the entry write of the first or third branch no
       branch of reconcileAbort matched any more and the proposal stayed ABORTING for ever (witness then: 9 rounds with a
       rejecting plugin ++ [LRec (CtlProp (1,1)) 2 o] ++ any number of rounds -> p_abort Doing).  In the repaired code a fourth alternative
       writes ABORTED when both indexes have passed the proposal: C07_abort_both / _committed_only / _applied_only /
       _passed / _idle (the five cases), C07_resume_abort_before_entry (k = 1: same branch again), C07_resume_abort_first /
       _third (k = 2: the re-run writes the proposal, world = uninterrupted), C07_resume_abort_second (second branch:
       waits for the applied index, then third branch), regression C07_abort_crash_regression.
     - transaction reconciler: C07_tx_scan_idempotent (its effects are a function of the transaction and proposal
       stores), C07_tx_repeat (steps that write neither repeat the same effects), C07_tx_single_write (one write per
       invocation outside proposal creation), C07_write_twice_is_once, C07_create_guarded / _complete /
       _existing_noop (creation: nothing that exists is created again, nothing missing is skipped).
   NOT proved here (partial): "same final outcome as the crash-free run" for whole histories (needs quiescence +
   the sequential reference), the stamp of already created proposals in the transaction record after
   an interrupted creation (t_details differ, proposals equal). *)
From stdpp Require Import gmap.
From RecordUpdate Require Import RecordUpdate.
From Coq Require Import NArith.
From OC Require Import Base.Bytes Model.P2Pure Model.Proto2 Model.P2Inst Proofs.P2Base Proofs.P2Phases Proofs.P2_Failure Proofs.P2_Crash Proofs.P2_Rollback.
Open Scope N_scope.

Section C07.
  Context {V Ch Req D : Type}.
  Context (candidate : V -> Ch -> V) (candidate_rb : V -> Ch -> V) (rollback_of : V -> Ch -> Ch)
          (overlay : V -> V -> V) (commit_merge : N -> N -> V -> V -> Ch -> V)
          (payload : N -> V -> Ch -> option Req) (record_applied : N -> N -> V -> V -> V -> Ch -> V)
          (touched : N -> V -> Ch -> V) (restore : V -> V -> V)
          (resync_payload : V -> list (option Req)) (doc_ok : V -> bool)
          (dev_apply : D -> Req -> D) (stamp : N -> Ch -> Ch) (v_empty : V) (d_empty : D) (ch_empty : Ch).
  Notation world := (@world V Ch Req D).
  Notation apply_eff := (@apply_eff V Ch Req D dev_apply d_empty).
  Notation rec_tx := (@rec_tx V Ch Req D stamp).
  Notation rec_prop := (@rec_prop V Ch Req D candidate candidate_rb rollback_of overlay commit_merge payload record_applied
                                  touched restore doc_ok v_empty d_empty ch_empty).
  Notation reconcile := (@reconcile V Ch Req D candidate candidate_rb rollback_of overlay commit_merge payload record_applied
                                    touched restore resync_payload doc_ok stamp v_empty d_empty ch_empty).
  Notation step := (@step V Ch Req D candidate candidate_rb rollback_of overlay commit_merge payload record_applied
                          touched restore resync_payload doc_ok dev_apply stamp v_empty d_empty ch_empty).
  Notation reach := (@reach V Ch Req D candidate candidate_rb rollback_of overlay commit_merge payload record_applied
                            touched restore resync_payload doc_ok dev_apply stamp v_empty d_empty ch_empty).
  Notation dev_answer := (@dev_answer V Ch Req D d_empty).
  Notation dev_of := (@dev_of V Ch Req D d_empty).
  Notation view := (@view V overlay).
  Notation aview := (@aview V overlay).
  Notation rb_change := (@rb_change Ch ch_empty).
  Notation sendable := (@sendable V Ch Req D overlay payload ch_empty).
  Notation merge_rerun_stable := (@merge_rerun_stable V Ch overlay commit_merge).

  (* by definition *)
  Theorem C07_prefix_is_step :
    ∀ (w : world) (c : ctrl) (k : nat) (o : oracle),
    step w (LRec c k o) = fold_left apply_eff (take k (reconcile o w c).1) w.
  Proof. exact (@prefix_is_step V Ch Req D candidate candidate_rb rollback_of overlay commit_merge payload record_applied touched restore resync_payload doc_ok dev_apply stamp v_empty d_empty ch_empty). Qed.

  (* the phase invariant J and reachability after any crash point *)
  Theorem C07_invariants_survive_crash :
    ∀ w : world,
    reach w → ∀ (c : ctrl) (k : nat) (o : oracle), J (step w (LRec c k o)) ∧ reach (step w (LRec c k o)).
  Proof. exact (@invariants_survive_crash V Ch Req D candidate candidate_rb rollback_of overlay commit_merge payload record_applied touched restore resync_payload doc_ok dev_apply stamp v_empty d_empty ch_empty). Qed.

  (* every step-invariant holds after any crash point *)
  Theorem C07_any_invariant_survives_crash :
    ∀ I : world → Prop,
    I init
    → (∀ (w : world) (l : label), I w → I (step w l))
    → ∀ w : world, reach w → ∀ (c : ctrl) (k : nat) (o : oracle), I (step w (LRec c k o)).
  Proof. exact (@any_invariant_survives_crash V Ch Req D candidate candidate_rb rollback_of overlay commit_merge payload record_applied touched restore resync_payload doc_ok dev_apply stamp v_empty d_empty ch_empty). Qed.

  (* the uninterrupted commit *)
  Theorem C07_commit_effects :
    ∀ (o : oracle) (w : world) (t i : N) (P : prop) (C : config),
    committing w t i P C
    → c_committed C = p_prev P
    → rec_prop o w (t, i) =
    ([EPutValues t (commit_merge (o_order o) i (c_values C) (view C) (rb_change P));
    EPutCfg t (commit_entry overlay v_empty i P C);
    EPutProp (t, i) (P <| p_commit := Some Done |>)], requeue_next t P).
  Proof. exact (@commit_effects_merge V Ch Req D candidate candidate_rb rollback_of overlay commit_merge payload record_applied touched restore doc_ok v_empty d_empty ch_empty). Qed.

  (* cut at any store-call boundary, then re-run to the end: the world of ONE uninterrupted commit *)
  Theorem C07_resume_commit_partial :
    ∀ (o o' : oracle) (w : world) (t i : N) (P : prop) (C : config) (k : nat),
    committing w t i P C
    → c_committed C = p_prev P
    → p_prev P ≠ i
    → store_boundary k
    → step (step w (LRec (CtlProp (t, i)) k o)) (LRec (CtlProp (t, i)) 3 o') =
    step w (LRec (CtlProp (t, i)) 3 (if (k =? 0)%nat then o' else o)).
  Proof. exact (@commit_resume_boundary V Ch Req D candidate candidate_rb rollback_of overlay commit_merge payload record_applied touched restore resync_payload doc_ok dev_apply stamp v_empty d_empty ch_empty). Qed.

  (* stopped before the proposal write: no second merge, only the proposal write, same world *)
  Theorem C07_resume_commit_after_store :
    ∀ (o o' : oracle) (w : world) (t i : N) (P : prop) (C : config),
    committing w t i P C
    → c_committed C = p_prev P
    → p_prev P ≠ i
    → let w2 := step w (LRec (CtlProp (t, i)) 2 o) in
    rec_prop o' w2 (t, i) = ([EPutProp (t, i) (P <| p_commit := Some Done |>)], requeue_next t P)
    ∧ (∀ k' : nat,
    (1 <= k')%nat
    → step w2 (LRec (CtlProp (t, i)) k' o') = step w (LRec (CtlProp (t, i)) 3 o)).
  Proof. exact (@commit_resume_after_entry V Ch Req D candidate candidate_rb rollback_of overlay commit_merge payload record_applied touched restore resync_payload doc_ok dev_apply stamp v_empty d_empty ch_empty). Qed.

  (* stopped between the path-value write and the entry write: the re-run merges again on the written values *)
  Theorem C07_resume_commit_torn :
    ∀ (o o' : oracle) (w : world) (t i : N) (P : prop) (C : config),
    committing w t i P C
    → c_committed C = p_prev P
    → let v1 := commit_merge (o_order o) i (c_values C) (view C) (rb_change P) in
    let w1 := step w (LRec (CtlProp (t, i)) 1 o) in
    let C1 := C <| c_values := v1 |> in
    cfgs w1 !! t = Some C1
    ∧ rec_prop o' w1 (t, i) =
    ([EPutValues t (commit_merge (o_order o') i v1 (view C1) (rb_change P));
    EPutCfg t (commit_entry overlay v_empty i P C1);
    EPutProp (t, i) (P <| p_commit := Some Done |>)], requeue_next t P).
  Proof. exact (@commit_resume_after_values V Ch Req D candidate candidate_rb rollback_of overlay commit_merge payload record_applied touched restore resync_payload doc_ok dev_apply stamp v_empty d_empty ch_empty). Qed.

  (* ... harmless when the merge is stable under repetition *)
  Theorem C07_resume_commit_torn_partial :
    ∀ (o o' : oracle) (w : world) (t i : N) (P : prop) (C : config),
    committing w t i P C
    → c_committed C = p_prev P
    → merge_rerun_stable (o_order o) (o_order o') i C (rb_change P)
    → cfgs (step (step w (LRec (CtlProp (t, i)) 1 o)) (LRec (CtlProp (t, i)) 3 o')) =
    cfgs (step w (LRec (CtlProp (t, i)) 3 o))
    ∧ props (step (step w (LRec (CtlProp (t, i)) 1 o)) (LRec (CtlProp (t, i)) 3 o')) =
    props (step w (LRec (CtlProp (t, i)) 3 o)).
  Proof. exact (@commit_resume_after_values_same V Ch Req D candidate candidate_rb rollback_of overlay commit_merge payload record_applied touched restore resync_payload doc_ok dev_apply stamp v_empty d_empty ch_empty). Qed.

  (* the reconciler of a COMMITTED proposal has no effect *)
  Theorem C07_committed_is_idle :
    ∀ (o : oracle) (w : world) (t i : N) (P : prop),
    props w !! (t, i) = Some P
    → p_apply P = None → p_abort P = None → p_commit P = Some Done → (rec_prop o w (t, i)).1 = [].
  Proof. exact (@committed_idle V Ch Req D candidate candidate_rb rollback_of overlay commit_merge payload record_applied touched restore doc_ok v_empty d_empty ch_empty). Qed.

  (* stopped after the device accepted: same request again *)
  Theorem C07_resume_apply_resend :
    ∀ (o o' : oracle) (w : world) (t i : N) (P : prop) (C : config) (m : N) (req : Req),
    sendable w t i P C m req
    → dev_answer w t (c_term C) o = COk
    → let w1 := step w (LRec (CtlProp (t, i)) 1 o) in
    sendable w1 t i P C m req
    ∧ dev_answer w1 t (c_term C) o' = o_answer o'
    ∧ rec_prop o' w1 (t, i) =
    after_answer overlay record_applied touched restore v_empty ch_empty 
    (o_order o') t i P C m req (o_answer o').
  Proof. exact (@apply_resume_after_send V Ch Req D candidate candidate_rb rollback_of overlay commit_merge payload record_applied touched restore resync_payload doc_ok dev_apply stamp v_empty d_empty ch_empty). Qed.

  (* stopped before the proposal write: only the proposal write *)
  Theorem C07_resume_apply :
    ∀ (o o' : oracle) (w : world) (t i : N) (P : prop) (C : config) (m : N) (req : Req),
    sendable w t i P C m req
    → dev_answer w t (c_term C) o = COk
    → let w3 := step w (LRec (CtlProp (t, i)) 3 o) in
    rec_prop o' w3 (t, i) =
    ([EPutProp (t, i) (P <| p_apply := Some Done |> <| p_term := c_aterm C |>)], requeue_next t P)
    ∧ (c_aterm C <= c_term C
    → ∀ k' : nat,
    (1 <= k')%nat
    → step w3 (LRec (CtlProp (t, i)) k' o') = step w (LRec (CtlProp (t, i)) 4 o)).
  Proof. exact (@apply_resume_after_entry V Ch Req D candidate candidate_rb rollback_of overlay commit_merge payload record_applied touched restore resync_payload doc_ok dev_apply stamp v_empty d_empty ch_empty). Qed.

  (* refused, stopped after the device event: nothing stored, sendable again *)
  Theorem C07_resume_apply_refused_resend :
    ∀ (o o' : oracle) (w : world) (t i : N) (P : prop) (C : config) (m : N) (req : Req) (f : ftype),
    sendable w t i P C m req
    → dev_answer w t (c_term C) o ≠ COk
    → classify (observed (dev_answer w t (c_term C) o)) = ClsFail f
    → let w1 := step w (LRec (CtlProp (t, i)) 1 o) in
    sendable w1 t i P C m req
    ∧ devs w1 = devs w
    ∧ rec_prop o' w1 (t, i) =
    after_answer overlay record_applied touched restore v_empty ch_empty 
    (o_order o') t i P C m req (dev_answer w t (c_term C) o').
  Proof. exact (@refused_apply_resume_after_send V Ch Req D candidate candidate_rb rollback_of overlay commit_merge payload record_applied touched restore resync_payload doc_ok dev_apply stamp v_empty d_empty ch_empty). Qed.

  (* refused, stopped anywhere after the proposal write: FAILED stays, re-run completes the index move *)
  Theorem C07_resume_apply_refused :
    ∀ (o o' : oracle) (w : world) (t i : N) (P : prop) (C : config) (m : N) (req : Req) 
    (f : ftype) (k : nat),
    sendable w t i P C m req
    → dev_answer w t (c_term C) o ≠ COk
    → classify (observed (dev_answer w t (c_term C) o)) = ClsFail f
    → (2 <= k)%nat
    → let wk := step w (LRec (CtlProp (t, i)) k o) in
    let P' := P <| p_apply := Some Failed |> <| p_afail := Some f |> <| p_term := c_term C |> in
    props wk !! (t, i) = Some P'
    ∧ devs wk = devs w
    ∧ (∃ Ck : config,
    cfgs wk !! t = Some Ck
    ∧ (c_applied Ck = c_applied C ∨ c_applied Ck = i)
    ∧ c_committed Ck = c_committed C
    ∧ c_values Ck = c_values C
    ∧ rec_prop o' wk (t, i) =
    (if c_applied Ck <? i
    then
    [EPutAValues t (restore (c_avalues Ck) (aview Ck));
    EPutCfg t
    (Ck <| c_applied := i |> <| c_inline := view Ck |> <| c_ainline :=
    v_empty |>)]
    else [], requeue_next t P)
    ∧ (∃ C' : config,
    cfgs (step wk (LRec (CtlProp (t, i)) 2 o')) !! t = Some C'
    ∧ c_applied C' = i
    ∧ c_committed C' = c_committed C ∧ c_values C' = c_values C)
    ∧ props (step wk (LRec (CtlProp (t, i)) 2 o')) !! (t, i) = Some P').
  Proof. exact (@refused_apply_resume V Ch Req D candidate candidate_rb rollback_of overlay commit_merge payload record_applied touched restore resync_payload doc_ok dev_apply stamp v_empty d_empty ch_empty). Qed.

  (* the reconciler of a FAILED proposal *)
  Theorem C07_failed_is_final :
    ∀ (o : oracle) (w : world) (t i : N) (P : prop) (C : config),
    props w !! (t, i) = Some P
    → p_apply P = Some Failed
    → cfgs w !! t = Some C
    → rec_prop o w (t, i) =
    (if c_applied C <? i
    then
    [EPutAValues t (restore (c_avalues C) (aview C));
    EPutCfg t (C <| c_applied := i |> <| c_inline := view C |> <| c_ainline := v_empty |>)]
    else [], requeue_next t P).
  Proof. exact (@failed_pass V Ch Req D candidate candidate_rb rollback_of overlay commit_merge payload record_applied touched restore doc_ok v_empty d_empty ch_empty). Qed.

  (* abort, first branch *)
  Theorem C07_abort_both :
    ∀ (o : oracle) (w : world) (t i : N) (P : prop) (C : config),
    aborting w t i P C
    → c_committed C = p_prev P
    → c_applied C = p_prev P
    → rec_prop o w (t, i) =
    ([EPutAValues t (restore (c_avalues C) (aview C));
    EPutCfg t
    (C <| c_committed := i |> <| c_applied := i |> <| c_inline := view C |> <| c_ainline :=
    v_empty |>); EPutProp (t, i) (P <| p_abort := Some Done |>)], 
    requeue_next t P).
  Proof. exact (@abort_both V Ch Req D candidate candidate_rb rollback_of overlay commit_merge payload record_applied touched restore doc_ok v_empty d_empty ch_empty). Qed.

  (* abort, second branch *)
  Theorem C07_abort_committed_only :
    ∀ (o : oracle) (w : world) (t i : N) (P : prop) (C : config),
    aborting w t i P C
    → c_committed C = p_prev P
    → c_applied C ≠ p_prev P
    → rec_prop o w (t, i) =
    ([EPutAValues t (restore (c_avalues C) (aview C));
    EPutCfg t (C <| c_committed := i |> <| c_inline := view C |> <| c_ainline := v_empty |>)],
    RDone).
  Proof. exact (@abort_committed_only V Ch Req D candidate candidate_rb rollback_of overlay commit_merge payload record_applied touched restore doc_ok v_empty d_empty ch_empty). Qed.

  (* abort, third branch *)
  Theorem C07_abort_applied_only :
    ∀ (o : oracle) (w : world) (t i : N) (P : prop) (C : config),
    aborting w t i P C
    → c_committed C ≠ p_prev P
    → c_applied C = p_prev P
    → i <= c_committed C
    → rec_prop o w (t, i) =
    ([EPutAValues t (restore (c_avalues C) (aview C));
    EPutCfg t (C <| c_applied := i |> <| c_inline := view C |> <| c_ainline := v_empty |>);
    EPutProp (t, i) (P <| p_abort := Some Done |>)], requeue_next t P).
  Proof. exact (@abort_applied_only V Ch Req D candidate candidate_rb rollback_of overlay commit_merge payload record_applied touched restore doc_ok v_empty d_empty ch_empty). Qed.

  (* abort, fourth alternative (both indexes passed) *)
  Theorem C07_abort_passed :
    ∀ (o : oracle) (w : world) (t i : N) (P : prop) (C : config),
    aborting w t i P C
    → c_committed C ≠ p_prev P
    → c_applied C ≠ p_prev P
    → i <= c_committed C
    → i <= c_applied C
    → rec_prop o w (t, i) = ([EPutProp (t, i) (P <| p_abort := Some Done |>)], requeue_next t P).
  Proof. exact (@abort_passed V Ch Req D candidate candidate_rb rollback_of overlay commit_merge payload record_applied touched restore doc_ok v_empty d_empty ch_empty). Qed.

  (* abort, otherwise nothing *)
  Theorem C07_abort_idle :
    ∀ (o : oracle) (w : world) (t i : N) (P : prop) (C : config),
    aborting w t i P C
    → c_committed C ≠ p_prev P
    → c_applied C ≠ p_prev P
    → c_committed C < i ∨ c_applied C < i
    → rec_prop o w (t, i) = ([], if p_prev P =? 0 then RDone else RRequeueProp (t, p_prev P)).
  Proof. exact (@abort_idle V Ch Req D candidate candidate_rb rollback_of overlay commit_merge payload record_applied touched restore doc_ok v_empty d_empty ch_empty). Qed.

  (* stopped after the re-store of the applied values: indexes unmoved, same branch again *)
  Theorem C07_resume_abort_before_entry :
    ∀ (w : world) (t i : N) (P : prop) (C : config) (va : V) (rest : list eff),
    aborting w t i P C
    → let w1 := fold_left apply_eff (take 1 (EPutAValues t va :: rest)) w in
    aborting w1 t i P (C <| c_avalues := va |>).
  Proof. exact (@abort_resume_after_values V Ch Req D dev_apply d_empty). Qed.

  (* first branch stopped before the proposal write: the re-run writes it, same world *)
  Theorem C07_resume_abort_first :
    ∀ (o o' : oracle) (w : world) (t i : N) (P : prop) (C : config),
    aborting w t i P C
    → c_committed C = p_prev P
    → c_applied C = p_prev P
    → p_prev P ≠ i
    → let w2 := step w (LRec (CtlProp (t, i)) 2 o) in
    rec_prop o' w2 (t, i) = ([EPutProp (t, i) (P <| p_abort := Some Done |>)], requeue_next t P)
    ∧ (∀ k' : nat,
    (1 <= k')%nat
    → step w2 (LRec (CtlProp (t, i)) k' o') = step w (LRec (CtlProp (t, i)) 3 o)).
  Proof. exact (@abort_both_resume V Ch Req D candidate candidate_rb rollback_of overlay commit_merge payload record_applied touched restore resync_payload doc_ok dev_apply stamp v_empty d_empty ch_empty). Qed.

  (* third branch stopped before the proposal write: the re-run writes it, same world *)
  Theorem C07_resume_abort_third :
    ∀ (o o' : oracle) (w : world) (t i : N) (P : prop) (C : config),
    aborting w t i P C
    → c_committed C ≠ p_prev P
    → c_applied C = p_prev P
    → i <= c_committed C
    → p_prev P ≠ i
    → let w2 := step w (LRec (CtlProp (t, i)) 2 o) in
    rec_prop o' w2 (t, i) =
    ([EPutProp (t, i) (P <| p_abort := Some Done |>)], requeue_next t P)
    ∧ (∀ k' : nat,
    (1 <= k')%nat
    → step w2 (LRec (CtlProp (t, i)) k' o') = step w (LRec (CtlProp (t, i)) 3 o)).
  Proof. exact (@abort_applied_resume V Ch Req D candidate candidate_rb rollback_of overlay commit_merge payload record_applied touched restore resync_payload doc_ok dev_apply stamp v_empty d_empty ch_empty). Qed.

  (* second branch: after its entry write the proposal waits for the applied index *)
  Theorem C07_resume_abort_second :
    ∀ (o o' : oracle) (w : world) (t i : N) (P : prop) (C : config),
    aborting w t i P C
    → c_committed C = p_prev P
    → c_applied C ≠ p_prev P
    → c_applied C < i
    → p_prev P ≠ i
    → let w2 := step w (LRec (CtlProp (t, i)) 2 o) in
    rec_prop o' w2 (t, i) = ([], if p_prev P =? 0 then RDone else RRequeueProp (t, p_prev P))
    ∧ (∃ C2 : config, aborting w2 t i P C2 ∧ c_committed C2 = i ∧ c_applied C2 = c_applied C).
  Proof. exact (@abort_committed_resume V Ch Req D candidate candidate_rb rollback_of overlay commit_merge payload record_applied touched restore resync_payload doc_ok dev_apply stamp v_empty d_empty ch_empty). Qed.

  (* the transaction reconciler is a function of the transaction and proposal stores *)
  Theorem C07_tx_scan_idempotent :
    ∀ (w w' : world) (i : N), txs w = txs w' → props w = props w' → rec_tx w i = rec_tx w' i.
  Proof. exact (@rec_tx_snapshot V Ch Req D stamp). Qed.

  (* steps writing neither store leave its effects unchanged *)
  Theorem C07_tx_repeat :
    ∀ (w : world) (i : N) (c : ctrl) (k : nat) (o : oracle),
    Forall tp_neutral (take k (reconcile o w c).1) → rec_tx (step w (LRec c k o)) i = rec_tx w i.
  Proof. exact (@rec_tx_repeat V Ch Req D candidate candidate_rb rollback_of overlay commit_merge payload record_applied touched restore resync_payload doc_ok dev_apply stamp v_empty d_empty ch_empty). Qed.

  (* one write per invocation outside proposal creation *)
  Theorem C07_tx_single_write :
    ∀ (w : world) (i : N) (T : txn),
    txs w !! i = Some T
    → is_Some (t_props T) ∨ t_init T ≠ Some Doing ∨ is_Some (t_validate T)
    → (length (rec_tx w i).1 <= 1)%nat.
  Proof. exact (@rec_tx_single_write V Ch Req D stamp). Qed.

  (* record writes are idempotent *)
  Theorem C07_write_twice_is_once :
    ∀ (w : world) (e : eff),
    match e with
    | EPutCfg _ _ | ERelCreate _ _ | ERelDelete _ | EDev _ => False
    | _ => True
    end → apply_eff (apply_eff w e) e = apply_eff w e.
  Proof. exact (@put_twice V Ch Req D dev_apply d_empty). Qed.

  (* creations only for missing proposals *)
  Theorem C07_create_guarded :
    ∀ (w : world) (i : N) (l : list (N * prop)),
    Forall
    (λ e : eff,
    ∃ (t : N) (p : prop), e = ECreateProp (t, i) p ∧ props w !! (t, i) = None ∧ In (t, p) l)
    (create_props w i l).
  Proof. exact (@create_props_guarded V Ch Req D). Qed.

  (* every missing proposal is created *)
  Theorem C07_create_complete :
    ∀ (w : world) (i : N) (l : list (N * prop)) (t : N) (p : prop),
    In (t, p) l → props w !! (t, i) = None → In (ECreateProp (t, i) p) (create_props w i l).
  Proof. exact (@create_props_complete V Ch Req D). Qed.

  (* creating an existing proposal changes nothing *)
  Theorem C07_create_existing_noop :
    ∀ (w : world) (k : N * N) (p : prop), is_Some (props w !! k) → apply_eff w (ECreateProp k p) = w.
  Proof. exact (@create_existing_noop V Ch Req D dev_apply d_empty). Qed.

End C07.

(* F-17 witness, every cut point, repaired model *)
Theorem C07_refused_apply_crash_regression :
  forallb (λ k : nat, y_failed_well (y_refused k)) [0%nat; 1%nat; 2%nat; 3%nat; 4%nat; 5%nat] = true
  ∧ forallb (λ k : nat, y_failed_well (y_refused_then_ok k)) [2%nat; 3%nat; 4%nat] = true.
Proof. exact refused_apply_crash_regression. Qed.

(* F-18 witness, every cut point, repaired model *)
Theorem C07_abort_crash_regression :
  forallb
  (λ k : nat,
  bool_decide (y_pabort (y_aborted k 2) (1, 1) = Some Done) &&
  bool_decide (y_tabort (y_aborted k 2) 1 = Some Done) &&
  bool_decide (y_state (y_aborted k 2) 1 = Some TFailed) &&
  bool_decide (c_applied <$> cfgs (y_aborted k 2) !! 1 = Some 1) &&
  bool_decide (c_committed <$> cfgs (y_aborted k 2) !! 1 = Some 1)) [0%nat; 1%nat; 2%nat; 3%nat] =
  true.
Proof. exact abort_crash_regression. Qed.

(* OPEN finding F-08c: torn commit of {delete /a, set /a/c}: uninterrupted /a/c = 2, torn: empty *)
Theorem C07_resume_commit_torn_refuted :
  y_state (y_torn 3) 1 = Some TApplied
  ∧ y_live (y_torn 3) 1 = [(B "/a/c", B "2")]
  ∧ y_state (y_torn 1) 1 = Some TApplied ∧ y_live (y_torn 1) 1 = [].
Proof. exact torn_commit_refuted. Qed.

(* the concrete merge is not stable under repetition for that change *)
Theorem C07_merge_rerun_unstable_refuted :
  ∃ (C : Cfg) (ch : cmap), ¬ merge_rerun_stable overlay commit_merge 0 0 1 C ch.
Proof. exact merge_rerun_unstable. Qed.

Print Assumptions C07_prefix_is_step.
Print Assumptions C07_invariants_survive_crash.
Print Assumptions C07_any_invariant_survives_crash.
Print Assumptions C07_commit_effects.
Print Assumptions C07_resume_commit_partial.
Print Assumptions C07_resume_commit_after_store.
Print Assumptions C07_resume_commit_torn.
Print Assumptions C07_resume_commit_torn_partial.
Print Assumptions C07_committed_is_idle.
Print Assumptions C07_resume_apply_resend.
Print Assumptions C07_resume_apply.
Print Assumptions C07_resume_apply_refused_resend.
Print Assumptions C07_resume_apply_refused.
Print Assumptions C07_failed_is_final.
Print Assumptions C07_abort_both.
Print Assumptions C07_abort_committed_only.
Print Assumptions C07_abort_applied_only.
Print Assumptions C07_abort_passed.
Print Assumptions C07_abort_idle.
Print Assumptions C07_resume_abort_before_entry.
Print Assumptions C07_resume_abort_first.
Print Assumptions C07_resume_abort_third.
Print Assumptions C07_resume_abort_second.
Print Assumptions C07_tx_scan_idempotent.
Print Assumptions C07_tx_repeat.
Print Assumptions C07_tx_single_write.
Print Assumptions C07_write_twice_is_once.
Print Assumptions C07_create_guarded.
Print Assumptions C07_create_complete.
Print Assumptions C07_create_existing_noop.
Print Assumptions C07_refused_apply_crash_regression.
Print Assumptions C07_abort_crash_regression.
Print Assumptions C07_resume_commit_torn_refuted.
Print Assumptions C07_merge_rerun_unstable_refuted.
