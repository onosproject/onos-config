(* C09 - Controllers never strand a transaction that could make progress.
   Statements only.

   Model: Model/Proto2Queue.v = the protocol model Model/Proto2.v (the five v2 reconcilers, tied to the code by the
   p2 harness) + the pending work of the five controllers as ONE multiset of (controller, id): the six watcher.go
   files are transcribed as [wakes] (which ids a store write / topology change / connection change enqueues) and
   onos-lib-go's reconcileRequest as [requeue] (Requeue{id} enqueues id, an error re-enqueues the same id, anything
   else drops it).  A queue step delivers ANY pending id (every delivery order), runs the whole reconcile, applies its
   effects and enqueues what the watchers map each write to.  The model is the CURRENT code: the repairs of the lost
   wake-ups F-02a (dead_prev), F-02b (initfail_successor), F-02e (sync_wakeup) and of the wedged target F-21 - /repo
   commits ee3b808, 39c8330, cb11c37, 6c28fbb - of the SERIALIZABLE gates F-02d - eabfc1f, the transaction watcher also
   names the successors of the transaction on each of its targets - and of F-C09-23 - 3e4ef79, the proposal
   controller's configuration watcher also names the first proposal that is not applied yet - are part of Model/Proto2.v and of [wakes].

   How the theorems decide the property.
   No lost wake-up family is known for the current code: the model search (ocaml/c09_search.ml, run on every
   check) finds no idle state that is not a fixed point and no livelock with every target connected, with and without
   SERIALIZABLE transactions (> 700 000 idle states per tier-thorough run); the scenarios of the repaired
   findings complete on the real controllers (harness/cmd/c09) and as regression Examples in Proofs/P2_QueueWitness.v
   (regression_dead_prev, _apply_failed, _initfail_successor, _serializable_gate, _serializable_three, _sync_wakeup,
   _sync_serializable, _serializable_two_followers, _sync_serializable_rollback, _two_changes_offline, _partial_apply_failure: they end idle, at a fixed point, every target
   connected, every transaction final).  The property is NOT proved in full:
     C09_busy_wait_refuted        "the controllers have no pending work" need not be reached while a device is away: behind
                                  a SERIALIZABLE transaction that waits for its device, a COMMITTED proposal whose apply
                                  phase was not started and its successor in APPLYING re-queue each other, whatever the
                                  oracle, and nothing else is pending: the work set stays non-empty and the world unchanged
                                  until the environment moves (open finding F-C09-22; no small repair)
   What is proved for all pure layers, worlds, oracles and delivery orders:
     C09_queue_runs_are_runs      every queued run is a run of Model/Proto2.v (so every invariant proved about that
                                  model - C01 ... - holds in every queued world)
     C09_enabled_only_stored      only ids that name a stored record can be enabled: the "one extra pass over all
                                  objects" of the harness monitors is a complete fixed-point test
     C09_fixpoint_partial         C09_fixpoint under the wake-up-token invariant [tokens] (every enabled id is reached
                                  from a pending id through re-queue results): all queues empty => no reconcile of any
                                  controller id has an effect, for any oracle.
                                  PARTIAL: [tokens] is a hypothesis, not a proved invariant.  Proved towards it:
     C09_writes_wake_owners       after the delivery of ANY pending id, for every record it wrote the controller of that
                                  record, the transaction of a written proposal, and for a configuration the proposal
                                  controller (Index, Applied.Index, Proposed.Index), the configuration and the mastership
                                  controller are pending: every id whose enabledness depends only on the written record
                                  keeps a token.
     C09_wait_a_has_token         PROVED for every reachable queued world (wait (a)): an INITIALIZING transaction that is
                                  enabled is pending, or its predecessor is INITIALIZED and has not started validating -
                                  and the write that takes the predecessor past its validate gate returns Requeue{i}.
     C09_wait_b_has_token         PROVED for every reachable queued world (wait (b)): an enabled transaction at one of the
                                  three gates (INITIALIZED / VALIDATED / COMMITTED, next phase not started) is pending: the
                                  transaction event of the SERIALIZABLE predecessor that opens the gate names it (tx_wakes,
                                  eabfc1f; uses J, K, T_inv, C_inv of the protocol model lifted to queued worlds).
     C09_fixpoint_partial2        the fixed-point theorem with the token hypothesis ONLY for the ids that are not an
                                  INITIALIZING or gate-state transaction ([tokens_rest]): all queues empty => a reconcile
                                  has no effect, or it is an INITIALIZING transaction whose predecessor is INITIALIZED and
                                  parked at the validate gate, closed behind a SERIALIZABLE transaction that is not
                                  VALIDATED yet ([parked_behind_gate]; excluding it at an idle world needs the descent over
                                  transaction indexes: that older transaction must itself have something pending).
                                  Note: [tokens] as stated (effect-free hand-overs only) is NOT an invariant of the non-idle
                                  reachable worlds - exactly wait (a) breaks it, between the predecessor's INITIALIZED write
                                  and its next reconcile (1.7 million reachable states checked by ocaml/c09_search.ml with
                                  C09_INV=2: no other shape) - which is why (a) is stated with the guardian disjunct.
                                  STILL MISSING for [tokens_rest] (each needs the chain invariants C_inv / T_inv / G_inv of
                                  Proofs/P2_Cursor*.v, which hold in every queued world by C09_queue_runs_are_runs, plus a
                                  case analysis per waiting state): the cross-record waits -
                                  the transaction controller's phase scans (woken by the proposal events: record-local,
                                      C09_writes_wake_owners) and
                                  (c) a proposal waiting for Committed / Applied.Index = PrevIndex (token: the predecessor's
                                      requeue_next, or the walk back from Proposed.Index / first_unapplied) - the VALIDATE
                                      half of it (Committed.Index = PrevIndex) is PROVED for every queued world:
                                      C09_wait_c_has_token at the end of this file (Proofs/P2_QueueWaitC{,2,3}.v), with the
                                      guardian it needs (the predecessor is in Abort IN_PROGRESS, and its Applied.Index is not
                                      yet on its own PrevIndex or the predecessor itself is pending); the Abort IN_PROGRESS
                                      and Apply waits on the cursors are still open;
                                  (d) a proposal in APPLYING waiting for master / term / synchronisation / connection
                                      (token: cfg_wakes first_unapplied);
                                  and an environment hypothesis: no foreign CONTROLS relation and no target removed while its
                                  connection stays (there the connection / mastership ids are enabled by design without
                                  being woken).  Evidence instead of proof: the search above.
     C09_terminates_partial       every write of the transaction controller and of the proposal controller to a
                                  transaction / proposal record strictly lowers the phase rank of that record
                                  (C09_rank_bounds: at most 11 / 12), so records only move forward and each is written a
                                  bounded number of times.  PARTIAL: not summed into one global measure (missing: the
                                  sum over the finite maps, and the cursor writes of the configuration - Proposed /
                                  Committed / Applied indexes - which need the chain invariant prev < index), and
                                  C09_busy_wait_refuted shows that effect-free re-queueing need NOT terminate while a device is away.
   C09_progress (reachable, every target connected, a transaction not final => some id enabled) is neither proved nor
   refuted for the current model (its refutation, the wedged target F-21, is repaired: regression_partial_apply_failure);
   a proof needs the same chain invariants and the case analysis (c), (d) read as progress statements. *)
From stdpp Require Import gmap.
From Coq Require Import NArith.
From OC Require Import Base.Bytes Model.P2Pure Model.Proto2 Model.P2Inst Model.Proto2Queue Model.P2QInst
     Proofs.P2Base Proofs.P2Phases Proofs.P2_Cursor Proofs.P2_Queue Proofs.P2_QueueWaitA Proofs.P2_QueueWaitC Proofs.P2_QueueWitness.
Open Scope N_scope.

Section C09.
  Context {V Ch Req D : Type}.
  Context (candidate : V -> Ch -> V) (candidate_rb : V -> Ch -> V) (rollback_of : V -> Ch -> Ch)
          (overlay : V -> V -> V) (commit_merge : N -> N -> V -> V -> Ch -> V)
          (payload : N -> V -> Ch -> option Req) (record_applied : N -> N -> V -> V -> V -> Ch -> V)
          (touched : N -> V -> Ch -> V) (restore : V -> V -> V)
          (resync_payload : V -> list (option Req)) (doc_ok : V -> bool)
          (dev_apply : D -> Req -> D) (stamp : N -> Ch -> Ch) (v_empty : V) (d_empty : D) (ch_empty : Ch).
  Notation reconcile := (@reconcile V Ch Req D candidate candidate_rb rollback_of overlay commit_merge payload record_applied
                                    touched restore resync_payload doc_ok stamp v_empty d_empty ch_empty).
  Notation reach := (@reach V Ch Req D candidate candidate_rb rollback_of overlay commit_merge payload record_applied
                            touched restore resync_payload doc_ok dev_apply stamp v_empty d_empty ch_empty).
  Notation qreach := (@qreach V Ch Req D candidate candidate_rb rollback_of overlay commit_merge payload record_applied
                                 touched restore resync_payload doc_ok dev_apply stamp v_empty d_empty ch_empty).
  Notation tokens := (@tokens V Ch Req D candidate candidate_rb rollback_of overlay commit_merge payload record_applied
                              touched restore resync_payload doc_ok stamp v_empty d_empty ch_empty).
  Notation forward := (@forward V Ch Req D).
  Notation qstp := (@qstep V Ch Req D candidate candidate_rb rollback_of overlay commit_merge payload record_applied
                            touched restore resync_payload doc_ok dev_apply stamp v_empty d_empty ch_empty).

  Theorem C09_queue_runs_are_runs : forall (s : @qworld V Ch Req D), qreach s -> reach (qw s).
  Proof. exact (qreach_reach candidate candidate_rb rollback_of overlay commit_merge payload record_applied touched restore
                  resync_payload doc_ok dev_apply stamp v_empty d_empty ch_empty). Qed.

  Theorem C09_enabled_only_stored : forall (o : oracle) (w : @world V Ch Req D) (c : ctrl),
    fst (reconcile o w c) <> [] -> In c (all_ctrls w).
  Proof. exact (enabled_stored candidate candidate_rb rollback_of overlay commit_merge payload record_applied touched restore
                  resync_payload doc_ok stamp v_empty d_empty ch_empty). Qed.

  Theorem C09_fixpoint_partial : forall (s : @qworld V Ch Req D),
    qreach s -> tokens s -> idle s = true -> forall c o, fst (reconcile o (qw s) c) = [].
  Proof. exact (fun s _ => fixpoint_of_tokens candidate candidate_rb rollback_of overlay commit_merge payload record_applied touched
                  restore resync_payload doc_ok stamp v_empty d_empty ch_empty s). Qed.

  Theorem C09_writes_wake_owners : forall (s : @qworld V Ch Req D) n o c0 e c,
    nth_error (queue s) n = Some c0 -> In e (fst (reconcile o (qw s) c0)) -> lands (qw s) e -> In c (owners e) ->
    In c (queue (@qstep V Ch Req D candidate candidate_rb rollback_of overlay commit_merge payload record_applied touched restore
                        resync_payload doc_ok dev_apply stamp v_empty d_empty ch_empty s (QDeliver n o))).
  Proof. exact (delivery_wakes_owners candidate candidate_rb rollback_of overlay commit_merge payload record_applied touched restore
                  resync_payload doc_ok dev_apply stamp v_empty d_empty ch_empty). Qed.

  Theorem C09_wait_a_has_token : forall (s : @qworld V Ch Req D), qreach s ->
    forall i (T : @txn Ch), txs (qw s) !! i = Some T -> t_init T = Some Doing -> fst (reconcile (mkOracle true true COk 0 0) (qw s) (CtlTx i)) <> [] ->
      In (CtlTx i) (queue s) \/ exists P, txs (qw s) !! (i - 1) = Some P /\ at_init_gate P.
  Proof. exact (wait_a_reach candidate candidate_rb rollback_of overlay commit_merge payload record_applied touched restore
                  resync_payload doc_ok dev_apply stamp v_empty d_empty ch_empty). Qed.

  Theorem C09_wait_b_has_token : forall (s : @qworld V Ch Req D), qreach s ->
    forall j (T : @txn Ch), txs (qw s) !! j = Some T -> gate_state T -> fst (reconcile (mkOracle true true COk 0 0) (qw s) (CtlTx j)) <> [] ->
      In (CtlTx j) (queue s).
  Proof. exact (wait_b_reach candidate candidate_rb rollback_of overlay commit_merge payload record_applied touched restore
                  resync_payload doc_ok dev_apply stamp v_empty d_empty ch_empty). Qed.

  (* wait (c), PARTIAL (one delivery, from every reachable queued world): the delivery that makes Committed.Index the
     PrevIndex of a stored proposal (t, i) - which opens its Validate / Abort guard - leaves (t, i) pending, through the
     mover's hand-over to its successor; the ONE exception is exhibited: the mover is the predecessor itself in Abort
     IN_PROGRESS with Applied.Index still behind its own PrevIndex (that branch of reconcileAbort moves Committed.Index
     and returns without a re-queue; the successor is then woken by the configuration event only when it is the proposal
     Proposed.Index names, or later by the re-queue of its own successor).  The invariant form over all queued worlds, for the
     Validate guard, is C09_wait_c_has_token. *)
  Theorem C09_wait_c_delivery_partial : forall (s : @qworld V Ch Req D) n o c t i (P : @prop Ch),
    qreach s -> nth_error (queue s) n = Some c ->
    props (qw s) !! (t, i) = Some P -> p_prev P <> 0 ->
    @committed_of V Ch Req D (qw s) t <> p_prev P ->
    @committed_of V Ch Req D (qw (qstp s (QDeliver n o))) t = p_prev P ->
    In (CtlProp (t, i)) (queue (qstp s (QDeliver n o))) \/
    exists (Q : @prop Ch), props (qw s) !! (t, p_prev P) = Some Q /\ c = CtlProp (t, p_prev P) /\ p_next Q = i /\
      p_apply Q = None /\ p_abort Q = Some Doing /\
      @committed_of V Ch Req D (qw s) t = p_prev Q /\ @applied_of V Ch Req D (qw s) t <> p_prev Q.
  Proof. exact (committed_opens_wakes candidate candidate_rb rollback_of overlay commit_merge payload record_applied touched restore
                  resync_payload doc_ok dev_apply stamp v_empty d_empty ch_empty). Qed.

  Theorem C09_fixpoint_partial2 : forall (s : @qworld V Ch Req D),
    qreach s ->
    tokens_rest candidate candidate_rb rollback_of overlay commit_merge payload record_applied touched restore resync_payload doc_ok
                stamp v_empty d_empty ch_empty s ->
    idle s = true ->
    forall c o, fst (reconcile o (qw s) c) = [] \/ parked_behind_gate stamp (qw s) c.
  Proof. exact (fixpoint_of_tokens_rest candidate candidate_rb rollback_of overlay commit_merge payload record_applied touched restore
                  resync_payload doc_ok dev_apply stamp v_empty d_empty ch_empty). Qed.

  Theorem C09_terminates_partial : forall (o : oracle) (w : @world V Ch Req D) (c : ctrl),
    (match c with CtlTx _ | CtlProp _ => True | _ => False end) -> Forall (forward w) (fst (reconcile o w c)).
  Proof. exact (records_move_forward candidate candidate_rb rollback_of overlay commit_merge payload record_applied touched restore
                  resync_payload doc_ok stamp v_empty d_empty ch_empty). Qed.

  Theorem C09_rank_bounds : forall (T : @txn Ch) (P : @prop Ch), (mt T <= 11)%nat /\ (mp P <= 12)%nat.
  Proof. exact (fun T P => conj (mt_bound T) (mp_bound P)). Qed.
End C09.

(* the current code, executable instance *)
Theorem C09_busy_wait_refuted : busy_wait.
Proof. exact busy_wait_device_away. Qed.

Print Assumptions C09_queue_runs_are_runs.
Print Assumptions C09_enabled_only_stored.
Print Assumptions C09_fixpoint_partial.
Print Assumptions C09_writes_wake_owners.
Print Assumptions C09_wait_a_has_token.
Print Assumptions C09_wait_b_has_token.
Print Assumptions C09_wait_c_delivery_partial.
Print Assumptions C09_fixpoint_partial2.
Print Assumptions C09_terminates_partial.
Print Assumptions C09_rank_bounds.
Print Assumptions C09_busy_wait_refuted.

(* wait (c), Validate: PROVED for every reachable queued world.  A stored proposal (t, i) in Validate IN_PROGRESS (no later
   phase started) whose PrevIndex is set and equals Committed.Index of its target - its validate guard is open - is pending,
   or it is guarded: its predecessor (t, PrevIndex) is stored in Abort IN_PROGRESS (apply phase not started) and either
   Applied.Index of the target is not yet the predecessor's PrevIndex (the abort moved only Committed.Index and returned
   without re-queueing its successor; it will finish, and then return Requeue{(t, i)}, when ITS predecessor re-queues it)
   or the predecessor itself is pending.  No enabledness premise is needed: a delivery at the open guard writes the
   proposal's record or fails, and a failure re-enters the same id. *)
From OC Require Import Proofs.P2_QueueWaitC2 Proofs.P2_QueueWaitC3.

Section C09c.
  Context {V Ch Req D : Type}.
  Context (candidate : V -> Ch -> V) (candidate_rb : V -> Ch -> V) (rollback_of : V -> Ch -> Ch)
          (overlay : V -> V -> V) (commit_merge : N -> N -> V -> V -> Ch -> V)
          (payload : N -> V -> Ch -> option Req) (record_applied : N -> N -> V -> V -> V -> Ch -> V)
          (touched : N -> V -> Ch -> V) (restore : V -> V -> V)
          (resync_payload : V -> list (option Req)) (doc_ok : V -> bool)
          (dev_apply : D -> Req -> D) (stamp : N -> Ch -> Ch) (v_empty : V) (d_empty : D) (ch_empty : Ch).
  Notation qreach := (@qreach V Ch Req D candidate candidate_rb rollback_of overlay commit_merge payload record_applied
                                 touched restore resync_payload doc_ok dev_apply stamp v_empty d_empty ch_empty).

  Theorem C09_wait_c_has_token : forall (s : @qworld V Ch Req D), qreach s ->
    forall t i (P : @prop Ch), props (qw s) !! (t, i) = Some P ->
      p_apply P = None /\ p_abort P = None /\ p_commit P = None /\ p_validate P = Some Doing ->
      p_prev P <> 0 ->
      match cfgs (qw s) !! t with Some C => c_committed C | None => 0 end = p_prev P ->
      In (CtlProp (t, i)) (queue s) \/
      exists Q : @prop Ch, props (qw s) !! (t, p_prev P) = Some Q /\
        (p_apply Q = None /\ p_abort Q = Some Doing) /\
        (match cfgs (qw s) !! t with Some C => c_applied C | None => 0 end <> p_prev Q \/
         In (CtlProp (t, p_prev P)) (queue s)).
  Proof. exact (wait_c_reach candidate candidate_rb rollback_of overlay commit_merge payload record_applied touched restore
                  resync_payload doc_ok dev_apply stamp v_empty d_empty ch_empty). Qed.
End C09c.
Print Assumptions C09_wait_c_has_token.
