(* C11 - A device refusing a change fails that change only, and only real refusals.
   Statements only; proofs in Proofs/P2_Failure.v (and Proofs/P2_Crash.v for the refutation).  Model: Model/Proto2.v, the
   apply branch of the proposal reconciler (rec_prop), the transaction reconciler (rec_tx), [classify (observed a)] = the
   switch of reconcileApply on the code of the error returned by the southbound client.  Every theorem holds for EVERY
   pure layer (Section Context), every world (no reachability needed: these are single-invocation facts), every oracle.
   [sendable w t i P C m req] = every guard of reconcileApply before the SetRequest is passed (proposal APPLYING, applied
   index below i, predecessor applied, configuration not SYNCHRONIZING and in the current term, this node master with a
   connection, request buildable).
   How the theorems decide the property:
   * "only real refusals": C11_classes_* is the complete table (Unavailable/Canceled/DeadlineExceeded retried,
     PermissionDenied waited out, every other code fails the change with the listed failure type; codes FromGRPC does
     not know arrive as Unknown).  C11_transient_keeps_pending: after a transient answer nothing is stored, the
     proposal is still APPLYING and still sendable; C11_pending_applies_when_ok_*: the same invocation then applies it.
     A PermissionDenied caused by a superseded mastership term keeps being answered until the term changes
     (dev_answer); the statement is therefore "once the device answers OK".
   * "fails that change, device left as it was": C11_real_refusal (the four effects, in order), C11_real_refusal_world
     (proposal FAILED with the class and the term, applied index = i, committed values/index untouched, devices
     unchanged), C11_refused_device_unchanged, C11_transaction_reports_class(_single).
   * "others proceed": C11_successor_not_blocked (the successor never takes the wait-for-predecessor exit),
     C11_successor_sendable (it is sendable as soon as its own request can be built), C11_other_targets_unaffected
     (frame: every prefix of an invocation for (t,i) leaves every other target's proposals, configurations, devices and
     all transactions untouched; C11_effects_on_own_target is the per-effect form).
   Interrupted refusals (finding F-17, repaired in /repo and in the model: the failure is written on the proposal BEFORE
   the applied index moves; before the repair an invocation cut between the two writes was re-run as "already applied"
   and the transaction ended APPLIED on a device that had refused): C11_refusal_survives_interruption (wherever the
   refusing invocation stops after the proposal write, the proposal is FAILED with the class, the devices are
   untouched and the re-run only completes the move of the applied index), C11_failed_is_final (the reconciler of a
   FAILED proposal never writes the proposal again), C11_refusal_interrupted_regression (the F-17 witness on
   Model/P2Inst.v, all cut points, ends FAILED).
   Partial: the northbound status mapping (set.go) is C08's; reach-level "in order" needs the cursor invariants
   (Proofs/P2_Cursor*.v, not used here).  ValidateCapabilities (Capabilities RPC before the Set) is not in the model. *)
From stdpp Require Import gmap.
From RecordUpdate Require Import RecordUpdate.
From Coq Require Import NArith.
From OC Require Import Base.Bytes Model.P2Pure Model.Proto2 Model.P2Inst Proofs.P2Base Proofs.P2Phases Proofs.P2_Failure Proofs.P2_Crash Proofs.P2_Rollback.
From OC Require Proofs.P2_ClassifyGen.
Open Scope N_scope.

Section C11.
  Context {V Ch Req D : Type}.
  Context (candidate : V -> Ch -> V) (candidate_rb : V -> Ch -> V) (rollback_of : V -> Ch -> Ch)
          (overlay : V -> V -> V) (commit_merge : N -> N -> V -> V -> Ch -> V)
          (payload : N -> V -> Ch -> option Req) (record_applied : N -> N -> V -> V -> V -> Ch -> V)
          (touched : N -> V -> Ch -> V) (restore : V -> V -> V)
          (resync_payload : V -> list (option Req)) (doc_ok : V -> bool)
          (dev_apply : D -> Req -> D) (stamp : N -> Ch -> Ch) (v_empty : V) (d_empty : D) (ch_empty : Ch).
  Notation world := (@world V Ch Req D).
  Notation apply_eff := (@apply_eff V Ch Req D dev_apply d_empty).
  Notation rec_tx := (@rec_tx V Ch Req D stamp).
  Notation rec_prop := (@rec_prop V Ch Req D candidate candidate_rb rollback_of overlay commit_merge payload record_applied
                                  touched restore doc_ok v_empty d_empty ch_empty).
  Notation reconcile := (@reconcile V Ch Req D candidate candidate_rb rollback_of overlay commit_merge payload record_applied
                                    touched restore resync_payload doc_ok stamp v_empty d_empty ch_empty).
  Notation step := (@step V Ch Req D candidate candidate_rb rollback_of overlay commit_merge payload record_applied
                          touched restore resync_payload doc_ok dev_apply stamp v_empty d_empty ch_empty).
  Notation reach := (@reach V Ch Req D candidate candidate_rb rollback_of overlay commit_merge payload record_applied
                            touched restore resync_payload doc_ok dev_apply stamp v_empty d_empty ch_empty).
  Notation dev_answer := (@dev_answer V Ch Req D d_empty).
  Notation dev_of := (@dev_of V Ch Req D d_empty).
  Notation view := (@view V overlay).
  Notation aview := (@aview V overlay).
  Notation rb_change := (@rb_change Ch ch_empty).
  Notation sendable := (@sendable V Ch Req D overlay payload ch_empty).
  Notation merge_rerun_stable := (@merge_rerun_stable V Ch overlay commit_merge).

  (* the table: retried codes *)
  Theorem C11_classes_retry :
    ∀ c : code,
    classify (observed c) = ClsRetry ↔ c = CUnavailable ∨ c = CCanceled ∨ c = CDeadlineExceeded.
  Proof. exact (classes_retry). Qed.

  (* the table: the waited-out code *)
  Theorem C11_classes_wait :
    ∀ c : code, classify (observed c) = ClsWait ↔ c = CPermissionDenied.
  Proof. exact (classes_wait). Qed.

  (* the table: every other error code fails the change, with the failure type of [fail_table] *)
  Theorem C11_classes_fail :
    ∀ (c : code) (f : ftype), c ≠ COk → classify (observed c) = ClsFail f ↔ fail_table c = Some f.
  Proof. exact (classes_fail). Qed.

  (* four arms of the inner switch can never be taken *)
  Theorem C11_classes_dead_arms :
    ∀ (c : code) (f : ftype),
    classify (observed c) = ClsFail f → f ≠ FCanceled ∧ f ≠ FForbidden ∧ f ≠ FUnavailable ∧ f ≠ FTimeout.
  Proof. exact (classes_dead_arms). Qed.

  (* the table is the source's: [classify] agrees, code by code, with the switch of reconcileApply as tools/translate
     reads it from /repo on every run (Gen/Tables.v apply_code_class / apply_failure_of_code) *)
  Theorem C11_classes_are_the_source_switch :
    ∀ c : code, c ≠ COk → P2_ClassifyGen.model_class c = P2_ClassifyGen.source_class c.
  Proof. exact (P2_ClassifyGen.classify_is_the_source_switch). Qed.

  (* a transient answer: the invocation is exactly the device request *)
  Theorem C11_transient_effects :
    ∀ (o : oracle) (w : world) (t i : N) (P : prop) (C : config) (m : N) (req : Req),
    sendable w t i P C m req
    → transient (dev_answer w t (c_term C) o)
    → rec_prop o w (t, i) =
    ([EDev (DevSet t m (c_term C) (Some i) req (dev_answer w t (c_term C) o))],
    if bool_decide (dev_answer w t (c_term C) o = CPermissionDenied) then RDone else RRetry).
  Proof. exact (@transient_effects V Ch Req D candidate candidate_rb rollback_of overlay commit_merge payload record_applied touched restore doc_ok v_empty d_empty ch_empty). Qed.

  (* ... after any prefix of it every store and every device is unchanged and the proposal is still sendable *)
  Theorem C11_transient_keeps_pending :
    ∀ (o : oracle) (w : world) (t i : N) (P : prop) (C : config) (m : N) (req : Req) (k : nat),
    sendable w t i P C m req
    → transient (dev_answer w t (c_term C) o)
    → let w' := step w (LRec (CtlProp (t, i)) k o) in
    txs w' = txs w
    ∧ props w' = props w
    ∧ cfgs w' = cfgs w
    ∧ devs w' = devs w
    ∧ targets w' = targets w
    ∧ rels w' = rels w ∧ conns w' = conns w ∧ sendable w' t i P C m req.
  Proof. exact (@transient_world V Ch Req D candidate candidate_rb rollback_of overlay commit_merge payload record_applied touched restore resync_payload doc_ok dev_apply stamp v_empty d_empty ch_empty). Qed.

  (* the same invocation, answered OK: request, applied values, applied index, proposal APPLIED *)
  Theorem C11_pending_applies_when_ok_effects :
    ∀ (o : oracle) (w : world) (t i : N) (P : prop) (C : config) (m : N) (req : Req),
    sendable w t i P C m req
    → dev_answer w t (c_term C) o = COk
    → rec_prop o w (t, i) =
    ([EDev (DevSet t m (c_term C) (Some i) req COk);
    EPutAValues t (record_applied (o_order o) i (c_avalues C) (aview C) (view C) (rb_change P));
    EPutCfg t
    (C <| c_applied := i |> <| c_inline := touched i (view C) (rb_change P) |> <| c_ainline :=
    v_empty |>); EPutProp (t, i) (P <| p_apply := Some Done |> <| p_term := c_term C |>)],
    requeue_next t P).
  Proof. exact (@ok_effects V Ch Req D candidate candidate_rb rollback_of overlay commit_merge payload record_applied touched restore doc_ok v_empty d_empty ch_empty). Qed.

  (* ... and the resulting world *)
  Theorem C11_pending_applies_when_ok_world :
    ∀ (o : oracle) (w : world) (t i : N) (P : prop) (C : config) (m : N) (req : Req) (k : nat),
    sendable w t i P C m req
    → dev_answer w t (c_term C) o = COk
    → (4 <= k)%nat
    → let w' := step w (LRec (CtlProp (t, i)) k o) in
    (∃ P' : prop, props w' !! (t, i) = Some P' ∧ p_apply P' = Some Done ∧ p_afail P' = p_afail P)
    ∧ (∃ C' : config, cfgs w' !! t = Some C' ∧ c_applied C' = i)
    ∧ devs w' !! t =
    Some
    {|
    d_state := dev_apply (d_state (dev_of w t)) req;
    d_max := d_max (dev_of w t) `max` c_term C
    |}.
  Proof. exact (@ok_world V Ch Req D candidate candidate_rb rollback_of overlay commit_merge payload record_applied touched restore resync_payload doc_ok dev_apply stamp v_empty d_empty ch_empty). Qed.

  (* a real refusal: request, re-store of the applied values, applied index := i, proposal FAILED with class and term *)
  Theorem C11_real_refusal :
    ∀ (o : oracle) (w : world) (t i : N) (P : prop) (C : config) (m : N) (req : Req) (f : ftype),
    sendable w t i P C m req
    → dev_answer w t (c_term C) o ≠ COk
    → classify (observed (dev_answer w t (c_term C) o)) = ClsFail f
    → rec_prop o w (t, i) =
    ([EDev (DevSet t m (c_term C) (Some i) req (dev_answer w t (c_term C) o));
    EPutProp (t, i)
    (P <| p_apply := Some Failed |> <| p_afail := Some f |> <| p_term := c_term C |>);
    EPutAValues t (restore (c_avalues C) (aview C));
    EPutCfg t
    (C <| c_applied := i |> <| c_inline := touched i (view C) (rb_change P) |> <| c_ainline :=
    v_empty |>)], requeue_next t P).
  Proof. exact (@refusal_effects V Ch Req D candidate candidate_rb rollback_of overlay commit_merge payload record_applied touched restore doc_ok v_empty d_empty ch_empty). Qed.

  (* ... and the resulting world: devices and committed configuration as they were *)
  Theorem C11_real_refusal_world :
    ∀ (o : oracle) (w : world) (t i : N) (P : prop) (C : config) (m : N) (req : Req) (f : ftype) (k : nat),
    sendable w t i P C m req
    → dev_answer w t (c_term C) o ≠ COk
    → classify (observed (dev_answer w t (c_term C) o)) = ClsFail f
    → (4 <= k)%nat
    → let w' := step w (LRec (CtlProp (t, i)) k o) in
    (∃ P' : prop,
    props w' !! (t, i) = Some P'
    ∧ p_apply P' = Some Failed ∧ p_afail P' = Some f ∧ p_term P' = c_term C)
    ∧ (∃ C' : config,
    cfgs w' !! t = Some C'
    ∧ c_applied C' = i
    ∧ c_committed C' = c_committed C ∧ c_index C' = c_index C ∧ c_values C' = c_values C)
    ∧ devs w' = devs w ∧ txs w' = txs w.
  Proof. exact (@refusal_world V Ch Req D candidate candidate_rb rollback_of overlay commit_merge payload record_applied touched restore resync_payload doc_ok dev_apply stamp v_empty d_empty ch_empty). Qed.

  (* a device event not answered OK changes no device *)
  Theorem C11_refused_device_unchanged :
    ∀ (w : world) (t c term : N) (o : option N) (r : Req) (a : code),
    a ≠ COk → devs (apply_eff w (EDev (DevSet t c term o r a))) = devs w.
  Proof. exact (@refused_leaves_devices V Ch Req D dev_apply d_empty). Qed.

  (* the transaction reconciler writes FAILED with the failure of the first failed proposal *)
  Theorem C11_transaction_reports_class :
    ∀ (w : world) (i : N) (T : txn) (tg : list N),
    txs w !! i = Some T
    → t_apply T = Some Doing
    → t_props T = Some tg
    → (∀ t : N, In t tg → ∃ p : prop, props w !! (t, i) = Some p ∧ is_Some (p_apply p))
    → (∃ (t : N) (p : prop), In t tg ∧ props w !! (t, i) = Some p ∧ p_apply p = Some Failed)
    → ∃ (t : N) (p : prop),
    In t tg
    ∧ props w !! (t, i) = Some p
    ∧ p_apply p = Some Failed
    ∧ rec_tx w i =
    ([EPutTx i
    (T <| t_state := TFailed |> <| t_failure := p_afail p |> <| t_apply :=
    Some Failed |>)], RDone).
  Proof. exact (@tx_reports_failure V Ch Req D stamp). Qed.

  (* single target: exactly the recorded class *)
  Theorem C11_transaction_reports_class_single :
    ∀ (w : world) (i : N) (T : txn) (t : N) (P : prop) (f : ftype),
    txs w !! i = Some T
    → t_apply T = Some Doing
    → t_props T = Some [t]
    → props w !! (t, i) = Some P
    → p_apply P = Some Failed
    → p_afail P = Some f
    → rec_tx w i =
    ([EPutTx i
    (T <| t_state := TFailed |> <| t_failure := Some f |> <| t_apply := Some Failed |>)],
    RDone).
  Proof. exact (@tx_reports_failure_single V Ch Req D stamp). Qed.

  (* applied index = successor's PrevIndex: the successor does not wait for its predecessor *)
  Theorem C11_successor_not_blocked :
    ∀ (o : oracle) (w : world) (t j : N) (Q : prop) (C : config),
    props w !! (t, j) = Some Q
    → p_apply Q = Some Doing
    → cfgs w !! t = Some C
    → c_applied C = p_prev Q → rec_prop o w (t, j) ≠ ([], RRequeueProp (t, p_prev Q)).
  Proof. exact (@successor_gate_open V Ch Req D candidate candidate_rb rollback_of overlay commit_merge payload record_applied touched restore doc_ok v_empty d_empty ch_empty). Qed.

  (* after the refusal the APPLYING successor is sendable once its request can be built *)
  Theorem C11_successor_sendable :
    ∀ (o : oracle) (w : world) (t i : N) (P : prop) (C : config) (m : N) (req : Req) 
    (f : ftype) (k : nat) (j : N) (Q : prop) (req' : Req),
    sendable w t i P C m req
    → dev_answer w t (c_term C) o ≠ COk
    → classify (observed (dev_answer w t (c_term C) o)) = ClsFail f
    → (4 <= k)%nat
    → let w' := step w (LRec (CtlProp (t, i)) k o) in
    let C' :=
    C <| c_applied := i |> <| c_inline := touched i (view C) (rb_change P) |> <| c_ainline :=
    v_empty |> <| c_avalues := restore (c_avalues C) (aview C) |> in
    props w' !! (t, j) = Some Q
    → p_apply Q = Some Doing
    → p_prev Q = i
    → i < j → payload j (view C') (rb_change Q) = Some req' → sendable w' t j Q C' m req'.
  Proof. exact (@successor_sendable V Ch Req D candidate candidate_rb rollback_of overlay commit_merge payload record_applied touched restore resync_payload doc_ok dev_apply stamp v_empty d_empty ch_empty). Qed.

  (* every effect of rec_prop (t,i) is a write on target t *)
  Theorem C11_effects_on_own_target :
    ∀ (o : oracle) (w : world) (t i : N), Forall (on_target t) (rec_prop o w (t, i)).1.
  Proof. exact (@rec_prop_on_target V Ch Req D candidate candidate_rb rollback_of overlay commit_merge payload record_applied touched restore doc_ok v_empty d_empty ch_empty). Qed.

  (* frame: other targets and all transactions untouched by any prefix *)
  Theorem C11_other_targets_unaffected :
    ∀ (o : oracle) (w : world) (t i : N) (k : nat),
    same_elsewhere t w (step w (LRec (CtlProp (t, i)) k o)).
  Proof. exact (@rec_prop_frame V Ch Req D candidate candidate_rb rollback_of overlay commit_merge payload record_applied touched restore resync_payload doc_ok dev_apply stamp v_empty d_empty ch_empty). Qed.

  (* a refusing invocation cut after the proposal write: FAILED stays, devices untouched, the re-run finishes the index move *)
  Theorem C11_refusal_survives_interruption :
    ∀ (o o' : oracle) (w : world) (t i : N) (P : prop) (C : config) (m : N) (req : Req) 
    (f : ftype) (k : nat),
    sendable w t i P C m req
    → dev_answer w t (c_term C) o ≠ COk
    → classify (observed (dev_answer w t (c_term C) o)) = ClsFail f
    → (2 <= k)%nat
    → let wk := step w (LRec (CtlProp (t, i)) k o) in
    let P' := P <| p_apply := Some Failed |> <| p_afail := Some f |> <| p_term := c_term C |> in
    props wk !! (t, i) = Some P'
    ∧ devs wk = devs w
    ∧ (∃ Ck : config,
    cfgs wk !! t = Some Ck
    ∧ (c_applied Ck = c_applied C ∨ c_applied Ck = i)
    ∧ c_committed Ck = c_committed C
    ∧ c_values Ck = c_values C
    ∧ rec_prop o' wk (t, i) =
    (if c_applied Ck <? i
    then
    [EPutAValues t (restore (c_avalues Ck) (aview Ck));
    EPutCfg t
    (Ck <| c_applied := i |> <| c_inline := view Ck |> <| c_ainline :=
    v_empty |>)]
    else [], requeue_next t P)
    ∧ (∃ C' : config,
    cfgs (step wk (LRec (CtlProp (t, i)) 2 o')) !! t = Some C'
    ∧ c_applied C' = i
    ∧ c_committed C' = c_committed C ∧ c_values C' = c_values C)
    ∧ props (step wk (LRec (CtlProp (t, i)) 2 o')) !! (t, i) = Some P').
  Proof. exact (@refused_apply_resume V Ch Req D candidate candidate_rb rollback_of overlay commit_merge payload record_applied touched restore resync_payload doc_ok dev_apply stamp v_empty d_empty ch_empty). Qed.

  (* a FAILED proposal is never rewritten by its reconciler; it only lets the applied index pass *)
  Theorem C11_failed_is_final :
    ∀ (o : oracle) (w : world) (t i : N) (P : prop) (C : config),
    props w !! (t, i) = Some P
    → p_apply P = Some Failed
    → cfgs w !! t = Some C
    → rec_prop o w (t, i) =
    (if c_applied C <? i
    then
    [EPutAValues t (restore (c_avalues C) (aview C));
    EPutCfg t (C <| c_applied := i |> <| c_inline := view C |> <| c_ainline := v_empty |>)]
    else [], requeue_next t P).
  Proof. exact (@failed_pass V Ch Req D candidate candidate_rb rollback_of overlay commit_merge payload record_applied touched restore doc_ok v_empty d_empty ch_empty). Qed.

End C11.

(* the F-17 witness on Model/P2Inst.v: every cut point k = 0..5 ends FAILED/INVALID, applied index 1, device untouched *)
Theorem C11_refusal_interrupted_regression :
  forallb (λ k : nat, y_failed_well (y_refused k)) [0%nat; 1%nat; 2%nat; 3%nat; 4%nat; 5%nat] = true
  ∧ forallb (λ k : nat, y_failed_well (y_refused_then_ok k)) [2%nat; 3%nat; 4%nat] = true.
Proof. exact refused_apply_crash_regression. Qed.

Print Assumptions C11_classes_retry.
Print Assumptions C11_classes_wait.
Print Assumptions C11_classes_fail.
Print Assumptions C11_classes_dead_arms.
Print Assumptions C11_classes_are_the_source_switch.
Print Assumptions C11_transient_effects.
Print Assumptions C11_transient_keeps_pending.
Print Assumptions C11_pending_applies_when_ok_effects.
Print Assumptions C11_pending_applies_when_ok_world.
Print Assumptions C11_real_refusal.
Print Assumptions C11_real_refusal_world.
Print Assumptions C11_refused_device_unchanged.
Print Assumptions C11_transaction_reports_class.
Print Assumptions C11_transaction_reports_class_single.
Print Assumptions C11_successor_not_blocked.
Print Assumptions C11_successor_sendable.
Print Assumptions C11_effects_on_own_target.
Print Assumptions C11_other_targets_unaffected.
Print Assumptions C11_refusal_survives_interruption.
Print Assumptions C11_failed_is_final.
Print Assumptions C11_refusal_interrupted_regression.
