(* C12 - No request can crash the server.
   Any gNMI Capabilities, Get, Set or Subscribe request and any admin request that can be decoded
   from the wire is answered with a response or a gRPC status; the handler never panics.
   Statements only; proofs live in Proofs/PanicSkelProofs.v and (C12_regexp_total) Proofs/PanicSkelRegexp.v.
   The handlers are the transcriptions in
   Model/PanicSkel.v (outcome = Ok | Err code | Panic); np o means "o is not a Panic". *)
From Coq Require Import List NArith ZArith Bool.
From OC Require Import Base.Bytes Model.PanicSkel Proofs.PanicSkelProofs Proofs.PanicSkelRegexp.
Import ListNotations.

(* Set: every decodable request, every topology / plugin set / size limit *)
Theorem C12_total_set : forall e r, set_wire_ok r = true -> is_panic (set_handler e r) = false.
Proof. exact set_handler_total. Qed.
Print Assumptions C12_total_set.

(* the decodability hypothesis cannot be dropped: a nil path element (never produced by a decoder) panics *)
Theorem C12_set_needs_wire_ok : exists e r, set_wire_ok r = false /\ set_handler e r = Panic w_nil.
Proof. exact set_handler_needs_wire_ok. Qed.
Print Assumptions C12_set_needs_wire_ok.

(* Subscribe: every stream of messages, no hypothesis at all (all accessors on the path are nil-safe) *)
Theorem C12_total_subscribe : forall ms subscribed, is_panic (subscribe_handler subscribed ms) = false.
Proof. exact subscribe_handler_total. Qed.
Print Assumptions C12_total_subscribe.

(* Capabilities, ListRegisteredModels, RollbackTransaction, transaction / configuration get-list-watch *)
Theorem C12_total_scalar_handlers : forall i,
  is_panic capabilities_handler = false /\ is_panic list_models_handler = false /\
  is_panic (rollback_handler i) = false /\ is_panic admin_store_handler = false.
Proof. exact misc_handlers_total. Qed.
Print Assumptions C12_total_scalar_handlers.

(* Get: every decodable request against every configuration whose live entries are inside the domain of
   the tree builder and the value accessors (state_ok: holds for empty configurations and is monitored on
   the implementation's stores after every accepted Set) *)
Theorem C12_total_get : forall e st r,
  get_wire_ok r = true -> state_ok st = true -> is_panic (get_handler e st r) = false.
Proof. exact get_handler_total. Qed.
Print Assumptions C12_total_get.

(* regexp.MustCompile accepts the text MatchWildcardRegexp builds from ANY query (exact or prefix form):
   the emitted text always stays inside the recognised regexp fragment *)
Theorem C12_regexp_total : forall q exact, is_panic (must_compile (wildcard_regexp q exact)) = false.
Proof. exact wildcard_regexp_compiles. Qed.
Print Assumptions C12_regexp_total.

(* LeafSelectionQuery without a change context: full *)
Theorem C12_total_leafselection_no_context : forall e st r,
  l_ctx r = None -> state_ok st = true -> is_panic (lsq_handler e st r) = false.
Proof. exact lsq_handler_total_no_context. Qed.
Print Assumptions C12_total_leafselection_no_context.

(* LeafSelectionQuery with a change context.
   PARTIAL: the paths the change context adds become live entries of the configuration the tree is built
   from; the theorem assumes they are inside the tree builder's domain (tree_safe_updates).  Missing: the
   proof that FindPathFromModel(exact) + CheckKeyValue only accept such paths, and a contract for the paths
   a model plugin answers for JSON values. *)
Theorem C12_total_leafselection_partial : forall e st r,
  lsq_wire_ok r = true -> state_ok st = true -> tree_safe_updates e st r -> is_panic (lsq_handler e st r) = false.
Proof. exact lsq_handler_total_partial. Qed.
Print Assumptions C12_total_leafselection_partial.

(* the state hypothesis has content: a path that passes IsPathValid and still makes addPathToTree slice
   out of range (it can only come from a model plugin's answer for a JSON value) *)
Theorem C12_valid_path_outside_tree_domain :
  is_path_valid (B "/list[k=a]]b=c]/v") = true /\ tree_guard (B "/list[k=a]]b=c]/v") = Panic w_slice.
Proof. exact tree_guard_unsafe_valid_path. Qed.
Print Assumptions C12_valid_path_outside_tree_domain.
