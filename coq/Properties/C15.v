(* C15 - Stores never lose an update; watchers never miss the latest state.
   Statements only; proofs live in Proofs/CasStoreProofs.v, Proofs/WatchProofs.v, Proofs/WatchBounded.v,
   Proofs/WatchInv.v (unbounded invariant of the watch system), Proofs/WatchLive.v (quiescence is always reachable).

   What is proved:
   * store half (unbounded, all histories): C15_cas, C15_versions_grow, C15_accepted_write_fresh_version,
     C15_index_never_reused, C15_refines_cas, C15_v3_values_stored_as_written (current v3 store, /repo 2aad659);
     false for the current code (finding F-08 / F-08b, open): C15_refused_update_rewrites_values_refuted, and
     C15_refused_write_changes_nothing_partial is the statement under the negated F-08 signature;
     C15_v3_values_aliased_before_repair is the witness for the v3 store BEFORE 2aad659 (finding F-C15-2, fixed);
   * watch half, UNBOUNDED (induction over every schedule of any length from the initial world, any number of writes,
     records and watchers, with / without replay, all records / one record, repaired AND unrepaired cancel path):
       C15_watch_latest            watch_ok in every reachable world;
       C15_watch_latest_explicit   the same spelled out: quiescent -> every watcher that is not cancelled was last shown,
                                   for every record it is entitled to, the current version;
       C15_watch_never_loses       at EVERY moment: delivered ++ pending in the goroutine ++ pending in the loop for it
                                   ++ Atomix event stream ends, per entitled record, with the current version;
       C15_watch_swapped_order_hypothetical  a counter-model, not the code: with the HYPOTHETICAL swapped order
                                   (snapshot before registration) an update is lost;
       C15_watch_latest_bounded    the statement over the worlds within a depth bound, a corollary of C15_watch_latest;
   * cancel isolation, UNBOUNDED, repaired model (fixed = true = the code of /repo after 23bac70 / d4508c1):
       C15_cancel_isolated         from EVERY reachable world the loop and goroutine steps alone (no write / open /
                                   cancel) reach a quiescent world with the same store where every watcher that is
                                   not cancelled is served: a cancelled watcher never parks the loop;
       C15_no_dead_listener        safety form: no goroutine is ever gone without a drainer (WStuck unreachable) and
                                   the listener the loop waits for exists and takes the event once in its select / drained;
       C15_cancel_touches_nobody_else, C15_drained_listener_never_blocks  one-step statements;
       C15_cancel_isolated_before_repair  the code BEFORE 23bac70 / d4508c1 (fixed = false): parked for ever
                                   (findings F-10 / F-C15-1, fixed).
   Naming: unsuffixed = true of the current code; _partial / _refuted = the open F-08 family only; _before_repair = the
   model of the code before a repair (not what /repo contains); _hypothetical = an instructive counter-model; _bounded =
   a corollary of the unbounded theorem.
   (This property's store proof file is Proofs/CasStoreProofs.v; Proofs/StoreProofs.v belongs to C03's
   configuration-store write.)
   Nothing of the watch half remains partial with respect to the model; what the model abstracts is listed in the
   manifest note (one loop for the v3 multi-log loops, consumer always willing to receive). *)
From Coq Require Import List NArith Bool.
From OC Require Import Base.Bytes Model.Atomix Model.Store Model.Watch Spec.Cas
  Proofs.CasStoreProofs Proofs.WatchProofs Proofs.WatchBounded Proofs.WatchInv Proofs.WatchLive.
Import ListNotations.
Open Scope N_scope.

(* For transactions, proposals and configurations (v2 and v3), in ANY history by any number of clients:
   two updates (Update / UpdateStatus) of one record issued with the same read version cannot both succeed *)
Theorem C15_cas : forall k cs1 a cs2 b st1 r1 st2 ca oa ba st3 r2 st4 cb ob bb,
  is_update a -> is_update b -> same_record a b ->
  o_version (c_obj a) = o_version (c_obj b) ->
  run k init cs1 = (st1, r1) ->
  step k (c_op a) (c_obj a) st1 = (st2, ca, oa, ba) ->
  run k st2 cs2 = (st3, r2) ->
  step k (c_op b) (c_obj b) st3 = (st4, cb, ob, bb) ->
  ~ (ca = COk /\ cb = COk).
Proof. exact cas_exclusive. Qed.
Print Assumptions C15_cas.

(* record versions only grow along any history ... *)
Theorem C15_versions_grow : forall k cs1 cs2 st1 r1 st2 r2,
  run k init cs1 = (st1, r1) -> run k st1 cs2 = (st2, r2) ->
  forall lg ky, cur st1 lg ky <= cur st2 lg ky.
Proof. exact versions_grow. Qed.
Print Assumptions C15_versions_grow.

(* ... and an accepted write gives its record a version above every version that existed *)
Theorem C15_accepted_write_fresh_version : forall k st op o st' o' b,
  reachable k st -> step k op o st = (st', COk, o', b) ->
  cur st' (o_log o) (o_key o) = o_version o' /\ (forall lg ky, cur st lg ky < o_version o').
Proof. exact accepted_write_fresh_version. Qed.
Print Assumptions C15_accepted_write_fresh_version.

(* a record keeps its log index for life; an accepted Create receives an index above every index of its log *)
Theorem C15_index_never_reused : forall k st op o st' c o' b,
  reachable k st -> step k op o st = (st', c, o', b) ->
  (forall lg ky, idx_of st lg ky <> 0 -> idx_of st' lg ky = idx_of st lg ky) /\
  (indexed k = true -> op = OCreate -> c = COk ->
     o_index o' = idx_of st' (o_log o) (o_key o) /\ forall ky, idx_of st (o_log o) ky < o_index o').
Proof. exact index_never_reused. Qed.
Print Assumptions C15_index_never_reused.

(* every well-formed store call is, on the record it addresses, exactly the operation of the per-record
   compare-and-set register of Spec/Cas.v (same answer, same new register), and moves no other record *)
Theorem C15_refines_cas : forall k st op o st' c o' b,
  reachable k st -> valid k op o = true -> step k op o st = (st', c, o', b) ->
  let spec := match op with
              | OCreate => reg1_create (pay st (o_log o) (o_key o)) (o_payload o) (s_clock st + 1)
              | _ => reg1_update (pay st (o_log o) (o_key o)) (o_version o) (o_payload o) (s_clock st + 1)
              end in
  c = code_of (snd spec) /\ pay st' (o_log o) (o_key o) = fst spec /\
  forall lg ky, (lg <> o_log o \/ ky <> o_key o) -> pay st' lg ky = pay st lg ky.
Proof. exact refines_cas. Qed.
Print Assumptions C15_refines_cas.

(* a refused call changes no record of any store; PARTIAL for the path values: they are untouched only when the
   store has none or the call passes none (negated signature of F-08) *)
Theorem C15_refused_write_changes_nothing_partial : forall k st op o st' c o' b,
  reachable k st -> step k op o st = (st', c, o', b) -> c <> COk ->
  s_logs st' = s_logs st /\ s_clock st' = s_clock st /\
  (has_values k = false \/ o_vals o = None -> s_pvs st' = s_pvs st /\ s_apvs st' = s_apvs st).
Proof. exact refused_changes_no_record. Qed.
Print Assumptions C15_refused_write_changes_nothing_partial.

(* F-08: the configuration store writes the path values before the version check: a stale Update is refused
   with Conflict and has rewound /z from 2@2 to 1@1 *)
Theorem C15_refused_update_rewrites_values_refuted :
  exists k cs, map fst (snd (run k init cs)) = [COk; COk; CConflict] /\
    get_pvs (B "c") (s_pvs (fst (run k init (firstn 2 cs)))) = [(B "/z", pv1 2 2)] /\
    get_pvs (B "c") (s_pvs (fst (run k init cs))) = [(B "/z", pv1 1 1)].
Proof. exact refused_update_rewrites_values_refuted. Qed.
Print Assumptions C15_refused_update_rewrites_values_refuted.

(* v3 configuration store, current code (/repo 2aad659: every iteration of configurationStore.store works on its own
   copy of the path value; the model's oracle o_last = []): each written path receives its own value, as in v2 *)
Theorem C15_v3_values_stored_as_written : forall vals m, store_vals_v3 [] vals m = store_vals vals m.
Proof. exact v3_values_own_copy. Qed.
Print Assumptions C15_v3_values_stored_as_written.

(* v3 configuration store BEFORE the repair 2aad659 (shared go 1.19 loop variable handed to a transaction that encodes
   at Commit; oracle o_last = the path visited last): one accepted Create with two paths stored one path's value
   under both (finding F-C15-2, fixed) *)
Theorem C15_v3_values_aliased_before_repair :
  exists o, o_vals o = Some [(B "/a", pv1 5 1); (B "/c", pv1 48 3)] /\
    snd (fst (fst (step CfgV3 OCreate o init))) = COk /\
    get_pvs (o_key o) (s_pvs (fst (fst (fst (step CfgV3 OCreate o init))))) = [(B "/a", pv1 5 1); (B "/c", pv1 5 1)].
Proof. exact v3_values_aliased_before_repair. Qed.
Print Assumptions C15_v3_values_aliased_before_repair.

(* UNBOUNDED: for EVERY schedule (any length, any interleaving of any number of writes with the steps of any number
   of Watch calls - with replay / without, all records / one record -, of the event loop, the goroutines and
   cancellations; repaired and unrepaired cancel path), whenever the reached world is quiescent (event stream empty,
   loop idle, every watcher that is not cancelled back in its select) every such watcher was last shown the current
   version of every record it is entitled to *)
Theorem C15_watch_latest : forall fixed ls, watch_ok (wrun fixed false w0 ls) = true.
Proof. exact watch_latest. Qed.
Print Assumptions C15_watch_latest.

(* the same with watch_ok spelled out *)
Theorem C15_watch_latest_explicit : forall fixed ls,
  let g := wrun fixed false w0 ls in
  quiescent g = true ->
  forall w, In w (g_ws g) -> w_cancelled w = false ->
  forall k v, In (k, v) (g_store g) -> entitled w g k = true -> last_for k (w_delivered w) = Some v.
Proof. exact watch_latest_explicit. Qed.
Print Assumptions C15_watch_latest_explicit.

(* the inductive invariant behind it, true at EVERY moment of every schedule: for a watcher that is not cancelled and
   has taken its replay snapshot (or needs none), what it was shown ++ what its goroutine still holds (rest of the
   replay / event being forwarded) ++ the event the loop still has to hand to it ++ the Atomix event stream ends,
   for every record it is entitled to, with the CURRENT version: the latest state is delivered or on its way, never lost *)
Theorem C15_watch_never_loses : forall fixed ls,
  let g := wrun fixed false w0 ls in
  forall w, In w (g_ws g) -> w_cancelled w = false -> w_phase w <> WReg ->
  forall k v, In (k, v) (g_store g) -> entitled w g k = true ->
  last_for k (stream (g_queue g) (g_loop g) w) = Some v.
Proof. exact watch_never_loses. Qed.
Print Assumptions C15_watch_never_loses.

(* the statements are not vacuous: a quiescent reachable world with two records, a replaying all-records watcher
   and a live one-record watcher, both with deliveries *)
Theorem C15_watch_latest_nonvacuous :
  let g := wrun true false w0 nontrivial_schedule in
  quiescent g = true /\
  g_store g = [(0, 1); (1, 3)] /\
  map (fun w => (w_id w, w_cancelled w, w_delivered w)) (g_ws g) =
    [(1, false, [{| ev_key := 0; ev_ver := 1 |}; {| ev_key := 1; ev_ver := 3 |}; {| ev_key := 0; ev_ver := 1 |};
                 {| ev_key := 1; ev_ver := 2 |}; {| ev_key := 1; ev_ver := 3 |}]);
     (2, false, [{| ev_key := 1; ev_ver := 2 |}; {| ev_key := 1; ev_ver := 3 |}])].
Proof. exact watch_latest_nontrivial. Qed.
Print Assumptions C15_watch_latest_nonvacuous.

(* BOUNDED: for every interleaving of up to 7 / 8 / 6 steps of writes with the steps of Watch, event loop, watcher and
   cancellation, at quiescence every open watcher was last shown the current version of every record it is entitled
   to.  A corollary of the unbounded invariant (every explored world is reachable, Proofs/WatchBounded.v); nothing
   is enumerated. *)
Theorem C15_watch_latest_bounded :
  forallb watch_ok (explore true alphabet_replay_all 7 w0) = true /\
  forallb watch_ok (explore true alphabet_replay_one 7 w0) = true /\
  forallb watch_ok (explore true alphabet_live_one 8 w0) = true /\
  forallb watch_ok (explore true alphabet_two 6 w0) = true /\
  forallb watch_ok (explore false alphabet_two 6 w0) = true.
Proof. exact watch_latest_bounded. Qed.
Print Assumptions C15_watch_latest_bounded.

(* HYPOTHETICAL order, never the code of /repo (swapped = true: replay snapshot BEFORE the listener is registered): an
   update between the two is never shown.  It shows what C15_watch_never_loses rests on; the harness
   probe write-during-replay forces exactly this schedule on the real stores. *)
Theorem C15_watch_swapped_order_hypothetical :
  let g := wrun true true w0 swapped_schedule in quiescent g = true /\ watch_ok g = false.
Proof. exact swapped_order_misses_update. Qed.
Print Assumptions C15_watch_swapped_order_hypothetical.

(* UNBOUNDED, repaired code (fixed = true): a cancelled watcher never blocks the event loop.  From EVERY reachable
   world - any number of watchers cancelled at any point of their replay, select or send - there is a schedule of
   loop and goroutine steps only (no write, no open, no cancel needed) that reaches a quiescent world with the same
   store and clock, in which every watcher that is not cancelled was last shown the current version of every record
   it is entitled to.  (For the code before the repair the opposite holds: C15_cancel_isolated_before_repair.) *)
Theorem C15_cancel_isolated : forall ls,
  let g := wrun true false w0 ls in
  exists ls', forallb internal ls' = true /\
    let g' := wrun true false g ls' in
    quiescent g' = true /\ g_store g' = g_store g /\ g_clock g' = g_clock g /\
    forall w, In w (g_ws g') -> w_cancelled w = false ->
    forall k v, In (k, v) (g_store g') -> entitled w g' k = true -> last_for k (w_delivered w) = Some v.
Proof. exact cancel_isolated. Qed.
Print Assumptions C15_cancel_isolated.

(* safety form: in the repaired model no goroutine has ever gone without leaving a drainer (WStuck is unreachable),
   and the listener the loop is waiting for always exists and, once in its select or drained, takes the event *)
Theorem C15_no_dead_listener : forall ls,
  let g := wrun true false w0 ls in
  (forall w, In w (g_ws g) -> w_phase w <> WStuck) /\
  (forall e id rest, g_loop g = LSend e (id :: rest) ->
     exists w, find_w id (g_ws g) = Some w /\ w_phase w <> WStuck /\
       (stable (w_phase w) = true -> g_loop (wstep true false g SSend) = after_targets e rest)).
Proof. exact no_dead_listener. Qed.
Print Assumptions C15_no_dead_listener.

(* one-step statements (the run-level form is C15_cancel_isolated):
   cancelling touches neither the store, nor the event stream, nor the loop, nor any other watcher ... *)
Theorem C15_cancel_touches_nobody_else : forall fixed g id l, l = SCancel id \/ l = SClose id ->
  let g' := wstep fixed false g l in
  g_store g' = g_store g /\ g_clock g' = g_clock g /\ g_queue g' = g_queue g /\ g_loop g' = g_loop g /\
  forall w, In w (g_ws g) -> w_id w <> id -> In w (g_ws g').
Proof. exact cancel_touches_nobody_else. Qed.
Print Assumptions C15_cancel_touches_nobody_else.

(* ... and a cancelled watcher with a drainer never holds the loop up *)
Theorem C15_drained_listener_never_blocks : forall fixed g e id rest w,
  g_loop g = LSend e (id :: rest) -> find_w id (g_ws g) = Some w -> w_phase w = WDrained ->
  g_loop (wstep fixed false g SSend) = after_targets e rest /\ g_ws (wstep fixed false g SSend) = g_ws g.
Proof. exact drained_listener_never_blocks. Qed.
Print Assumptions C15_drained_listener_never_blocks.

(* F-10 (fixed): the code BEFORE the repairs 23bac70 / d4508c1 (fixed = false: a cancel seen during the replay ends the
   goroutine without a drainer) left the event loop parked for ever: after the schedule, NO continuation of any
   length by any component reaches quiescence again.  The current code is C15_cancel_isolated / C15_no_dead_listener. *)
Theorem C15_cancel_isolated_before_repair :
  forall ls, let g := wrun false false (wrun false false w0 f10_schedule) ls in
  quiescent g = false /\ g_loop g = LSend {| ev_key := 0; ev_ver := 3 |} [1; 2].
Proof. exact cancel_isolated_refuted. Qed.
Print Assumptions C15_cancel_isolated_before_repair.
