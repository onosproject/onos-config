(* C16 - textual paths and gNMI paths are one and the same.
   Model: Model/Path.v (transcription of pkg/utils/gnmiPathUtils.go, pkg/utils/path/path.go and the
   path handling of the Set / Get handlers); proofs: Proofs/PathProofs{,2,3}.v.

   All theorems are about the CURRENT code of /repo; none is a refutation of the property.  The positive
   statements are C16_roundtrip, C16_injective, C16_split, C16_parent, C16_accepted_end_to_end and
   C16_accepted_parent.  C16_parent_outside_accepted / C16_get_proto_outside_accepted record what the
   bracket-unaware helpers do with key values containing '/', which the Set handler refuses (findings F-11,
   F-16a, F-16b, repaired in /repo by 7b08917 and a2a122e; no open finding). *)
From Coq Require Import List NArith Bool.
From OC Require Import Base.Bytes Model.Path Proofs.PathProofs Proofs.PathProofs2 Proofs.PathProofs3.
Import ListNotations.

(* text -> path gives back the elements and keys, for every well-formed path (all names, all key
   values incl. escape-worthy characters and multi-byte text; wf_gpath is the weakest condition) *)
Theorem C16_roundtrip : forall p, wf_gpath p = true -> parse_path (str_path p) = ROk p.
Proof. exact roundtrip. Qed.
Print Assumptions C16_roundtrip.

(* two different well-formed paths never share a textual form *)
Theorem C16_injective : forall p q,
  wf_gpath p = true -> wf_gpath q = true -> str_path p = str_path q -> p = q.
Proof. exact injective. Qed.
Print Assumptions C16_injective.

(* splitting respects brackets and escapes: the tokens are exactly the rendered elements *)
Theorem C16_split : forall p, wf_gpath p = true -> split_path (str_path p) = map render p.
Proof. exact split_path_str_path. Qed.
Print Assumptions C16_split.

(* the parent of a path is that path without its last element, whenever the text of the last element has no '/'
   (every element the Set handler accepts is such: C16_accepted_parent below) *)
Theorem C16_parent : forall p e,
  slash_free e = true -> get_parent (str_path_elem (p ++ [e])) = str_path_elem p.
Proof. exact parent_of_path. Qed.
Print Assumptions C16_parent.

(* True of the CURRENT code, and not a finding: GetParentPath (LastIndex "/") and createUpdate's
   strings.Split re-parser are not bracket-aware, so a path whose key value contains '/' - which does round-trip
   through SplitPath/ParseGNMIElements - is mis-parented and is broken by Get PROTO.  Such a path is OUTSIDE what
   the system accepts (accepted_gpath = false: the value fails IndexAllowedChars, C16_slash_not_accepted), and the
   Set handler refuses it on both routes since /repo 7b08917 (updates: CheckKeyValue validates every index value;
   finding F-11) and /repo a2a122e (deletes: doDelete validates index values; findings F-16a, F-16b); the
   end-to-end stream of the check monitors exactly that refusal (c16_update_slash_key_accepted,
   c16_delete_slash_key_accepted, c16_stored_but_not_reported).  Environment assumption that remains: path texts
   that the model plugin derives from JSON values are stored without passing that gate; the plugin is outside
   /repo and is assumed to render key values over the accepted alphabet. *)
Theorem C16_parent_outside_accepted :
  exists p e, wf_gpath (p ++ [e]) = true /\ accepted_gpath (p ++ [e]) = false /\
              get_parent (str_path_elem (p ++ [e])) <> str_path_elem p.
Proof. exact parent_outside_accepted. Qed.
Print Assumptions C16_parent_outside_accepted.

Theorem C16_get_proto_outside_accepted :
  exists p, wf_gpath p = true /\ accepted_gpath p = false /\
            parse_path (str_path p) = ROk p /\ create_update_path (str_path p) <> ROk p.
Proof. exact get_proto_outside_accepted. Qed.
Print Assumptions C16_get_proto_outside_accepted.

(* for everything the Set handler accepts (YANG-identifier names, key values over
   IndexAllowedChars) the stored text StrPath(prefix)++StrPath(path) is parsed back to the client's
   elements by BOTH re-parsers: SplitPath+ParseGNMIElements (SetResponse, southbound request) and
   createUpdate's strings.Split (Get PROTO); and its parent is the path without its last element *)
Theorem C16_accepted_end_to_end : forall pre q,
  q <> [] -> accepted_gpath (pre ++ q) = true ->
  let stored := set_path_text pre q in
  wf_gpath (pre ++ q) = true /\
  parse_path stored = ROk (pre ++ q) /\
  create_update_path stored = ROk (pre ++ q).
Proof. exact accepted_end_to_end. Qed.
Print Assumptions C16_accepted_end_to_end.

Theorem C16_accepted_parent : forall p e,
  accepted_gpath (p ++ [e]) = true -> get_parent (str_path_elem (p ++ [e])) = str_path_elem p.
Proof. exact accepted_parent. Qed.
Print Assumptions C16_accepted_parent.

(* a key value containing '/' is never over the accepted alphabet *)
Theorem C16_slash_not_accepted : forall v, has c_slash v = true -> index_allowed v = false.
Proof. exact slash_not_index_allowed. Qed.
Print Assumptions C16_slash_not_accepted.

(* findUnescaped: the fast track and the escape-aware loop agree *)
Theorem C16_fast_path_agrees : forall c s, find_unescaped c s = find_slow c s.
Proof. exact find_unescaped_slow. Qed.
Print Assumptions C16_fast_path_agrees.

(* wf_gpath cannot be weakened: dropping any conjunct admits a path that does not come back *)
Theorem C16_wf_necessary :
  rt_fails [el (B "a[b") []] /\
  rt_fails [el (B "a") []; el [] []] /\
  rt_fails [el [] [(B "k", B "v")]; el (B "a") []] /\
  rt_fails [el (B "a") [(B "k2", B "1"); (B "k1", B "2")]] /\
  rt_fails [el (B "a") [(B "k", B "1"); (B "k", B "2")]] /\
  rt_fails [el (B "a") [([], B "v")]] /\
  rt_fails [el (B "a") [(B "k=", B "v")]] /\
  rt_fails [el (B "a") [(B "k\", B "v")]] /\
  rt_fails [el (B "a") [(B "k", [])]] /\
  rt_fails [el (B "a") [(B "k]", B "x/y")]].
Proof. exact wf_necessary. Qed.
Print Assumptions C16_wf_necessary.

(* the hypotheses are inhabited by non-trivial inputs *)
Theorem C16_hypotheses_inhabited : wf_gpath sample_path = true /\ accepted_gpath sample_accepted = true.
Proof. exact (conj sample_path_wf sample_accepted_ok). Qed.
Print Assumptions C16_hypotheses_inhabited.

(* model hygiene: the artificial outcomes (indexing an empty string, running out of loop fuel)
   never occur, for any text *)
Theorem C16_parsers_total : forall s,
  (parse_path s <> RPanic /\ parse_path s <> RFuel) /\
  (create_update_path s <> RPanic /\ create_update_path s <> RFuel).
Proof. exact parsers_total. Qed.
Print Assumptions C16_parsers_total.

Theorem C16_split_fuel_irrelevant : forall path fuel,
  (List.length (strip_slash path) < fuel)%nat -> split_loop fuel (strip_slash path) = split_path path.
Proof. exact split_path_fuel. Qed.
Print Assumptions C16_split_fuel_irrelevant.
