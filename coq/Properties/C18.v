(* C18 - The JSON document is the configuration, no more and no less.
   Statements only; proofs live in Proofs/TreeProofs.v, Proofs/TreeBuildProofs.v, Proofs/TreeFlattenProofs.v,
   Proofs/TreeExamples.v, and (sorted => contiguous) Proofs/TreeContiguous.v, Proofs/TreeContiguousSets.v.
   Contiguity (the paths_eqb conjunct of wf_set) is PROVED for every set:
   C18_sorted_contiguous / C18_sorted_live_paths - a set of paths sorted bytewise whose texts are "/" e1 "/" e2 ... (non-empty
   elements the tokenizer returns whole: normal_textb) and whose element lists are prefix-free (no duplicates, no leaf
   above a leaf) is the depth-first enumeration of a trie with pairwise distinct child elements at every node, so the
   paths sharing leading elements - the paths of one list entry, whose element text is one text when the keys are written
   in canonical order - are contiguous, and trie_of rebuilds exactly that trie (C18_trie_of_dfs).  Both hypotheses are
   necessary: C18_leading_slash_needed, C18_prefix_free_needed.
   wf_set itself FOLLOWS from conditions on the input (Proofs/TreeWfInputs.v, TreeWfInputsEx.v):
   C18_wf_set_from_inputs - inputs_okb rfc pvs = true -> wf_set rfc pvs = true, where inputs_okb is the conjunction of
     normal_textb (grammar) every path text is "/" e1 "/" e2 ..., elements the tokenizer returns whole
     pfreeb       (schema)  no path's elements are a prefix of another's
     grammarb     (grammar) an element containing '=' parses into a name and a non-empty key map with distinct key names
     schema_keysb (schema, YANG) every use of a list carries the same key names in the same order
     key_namesb   (schema)  a container / list inside a list entry is not named like one of the entry's keys
     key_leavesb  (values)  no leaf value makes handleLeafValue panic; an explicit key leaf says what the path says
     siblingsb    (schema)  two different elements under one parent share a member name only as two entries of one list
                            with different key maps
   all evaluated on the live paths (per path, or per pair of paths), never on the trie; C18_build_render_inputs and
   C18_flatten_build_inputs restate the two main theorems over them.  Each schema / grammar / value condition is needed:
   C18_schema_keys_needed (BuildTree succeeds, the document reads back a different key), C18_siblings_needed and
   C18_key_names_needed (BuildTree fails), C18_key_leaves_needed (entry split), C18_grammar_needed (panic). *)
From Coq Require Import List NArith Bool Permutation Sorted.
From OC Require Import Base.Bytes Model.Tree Model.TreeSpec Proofs.TreeProofs Proofs.TreeBuildProofs Proofs.TreeFlattenProofs Proofs.TreeExamples
     Proofs.TreeContiguous Proofs.TreeContiguousSets Proofs.TreeWfInputs Proofs.TreeWfInputsEx.
Import ListNotations.

(* Pruning keeps exactly (as a multiset) the path/values that have no tombstone strictly above them at a path
   element boundary and that are not tombstones themselves - unless top tombstones are to be left behind -
   and returns them sorted by path.  The only hypothesis is that no path text is empty; there is no side condition on
   sibling names. *)
Theorem C18_prune_exact : forall leave pvs,
  (forall x, In x pvs -> pv_path x <> []) ->
  Permutation (prune leave pvs) (filter (keep_spec leave pvs) pvs) /\
  StronglySorted pv_le (prune leave pvs).
Proof. exact prune_exact. Qed.
Print Assumptions C18_prune_exact.

(* "above at an element boundary": same text up to the ancestor's end, then '/' or '[' *)
Theorem C18_below_is_element_boundary : forall p a,
  is_root a = false ->
  (is_path_below p a = true <-> exists c r, p = a ++ c :: r /\ boundary c = true).
Proof. exact is_path_below_spec. Qed.
Print Assumptions C18_below_is_element_boundary.

(* tree.go's own ancestor scan is utils.IsPathBelow against every tombstone *)
Theorem C18_prune_uses_is_path_below : forall p dels,
  p <> [] -> below_deleted p dels = existsb (is_path_below p) dels.
Proof. exact below_deleted_existsb. Qed.
Print Assumptions C18_prune_uses_is_path_below.

(* PrunePathMap does not depend on Go's map iteration order *)
Theorem C18_prune_map_order : forall leave m m',
  NoDup (map pv_path m) -> Permutation m m' -> prune_map leave m = prune_map leave m'.
Proof. exact prune_order_independent. Qed.
Print Assumptions C18_prune_map_order.

(* BuildTree on a well-formed set yields the document the live paths describe: one member per container,
   one list entry per key set, keys injected once *)
Theorem C18_build_render : forall rfc pvs,
  wf_set rfc pvs = true ->
  build_tree rfc pvs = Ok (render rfc (trie_of (live_paths pvs))).
Proof. exact build_tree_render. Qed.
Print Assumptions C18_build_render.

(* Flattening the document gives back exactly the live valued leaves, plus the key leaves of the list entries
   the live paths go through (an explicit key leaf replaces the injected one).  wf_set: the live paths, in
   the order BuildTree processes them, are the depth-first enumeration of a well-formed trie - entries
   contiguous, canonical key order, one key-name list per list, no leaf above a leaf, explicit key leaves
   agreeing with the path.  That every sorted, normal, prefix-free set has contiguous entries is proved below
   (C18_sorted_live_paths); all of wf_set follows from inputs_okb (C18_wf_set_from_inputs); wf_set itself is extracted and
   evaluated by the driver on every generated set. *)
Theorem C18_flatten_build : forall rfc pvs,
  wf_set rfc pvs = true ->
  exists t, build_tree rfc pvs = Ok t /\
            Permutation (flatten (schema_of (live_paths pvs)) [] t)
                        (explicit_leaves rfc (live_paths pvs) ++ key_leaves rfc (trie_of (live_paths pvs)) []).
Proof. exact flatten_build. Qed.
Print Assumptions C18_flatten_build.

(* no more: every key leaf read back is implied by a key of a list entry on some live path *)
Theorem C18_key_leaves_implied : forall rfc pvs x,
  wf_set rfc pvs = true ->
  In x (key_leaves rfc (trie_of (live_paths pvs)) []) ->
  exists p, In p (live_paths pvs) /\ In x (implied_of [] (fst p)).
Proof. exact key_leaves_implied. Qed.
Print Assumptions C18_key_leaves_implied.

(* the hypotheses are satisfiable by a non-trivial set (nested and multi-key lists, numeric keys with an explicit
   numeric key leaf, prefix-sharing siblings, tombstones) *)
Theorem C18_wf_example : wf_set true wf_example = true /\ wf_set false wf_example = true.
Proof. exact wf_example_ok. Qed.
Print Assumptions C18_wf_example.

(* one key set, one entry: the list called n of a well-formed node holds exactly one entry per keyed child n,
   in order (an entry is never split) ... *)
Theorem C18_entries_one_per_key_set : forall rfc ks sp K0 cs n,
  wf_trie rfc ks sp K0 (TNode cs) = true -> ~ In n (map fst K0) ->
  (forall et, In et cs -> child_name et = n -> keyed_child et) ->
  arr_of n (render_cs rfc (TNode cs) (keymap_node K0)) = entries_of rfc n cs.
Proof. exact render_entries. Qed.
Print Assumptions C18_entries_one_per_key_set.

(* ... and entries of different key sets answer to their own keys only (entries are never merged) *)
Theorem C18_entries_distinct : forall rfc ks sp K0 cs ea ca eb cb n Ka Kb,
  wf_trie rfc ks sp K0 (TNode cs) = true ->
  In (ea, TNode ca) cs -> In (eb, TNode cb) cs ->
  classify ea = EKeyed n Ka -> classify eb = EKeyed n Kb -> kv_eqb Ka Kb = false ->
  full_match Ka (render_cs rfc (TNode ca) (keymap_node Ka)) /\
  some_differs Kb (render_cs rfc (TNode ca) (keymap_node Ka)).
Proof. exact entries_distinct. Qed.
Print Assumptions C18_entries_distinct.

(* outside the domain: keys written in different orders split an entry (environment only: plugin output) *)
Theorem C18_noncanonical_refuted :
  exists l, build_tree true noncanonical_witness = Ok (NMap [(B "m", NArr l)]) /\
            count_matching [(B "a", B "1"); (B "b", B "2")] l = 2%nat /\
            wf_set true noncanonical_witness = false.
Proof. exact noncanonical_split. Qed.
Print Assumptions C18_noncanonical_refuted.

(* open finding F-C18-1: an explicit key leaf of a non-basic JSON type splits its entry *)
Theorem C18_nonbasic_key_leaf_refuted :
  exists l, build_tree true nonbasic_key_witness = Ok (NMap [(B "l", NArr l)]) /\
            List.length l = 2%nat /\ wf_set true nonbasic_key_witness = false.
Proof. exact nonbasic_key_split. Qed.
Print Assumptions C18_nonbasic_key_leaf_refuted.

(* ---- sorted bytewise => contiguous.
   text p = "/" e1 "/" e2 ... of the elements of p; text_le = bytewise order of the texts (what PrunePathValues sorts by);
   elem_ok e: e is not empty and nextTokenIndex does not split it (brackets closed, no pending escape at its end);
   pfree L: no path's elements are a prefix of another's;  ctg L: whatever lies between two paths that share leading
   elements shares them too;  good t: every node has at least one child and pairwise distinct child elements *)
Theorem C18_sorted_contiguous : forall L,
  (forall p, In p L -> Forall elem_ok (fst p)) -> pfree L -> StronglySorted text_le L -> ctg L.
Proof. exact sorted_ctg. Qed.
Print Assumptions C18_sorted_contiguous.

Theorem C18_sorted_is_dfs : forall L,
  (forall p, In p L -> fst p <> [] /\ Forall elem_ok (fst p)) -> pfree L -> StronglySorted text_le L ->
  exists cs, NoDup (map fst cs) /\ Forall (fun et => good (snd et)) cs /\ dfs (TNode cs) = L /\ trie_of L = TNode cs.
Proof. exact sorted_is_dfs. Qed.
Print Assumptions C18_sorted_is_dfs.

(* folding a depth-first enumeration back finds the trie *)
Theorem C18_trie_of_dfs : forall t, good t -> trie_of (dfs t) = t.
Proof. exact trie_of_dfs. Qed.
Print Assumptions C18_trie_of_dfs.

(* SplitPath returns the elements of a normal text *)
Theorem C18_split_ptext : forall es, es <> [] -> Forall elem_ok es -> split_path (ptext es) = es.
Proof. exact split_ptext. Qed.
Print Assumptions C18_split_ptext.

(* on path/value sets: the contiguity conjunct of wf_set holds for every set of normal, prefix-free paths *)
Theorem C18_sorted_live_paths : forall pvs,
  (forall x, In x pvs -> normal_textb (pv_path x) = true) -> pfree (live_paths pvs) ->
  exists cs, NoDup (map fst cs) /\ Forall (fun et => good (snd et)) cs /\
             dfs (TNode cs) = live_paths pvs /\ trie_of (live_paths pvs) = TNode cs /\
             paths_eqb (dfs (trie_of (live_paths pvs))) (live_paths pvs) = true.
Proof. exact sorted_live_paths. Qed.
Print Assumptions C18_sorted_live_paths.

Theorem C18_sorted_inhabited :
  (forall x, In x wf_example -> normal_textb (pv_path x) = true) /\ pfree (live_paths wf_example).
Proof. exact sorted_example. Qed.
Print Assumptions C18_sorted_inhabited.

(* the hypotheses are needed: without the leading '/' ("/a/b" < "/z/y" < "a/c") element a is split although the set is
   prefix-free; with a leaf above a leaf ("/a/b" < "/a/b-c" < "/a/b/d", '-' < '/') element b is split although all
   texts are normal *)
Theorem C18_leading_slash_needed :
  pfree (live_paths cx_slash) /\
  map fst (live_paths cx_slash) = [[B "a"; B "b"]; [B "z"; B "y"]; [B "a"; B "c"]] /\
  child_elems (trie_of (live_paths cx_slash)) = [B "a"; B "z"; B "a"] /\
  normal_textb (B "a/c") = false /\ wf_set true cx_slash = false.
Proof. exact leading_slash_needed. Qed.
Print Assumptions C18_leading_slash_needed.

Theorem C18_prefix_free_needed :
  (forall x, In x cx_leaf -> normal_textb (pv_path x) = true) /\
  map fst (live_paths cx_leaf) = [[B "a"; B "b"]; [B "a"; B "b-c"]; [B "a"; B "b"; B "d"]] /\
  pfreeb (live_paths cx_leaf) = false /\
  match trie_of (live_paths cx_leaf) with TNode [(_, t)] => child_elems t | _ => [] end = [B "b"; B "b-c"; B "b"] /\
  wf_set true cx_leaf = false.
Proof. exact prefix_free_needed. Qed.
Print Assumptions C18_prefix_free_needed.

(* ---- wf_set from conditions on the input (see the header for inputs_okb) *)
Theorem C18_wf_set_from_inputs : forall rfc pvs, inputs_okb rfc pvs = true -> wf_set rfc pvs = true.
Proof. exact wf_set_from_inputs. Qed.
Print Assumptions C18_wf_set_from_inputs.

Theorem C18_build_render_inputs : forall rfc pvs, inputs_okb rfc pvs = true ->
  build_tree rfc pvs = Ok (render rfc (trie_of (live_paths pvs))).
Proof. exact build_render_from_inputs. Qed.
Print Assumptions C18_build_render_inputs.

Theorem C18_flatten_build_inputs : forall rfc pvs, inputs_okb rfc pvs = true ->
  exists t, build_tree rfc pvs = Ok t /\
            Permutation (flatten (schema_of (live_paths pvs)) [] t)
                        (explicit_leaves rfc (live_paths pvs) ++ key_leaves rfc (trie_of (live_paths pvs)) []).
Proof. exact flatten_build_from_inputs. Qed.
Print Assumptions C18_flatten_build_inputs.

(* the trie is well formed as soon as every one of its paths walks through (walk = wf_trie along one path) and the
   paths part compatibly (sib) *)
Theorem C18_wf_from_paths : forall rfc ks t, good t -> forall cs, t = TNode cs -> forall sp K0,
  (forall p, In p (dfs t) -> walk rfc ks sp K0 (fst p) (snd p) = true) ->
  ForallOrdPairs sibP (dfs t) -> wf_trie rfc ks sp K0 t = true.
Proof. exact wf_from_paths. Qed.
Print Assumptions C18_wf_from_paths.

Theorem C18_inputs_inhabited : inputs_okb true wf_example = true /\ inputs_okb false wf_example = true.
Proof. exact inputs_example. Qed.
Print Assumptions C18_inputs_inhabited.

(* parts = (normal texts, prefix-free, grammar, schema keys, key names, key leaves, siblings) *)
Theorem C18_schema_keys_needed :
  parts true cx_keys = (true, true, true, false, true, true, true) /\ wf_set true cx_keys = false /\
  exists t x, build_tree true cx_keys = Ok t /\
              In x (flatten (schema_of (live_paths cx_keys)) [] t) /\
              ~ In x (explicit_leaves true (live_paths cx_keys) ++ key_leaves true (trie_of (live_paths cx_keys)) []) /\
              x = ([(B "l", [(B "a", [])]); (B "w", [])], GStr (B "2")).
Proof. exact schema_keys_needed. Qed.
Print Assumptions C18_schema_keys_needed.

Theorem C18_siblings_needed :
  parts true cx_kind = (true, true, true, true, true, true, false) /\ build_tree true cx_kind = Err /\ wf_set true cx_kind = false.
Proof. exact siblings_needed. Qed.
Print Assumptions C18_siblings_needed.

Theorem C18_key_names_needed :
  parts true cx_kname = (true, true, true, true, false, true, true) /\ build_tree true cx_kname = Err /\ wf_set true cx_kname = false.
Proof. exact key_names_needed. Qed.
Print Assumptions C18_key_names_needed.

Theorem C18_key_leaves_needed :
  parts true cx_kleaf = (true, true, true, true, true, false, true) /\
  (exists l, build_tree true cx_kleaf = Ok (NMap [(B "l", NArr l)]) /\ List.length l = 2%nat) /\ wf_set true cx_kleaf = false.
Proof. exact key_leaves_needed. Qed.
Print Assumptions C18_key_leaves_needed.

Theorem C18_grammar_needed :
  parts true cx_gram = (true, true, false, true, true, true, true) /\ build_tree true cx_gram = Panic /\ wf_set true cx_gram = false.
Proof. exact grammar_needed. Qed.
Print Assumptions C18_grammar_needed.
