(* C20 - The v3 transaction protocol keeps its specified order and consistency.
   Statements, with a few short proofs that combine witnesses; the proofs live in Proofs/Proto3Proofs.v,
   Proofs/Proto3Witness.v, Proofs/Proto3Order*.v, Proofs/Proto3Ordinals.v and Proofs/Proto3Blocks*.v.
   PROVED, unbounded (all reachable worlds): commit-before-apply, ordinal monotonicity, and the whole first conjunct of
   Order of spec/Config.tla - C20_order (reach w -> order_ok (w_hist w) = true) with its readable consequences
   C20_changes_in_log_order, C20_ordinals_follow_log_order, C20_rollbacks_reverse(_explicit); the proof goes through the
   frontier invariant C20_frontier_invariant (Proofs/Proto3OrderBase.v: SInv + HInv, 28 conjuncts relating the Committed /
   Applied cursors to the phase states of all transactions and to the history).
   Also PROVED unbounded: C20_failed_blocks_later (a change whose apply FAILED or was ABORTED keeps every later change from
   being applied until it is rolled back), through the second invariant layer C20_blocks_invariant (Proofs/Proto3Blocks*.v).
   BOUNDED only (depth 7): Consistency on histories inside the guards (C20_safety_bounded_partial).
   REFUTED for the code as it is: Consistency and termination (C20_*_refuted).
   reach w = w is the result of ANY finite sequence of labels (append change, rollback request, reconcile of a
   transaction / the configuration / the mastership with any oracle and any crash point, topology and connection
   changes, device restart) from the empty world. *)
From Coq Require Import List NArith Bool Lia.
From OC Require Import Model.Proto3 Spec.Tla3 Proofs.Proto3Proofs Proofs.Proto3Witness
  Proofs.Proto3OrderBase Proofs.Proto3OrderStep Proofs.Proto3OrderThm Proofs.Proto3Ordinals Proofs.Proto3BlocksBase Proofs.Proto3BlocksStep.
Import ListNotations.
Open Scope N_scope.

(* PROVED for every reachable world (all histories, schedules, crash points): each phase is committed before it is
   applied - a change whose apply is or was in progress on the device has its commit COMPLETE, a rollback whose apply
   left PENDING has its rollback commit COMPLETE. *)
Theorem C20_commit_before_apply : forall w, reach w -> Forall cba (w_txs w).
Proof. exact commit_before_apply_reach. Qed.
Print Assumptions C20_commit_before_apply.

(* PROVED for every world and every label: the committed ordinal - the sequence number that orders applies - never
   decreases and grows by at most one per step. *)
Theorem C20_ordinal_mono : forall w l c c',
  w_cfg w = Some c -> w_cfg (step w l) = Some c' ->
  k_ordinal (c_cm c) <= k_ordinal (c_cm c') <= k_ordinal (c_cm c) + 1.
Proof. exact committed_ordinal_step. Qed.
Print Assumptions C20_ordinal_mono.

(* PROVED for every reachable world: the frontier invariant.  Inv w = SInv /\ HInv over (get_tx w, number of transactions,
   Committed cursor, Applied cursor, history): Committed.Index = Committed.Change; transactions above Change + 1 are PENDING,
   the one at Change + 1 is PENDING or (IN_PROGRESS / FAILED with Committed.Target naming it), those up to Change are
   COMPLETE / FAILED (or the one at Change is IN_PROGRESS with its configuration write done); a rollback commit that left
   PENDING belongs to the transaction at Committed.Index with Committed.Target = its rollback index; ordinals of committed
   changes are positive, bounded by Committed.Ordinal and strictly increasing in the log index, a committed rollback holds the
   top ordinal; a change apply IN_PROGRESS is the one Applied.Target names with Applied.Ordinal just below (or equal, after its
   configuration write) its ordinal; COMPLETE / ABORTED / FAILED applies are at most one above Applied.Ordinal; a rollback
   apply IN_PROGRESS has its commit COMPLETE and Applied.Target = its rollback index; every completed change commit in the
   history has index <= Committed.Change, every committed change has its completion event, every completed change apply in
   the history belongs to a committed change with ordinal <= Applied.Ordinal; and the history is ordered. *)
Theorem C20_frontier_invariant : forall w, reach w -> Inv w.
Proof. exact Inv_reach. Qed.
Print Assumptions C20_frontier_invariant.

(* PROVED for every reachable world (all label sequences, all crash prefixes, all oracles): the first conjunct of Order of
   spec/Config.tla - every COMPLETE event of the history is an ordered change commit / change apply / rollback commit /
   rollback apply with respect to the events before it. *)
Theorem C20_order : forall w, reach w -> order_ok (w_hist w) = true.
Proof. exact order_reach. Qed.
Print Assumptions C20_order.

(* ... hence: change commits complete in log-index order and change applies complete in log-index order (p = StCommit / StApply) *)
Theorem C20_changes_in_log_order : forall w, reach w ->
  forall p h1 e1 h2 e2 h3, w_hist w = h1 ++ e1 :: h2 ++ e2 :: h3 ->
  is_ev PhChange p e1 = true -> is_ev PhChange p e2 = true -> e_index e1 < e_index e2.
Proof. exact changes_in_log_order_reach. Qed.
Print Assumptions C20_changes_in_log_order.

(* ... the ordinal handed out at commit, which sequences the applies, grows with the log index *)
Theorem C20_ordinals_follow_log_order : forall w, reach w ->
  forall j t k u, get_tx w j = Some t -> get_tx w k = Some u -> t_cc t = Complete -> t_cc u = Complete -> j < k ->
  t_cord t < t_cord u.
Proof. exact ordinals_follow_log_order_reach. Qed.
Print Assumptions C20_ordinals_follow_log_order.

(* ... and the ordinals stay inside the Committed cursor of the configuration: a committed change carries an ordinal between 1
   and Committed.Ordinal; a committed rollback carries exactly Committed.Ordinal, above the ordinal of every committed change
   (a rollback record never names an ordinal the configuration has not reached: the applies are sequenced by these numbers).
   The monitor c20_ordinal_outside_cursor evaluates both on the records of the implementation after every step. *)
Theorem C20_change_ordinal_within_cursor : forall w, reach w ->
  forall j t, get_tx w j = Some t -> t_cc t = Complete -> 1 <= t_cord t <= k_ordinal (cmc w).
Proof. exact change_ordinal_within_cursor_reach. Qed.
Print Assumptions C20_change_ordinal_within_cursor.

Theorem C20_rollback_ordinal_is_cursor : forall w, reach w ->
  forall j t, get_tx w j = Some t -> t_rc t = Some Complete ->
  t_rord t = k_ordinal (cmc w) /\
  forall k u, get_tx w k = Some u -> t_cc u = Complete -> t_cord u < t_rord t.
Proof. exact rollback_ordinal_is_cursor_reach. Qed.
Print Assumptions C20_rollback_ordinal_is_cursor.

(* ... rollback commits / applies complete in reverse order of the changes they undo: a completed rollback of stage p is an
   IsOrderedRollback of Config.tla at its position - spelled out: its change was completed before it, and every completed
   stage-p change with a larger index before it has since been followed by a stage-p rollback event of that index *)
Theorem C20_rollbacks_reverse : forall w, reach w ->
  forall p h1 e h2, w_hist w = h1 ++ e :: h2 -> is_ev PhRollback p e = true -> ordered_rollback p h1 e = true.
Proof. exact rollbacks_reverse_reach. Qed.
Print Assumptions C20_rollbacks_reverse.

Theorem C20_rollbacks_reverse_explicit : forall w, reach w ->
  forall p h1 e h2, w_hist w = h1 ++ e :: h2 -> is_ev PhRollback p e = true ->
  (exists x, In x h1 /\ e_phase x = PhChange /\ is_complete x = true /\ e_index x = e_index e) /\
  (forall l1 x l2, h1 = l1 ++ x :: l2 -> is_ev PhChange p x = true -> e_index e < e_index x ->
     exists k, In k l2 /\ e_phase k = PhRollback /\ e_stage k = p /\ e_index k = e_index x).
Proof. exact rollbacks_reverse_explicit_reach. Qed.
Print Assumptions C20_rollbacks_reverse_explicit.

(* PROVED for every reachable world: the second layer of the frontier invariant (FInv, Proofs/Proto3BlocksBase.v) - the
   rollback index a change records when it starts committing is at least every committed index below it; Applied.Target,
   Applied.Revision and Committed.Revision name committed changes; the applied revision stays below every committed change
   the applied ordinal has not reached, and below a change whose apply FAILED / was ABORTED until a rollback apply has
   completed; a PENDING apply that Applied.Target already names passed the abort gate; and the blocking rule itself. *)
Theorem C20_blocks_invariant : forall w, reach w -> Inv w /\ FInv (get_tx w) (cmc w) (apc w).
Proof. exact Inv2_reach. Qed.
Print Assumptions C20_blocks_invariant.

(* PROVED for every reachable world (all label sequences, all crash prefixes, all oracles): after a change whose apply FAILED
   or was ABORTED no later change has its apply IN_PROGRESS or COMPLETE unless the failed one has been rolled back (its
   rollback apply COMPLETE / FAILED) - the abort gate of applyChange, Applied.Revision < Rollback.Index, does its job. *)
Theorem C20_failed_blocks_later : forall w, reach w -> failed_blocks_later_ok w = true.
Proof. exact failed_blocks_later_reach. Qed.
Print Assumptions C20_failed_blocks_later.

(* BOUNDED (Order and the blocking rule are proved above without bound; what is still only bounded here is Consistency,
   which the code violates in general - see the refutations below):
   every label sequence of length <= 7 over append / rollback of the committed revision / reconcile of transactions
   1..2 {complete, crash after the first write, plugin rejects, device refuses} from a healthy single-path
   configuration keeps Order (changes in log order, rollbacks in reverse order), commit-before-apply on the event
   history, the blocking rule for failed / aborted applies and Consistency (committed values, applied values and -
   when synchronized and no apply is in flight - the device hold the change that is the committed / applied revision). *)
Theorem C20_safety_bounded_partial : explore 7 w_healthy = true.
Proof. exact bounded_exploration. Qed.
Print Assumptions C20_safety_bounded_partial.

(* a non-trivial history with a crash between the two records at every step satisfies the whole of Safety, the
   blocking rule and terminates *)
Theorem C20_example_history : let w := run ls_good in
  safety_ok w && failed_blocks_later_ok w && all_terminal w && negb (w_panicked w) = true.
Proof. exact good_history. Qed.
Print Assumptions C20_example_history.

(* REFUTED on the faithful model (each witness reproduced on the real code, findings/C20.jsonl): *)

(* Consistency, committed side (F-20b: the committed path map written by Create shadows later committed values) *)
Theorem C20_consistency_committed_refuted : exists w, reach w /\ order_ok (w_hist w) = true /\ consistency_committed_ok w = false.
Proof. exists (run ls_alias). split; [exists ls_alias; reflexivity | split; [exact alias_history_is_ordered | exact alias_refutes_committed]]. Qed.
Print Assumptions C20_consistency_committed_refuted.

(* Consistency, applied side: after a rollback over a shadowed value (F-20c), through the store's loop variable (F-20d),
   below a tomb-stone (F-20h) *)
Theorem C20_consistency_applied_refuted :
  (exists w, reach w /\ consistency_applied_ok w = false /\ w = run ls_alias_rb) /\
  (exists w, reach w /\ consistency_applied_ok w = false /\ w = run ls_loopvar) /\
  (exists w, reach w /\ consistency_applied_ok w = false /\ w = run ls_tomb).
Proof.
  split; [|split].
  - exists (run ls_alias_rb). split; [exists ls_alias_rb; reflexivity | split; [exact alias_rollback_refutes_applied | reflexivity]].
  - exists (run ls_loopvar). split; [exists ls_loopvar; reflexivity | split; [exact loop_variable_refutes_applied | reflexivity]].
  - exists (run ls_tomb). split; [exists ls_tomb; reflexivity | split; [exact tombstone_refutes_applied | reflexivity]].
Qed.
Print Assumptions C20_consistency_applied_refuted.

(* the applied revision can name a change that never reached the device (F-20g) *)
Theorem C20_applied_revision_refuted : exists w, reach w /\ consistency_applied_ok w = false /\
  match w_cfg w with Some c => match get_tx w (k_revision (c_ap c)) with Some t => t_ca t = Failed | None => False end | None => False end.
Proof.
  exists (run ls_unapplied). split; [exists ls_unapplied; reflexivity | split; [exact unapplied_refutes_applied | vm_compute; reflexivity]].
Qed.
Print Assumptions C20_applied_revision_refuted.

(* hence Safety of spec/Config.tla does not hold for the code as it is *)
Theorem C20_safety_refuted : exists w, reach w /\ safety_ok w = false.
Proof.
  exists (run ls_alias). split; [exists ls_alias; reflexivity|].
  unfold safety_ok, consistency_ok. rewrite alias_refutes_committed. rewrite andb_false_r. reflexivity.
Qed.
Print Assumptions C20_safety_refuted.

(* "every transaction terminates": a reconcile can panic (F-20a) ... *)
Theorem C20_termination_refuted_panic : exists w, reach w /\ w_panicked w = true.
Proof. exists (run ls_nil). split; [exists ls_nil; reflexivity | exact nil_values_panic]. Qed.
Print Assumptions C20_termination_refuted_panic.

(* ... and after a completed rollback (F-20e) or behind a change that failed validation (F-20f) a transaction is
   pending for ever: no reconcile of any transaction under any oracle has any effect *)
Theorem C20_termination_refuted_wedge : exists w, reach w /\ all_terminal w = false /\
  forall o i, fst (rec_tx o w i) = [].
Proof.
  exists (run ls_wedge). split; [exists ls_wedge; reflexivity|]. split; [exact wedge_not_terminal|].
  intros o i.
  destruct (N.ltb 2 i) eqn:E.
  - apply wedge_no_other_tx. apply N.ltb_lt. exact E.
  - apply N.ltb_ge in E.
    assert (H : i = 0 \/ i = 1 \/ i = 2) by lia.
    destruct H as [-> | [-> | ->]]; [vm_compute; reflexivity | apply wedge_tx1_done | apply wedge_tx2_stuck].
Qed.
Print Assumptions C20_termination_refuted_wedge.

Theorem C20_termination_refuted_behind_failed : exists w, reach w /\ all_terminal w = false /\
  forall o, fst (rec_tx o w 1) = [] /\ fst (rec_tx o w 2) = [].
Proof. exists (run ls_behind). split; [exists ls_behind; reflexivity | split; [exact behind_failed_not_terminal | exact behind_failed_stuck]]. Qed.
Print Assumptions C20_termination_refuted_behind_failed.
